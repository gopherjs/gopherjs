(* C14 — helpers: JS bit operations on small non-negative numbers as arithmetic, and [Z.of_N] through the bit
   operations and the boolean tests (C11 models the same prelude functions over Z). *)
From Coq Require Import List NArith ZArith Bool Arith Lia ZifyN ZifyNat ZifyBool.
From Verif Require Import Base.Word.

Import ListNotations.
Local Open Scope N_scope.

Definition leb_t a b : a <= b -> (a <=? b) = true := proj2 (N.leb_le a b).
Definition leb_f a b : b < a -> (a <=? b) = false := proj2 (N.leb_gt a b).

Lemma if_map {A B} (f : A -> B) (b b' : bool) x y x' y' :
  b = b' -> x = f x' -> y = f y' -> (if b then x else y) = f (if b' then x' else y').
Proof. intros -> -> ->. destruct b'; reflexivity. Qed.

Lemma of_N_lor a b : Z.of_N (N.lor a b) = Z.lor (Z.of_N a) (Z.of_N b).
Proof. destruct a, b; reflexivity. Qed.

Lemma of_N_land a b : Z.of_N (N.land a b) = Z.land (Z.of_N a) (Z.of_N b).
Proof. destruct a, b; reflexivity. Qed.

Lemma of_N_shiftl a n : Z.of_N (N.shiftl a n) = Z.shiftl (Z.of_N a) (Z.of_N n).
Proof. rewrite N.shiftl_mul_pow2, Z.shiftl_mul_pow2, N2Z.inj_mul, N2Z.inj_pow by apply N2Z.is_nonneg. reflexivity. Qed.

Lemma of_N_shiftr a n : Z.of_N (N.shiftr a n) = Z.shiftr (Z.of_N a) (Z.of_N n).
Proof. rewrite N.shiftr_div_pow2, Z.shiftr_div_pow2, N2Z.inj_div, N2Z.inj_pow by apply N2Z.is_nonneg. reflexivity. Qed.

Lemma of_N_ltb a b : (a <? b) = (Z.of_N a <? Z.of_N b)%Z.
Proof. unfold N.ltb, Z.ltb. rewrite N2Z.inj_compare. reflexivity. Qed.

Lemma of_N_leb a b : (a <=? b) = (Z.of_N a <=? Z.of_N b)%Z.
Proof. unfold N.leb, Z.leb. rewrite N2Z.inj_compare. reflexivity. Qed.

(* [a * 2 ^ n] has no bit below [n] and [b] none from [n] on, so nothing carries. *)
Lemma lor_add (a n b : N) : b < 2 ^ n -> N.lor (a * 2 ^ n) b = a * 2 ^ n + b.
Proof.
  intros Hb. apply N2Z.inj. rewrite of_N_lor, N2Z.inj_add, N2Z.inj_mul, N2Z.inj_pow.
  apply lor_shift_add; [apply N2Z.is_nonneg|]. change 2%Z with (Z.of_N 2). rewrite <- N2Z.inj_pow. lia.
Qed.

Lemma pack (a n b : N) : b < 2 ^ n -> N.lor (N.shiftl a n) b = a * 2 ^ n + b.
Proof. rewrite N.shiftl_mul_pow2. apply lor_add. Qed.

Lemma add_sub_l (a b : N) : a + b - a = b.
Proof. rewrite N.add_comm. apply N.add_sub. Qed.
