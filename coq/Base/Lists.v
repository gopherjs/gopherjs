(* Facts about lists that Coq 8.16's List library lacks and that more than one property needs.  From [eqb] on they are over a
   boolean equality of the elements: the tests that the models write out for themselves (equality of two lists, membership,
   first index, absence of duplicates), each with the lemma that says what it decides.  A model's own copy ([str_eqb], [mem],
   [index_of], [nodupb] ...) has the same body as the instance here, so its lemma is the one here, closed by [exact] up to
   conversion.  Last, the insertion-ordered set ([oadd]) over any membership test. *)
From Coq Require Import List Bool Arith.
Import ListNotations.

Section Lists.
Context {A : Type}.

Lemma firstn_app_exact (a b : list A) : firstn (length a) (a ++ b) = a.
Proof. induction a; cbn; congruence. Qed.

Lemma skipn_app_plus (a b : list A) n : skipn (length a + n) (a ++ b) = skipn n b.
Proof. induction a as [|x a IH]; [reflexivity | exact IH]. Qed.

Lemma skipn_app_exact (a b : list A) : skipn (length a) (a ++ b) = b.
Proof. rewrite <- (Nat.add_0_r (length a)). apply skipn_app_plus. Qed.

Lemma nth_error_skipn (l : list A) k i : nth_error (skipn k l) i = nth_error l (k + i).
Proof. revert l. induction k as [|k IH]; intros [|x l]; cbn; auto. destruct i; reflexivity. Qed.

Lemma NoDup_app_iff (l1 l2 : list A) :
  NoDup (l1 ++ l2) <-> NoDup l1 /\ NoDup l2 /\ forall x, In x l1 -> ~ In x l2.
Proof.
  induction l1 as [|a l1 IH]; simpl.
  - split; [intro H; repeat split; [constructor | exact H | auto] | tauto].
  - rewrite !NoDup_cons_iff, IH, in_app_iff. split.
    + intros (Ha & N1 & N2 & D). repeat split; auto. intros x [<-|Hx]; auto.
    + intros ((Ha & N1) & N2 & D). repeat split; auto. intros [Hin|Hin]; [auto | exact (D a (or_introl eq_refl) Hin)].
Qed.

Lemma NoDup_snoc (l : list A) x : NoDup l -> ~ In x l -> NoDup (l ++ [x]).
Proof. intros ND NI. apply (NoDup_Add (Add_app x l [])). rewrite app_nil_r. auto. Qed.

Lemma NoDup_map_inj {B} (f : A -> B) l :
  NoDup (map f l) -> forall a b, In a l -> In b l -> f a = f b -> a = b.
Proof.
  induction l as [|x l IH]; intros ND a b Ha Hb E; cbn in *; [contradiction|].
  inversion ND as [|? ? Hn ND']; subst.
  destruct Ha as [Ha|Ha], Hb as [Hb|Hb]; subst.
  - reflexivity.
  - exfalso. apply Hn. rewrite E. apply in_map. exact Hb.
  - exfalso. apply Hn. rewrite <- E. apply in_map. exact Ha.
  - apply (IH ND'); assumption.
Qed.

Lemma Forall2_length {B} (R : A -> B -> Prop) l l' : Forall2 R l l' -> length l = length l'.
Proof. intro H. induction H; cbn; congruence. Qed.

Lemma fold_left_inv {B} (P : A -> Prop) (f : A -> B -> A) l :
  (forall s b, P s -> P (f s b)) -> forall s, P s -> P (fold_left f l s).
Proof. induction l as [|b l IH]; simpl; intros H s Hs; [exact Hs | apply (IH H), H, Hs]. Qed.

Lemma flat_map_ext_in {B} (f g : A -> list B) l : (forall a, In a l -> f a = g a) -> flat_map f l = flat_map g l.
Proof.
  intro H. induction l as [|a l IH]; cbn; [reflexivity|]. rewrite (H a (or_introl eq_refl)), IH; [reflexivity|].
  intros. apply H. now right.
Qed.
Lemma existsb_ext_in (f g : A -> bool) l : (forall a, In a l -> f a = g a) -> existsb f l = existsb g l.
Proof.
  intro H. induction l as [|a l IH]; cbn; [reflexivity|]. rewrite (H a (or_introl eq_refl)), IH; [reflexivity|].
  intros. apply H. now right.
Qed.

Variable eqb : A -> A -> bool.
Hypothesis eqb_eq : forall x y, eqb x y = true <-> x = y.

Lemma existsb_eqb_In x l : existsb (eqb x) l = true <-> In x l.
Proof.
  rewrite existsb_exists. split.
  - intros (y & Hy & E). apply eqb_eq in E. subst. exact Hy.
  - intro H. exists x. split; [exact H | apply eqb_eq; reflexivity].
Qed.

Lemma existsb_eqb_not_In x l : existsb (eqb x) l = false <-> ~ In x l.
Proof. rewrite <- existsb_eqb_In. symmetry. apply not_true_iff_false. Qed.

Fixpoint list_eqb (a b : list A) : bool :=
  match a, b with
  | [], [] => true
  | x :: a', y :: b' => eqb x y && list_eqb a' b'
  | _, _ => false
  end.

(* relative to the elements of [a]: the form that an induction over a type whose constructors carry lists of itself can supply *)
Lemma list_eqb_eq_in a : (forall x, In x a -> forall y, eqb x y = true <-> x = y) -> forall b, list_eqb a b = true <-> a = b.
Proof.
  induction a as [|x a IH]; intros H [|y b]; cbn [list_eqb].
  - split; reflexivity.
  - split; discriminate.
  - split; discriminate.
  - rewrite andb_true_iff, (H x (or_introl eq_refl)), (IH (fun z Hz => H z (or_intror Hz))).
    split; [intros [-> ->]; reflexivity | intro E; injection E; auto].
Qed.

Lemma list_eqb_eq a b : list_eqb a b = true <-> a = b.
Proof. apply list_eqb_eq_in. intros x _. apply eqb_eq. Qed.

Fixpoint index_of (x : A) (l : list A) : option nat :=
  match l with
  | [] => None
  | y :: r => if eqb x y then Some O else option_map S (index_of x r)
  end.

Lemma index_of_nth x l k : index_of x l = Some k -> nth_error l k = Some x.
Proof.
  revert k. induction l as [|y r IH]; cbn [index_of]; intros k H; [discriminate|].
  destruct (eqb x y) eqn:E.
  - apply eqb_eq in E. injection H as <-. subst y. reflexivity.
  - destruct (index_of x r); [|discriminate]. injection H as <-. exact (IH _ eq_refl).
Qed.

Lemma index_of_inj l x y k : index_of x l = Some k -> index_of y l = Some k -> x = y.
Proof. intros Hx Hy. apply index_of_nth in Hx. apply index_of_nth in Hy. congruence. Qed.

Lemma index_of_app_l x a b k : index_of x a = Some k -> index_of x (a ++ b) = Some k.
Proof.
  revert k. induction a as [|y a IH]; cbn [index_of app]; intros k H; [discriminate|]. destruct (eqb x y); [exact H|].
  destruct (index_of x a); [|discriminate]. rewrite (IH _ eq_refl). exact H.
Qed.

Lemma index_of_In x l : In x l -> exists k, index_of x l = Some k.
Proof.
  induction l as [|y l IH]; cbn [index_of]; intro H; [destruct H|]. destruct (eqb x y) eqn:E; [eauto|].
  destruct H as [->|H]; [rewrite (proj2 (eqb_eq x x) eq_refl) in E; discriminate|].
  destruct (IH H) as [k ->]. cbn. eauto.
Qed.

Lemma index_of_NoDup x l k : NoDup l -> nth_error l k = Some x -> index_of x l = Some k.
Proof.
  intros ND H. destruct (index_of_In x l (nth_error_In _ _ H)) as [m E]. rewrite E. f_equal. apply index_of_nth in E.
  apply (proj1 (NoDup_nth_error l) ND); [apply nth_error_Some|]; congruence.
Qed.

Fixpoint nodupb (l : list A) : bool :=
  match l with
  | [] => true
  | x :: r => negb (existsb (eqb x) r) && nodupb r
  end.

Lemma nodupb_NoDup l : nodupb l = true <-> NoDup l.
Proof.
  induction l as [|x r IH]; cbn [nodupb]; [split; [constructor | reflexivity]|].
  rewrite andb_true_iff, negb_true_iff, existsb_eqb_not_In, IH. symmetry. apply NoDup_cons_iff.
Qed.

(* An ordered set (typeparams.InstanceSet, typesutil.TypeNames): the elements in the order of their first insertion, so that the
   index of an element is its id.  [oadd] is Add: append unless present.  The membership test is a parameter, since the models
   write it in different ways ([existsb], a fixpoint of their own). *)
Section OrdSet.
Variable mem : A -> list A -> bool.
Hypothesis mem_In : forall x l, mem x l = true <-> In x l.

Definition oadd (s : list A) (x : A) : list A := if mem x s then s else s ++ [x].
Definition oadd_all (s xs : list A) : list A := fold_left oadd xs s.

Lemma oadd_present s x : In x s -> oadd s x = s.
Proof. intro H. unfold oadd. rewrite (proj2 (mem_In x s) H). reflexivity. Qed.

Lemma In_oadd s x y : In y (oadd s x) <-> In y s \/ y = x.
Proof.
  unfold oadd. destruct (mem x s) eqn:M.
  - apply mem_In in M. split; [auto | intros [H| ->]; assumption].
  - rewrite in_app_iff. simpl. intuition.
Qed.

Lemma oadd_NoDup s x : NoDup s -> NoDup (oadd s x).
Proof.
  intro ND. unfold oadd. destruct (mem x s) eqn:M; [exact ND|]. apply NoDup_snoc; [exact ND|].
  rewrite <- mem_In, M. discriminate.
Qed.

Lemma oadd_extends s x : exists suf, oadd s x = s ++ suf.
Proof. unfold oadd. destruct (mem x s); [exists []; symmetry; apply app_nil_r | eauto]. Qed.

Lemma In_oadd_all xs : forall s y, In y (oadd_all s xs) <-> In y s \/ In y xs.
Proof.
  unfold oadd_all. induction xs as [|x xs IH]; intros s y; simpl; [tauto|]. rewrite IH, In_oadd. intuition.
Qed.

Lemma oadd_all_NoDup xs : forall s, NoDup s -> NoDup (oadd_all s xs).
Proof. induction xs as [|x xs IH]; intros s ND; [exact ND | apply IH, oadd_NoDup, ND]. Qed.

Lemma oadd_all_extends xs : forall s, exists suf, oadd_all s xs = s ++ suf.
Proof.
  unfold oadd_all. induction xs as [|x xs IH]; intro s; simpl; [exists []; symmetry; apply app_nil_r|].
  destruct (oadd_extends s x) as [u E], (IH (oadd s x)) as [v E']. exists (u ++ v). rewrite E', E, app_assoc. reflexivity.
Qed.
End OrdSet.

End Lists.
