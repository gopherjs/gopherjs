(* Texts that can be told from what follows them, over any alphabet.
   A writer is a [prefix_code] when its output, followed by anything, determines the value written and what follows: what some
   parser reads back is one (parser_prefix_code), and a printed record of literals and such values comes apart field by
   field (field_inj).  A token is "delimited" when the token followed by a text that may come after it (the end, a separator)
   determines both.  Symbols written one after the other in the words of a prefix code, none of which begins
   such a text, form a delimited token (flat_map_delimited).  In a text of delimited tokens joined by a separator, what
   follows a token determines the remaining tokens (jtail_inj); the joined text itself determines the tokens when their
   number is known (join_inj_len), or when no token is empty (join_inj_ne): "" is the join of no token and of one empty
   token alike.  Used by the key strings of C09, C15 and C20. *)
From Coq Require Import List.
Import ListNotations.

Section Delimited.
Context {A : Type}.

Definition prefix_code {X} (f : X -> list A) : Prop :=
  forall a b x y, f a ++ x = f b ++ y -> a = b /\ x = y.

Lemma parser_prefix_code : forall {X} (f : X -> list A) (p : list A -> option (X * list A)),
  (forall a x, p (f a ++ x) = Some (a, x)) -> prefix_code f.
Proof.
  intros X f p Hp a b x y Heq. apply (f_equal p) in Heq. rewrite !Hp in Heq. injection Heq as -> ->. split; reflexivity.
Qed.

(* One field of a printed record: a literal, then a value in a prefix code.  Stated with the tail r outside the
   parentheses, as it stands when something follows the whole record, so that long literals are never reassociated. *)
Lemma field_inj : forall {X} (f : X -> list A), prefix_code f ->
  forall lit a b x y r1 r2, (lit ++ f a ++ x) ++ r1 = (lit ++ f b ++ y) ++ r2 -> a = b /\ x ++ r1 = y ++ r2.
Proof. intros X f Hf lit a b x y r1 r2 Heq. rewrite <- !app_assoc in Heq. apply app_inv_head in Heq. exact (Hf _ _ _ _ Heq). Qed.

(* P: the tokens meant; T: the texts that may follow one *)
Definition delimited {X} (tok : X -> list A) (P : X -> Prop) (T : list A -> Prop) : Prop :=
  forall a b r r', P a -> P b -> T r -> T r' -> tok a ++ r = tok b ++ r' -> a = b /\ r = r'.

Lemma flat_map_delimited : forall {X} (f : X -> list A) (T : list A -> Prop),
  prefix_code f -> (forall c x r, T r -> f c ++ x <> r) ->
  delimited (flat_map f) (fun _ => True) T.
Proof.
  intros X f T Hf Hstop. unfold delimited.
  induction a as [|c a IH]; intros [|d b] r r' _ _ Hr Hr' H; cbn [flat_map] in H; rewrite <- ?app_assoc in H.
  - now split.
  - destruct (Hstop _ _ _ Hr (eq_sym H)).
  - destruct (Hstop _ _ _ Hr' H).
  - destruct (Hf _ _ _ _ H) as [-> H']. destruct (IH b r r' I I Hr Hr' H') as [-> ->]. now split.
Qed.

Lemma flat_map_inj_prefix : forall {X} (f : X -> list A) (stop : A),
  prefix_code f -> (forall a x r, stop :: r <> f a ++ x) ->
  forall l1 l2 r1 r2, flat_map f l1 ++ stop :: r1 = flat_map f l2 ++ stop :: r2 -> l1 = l2 /\ r1 = r2.
Proof.
  intros X f stop Hf Hstop l1 l2 r1 r2 H.
  apply (flat_map_delimited f (fun r => exists r0, r = stop :: r0) Hf) in H as [-> H]; [now injection H | | exact I | exact I | eauto ..].
  intros c x r [r0 ->] E. exact (Hstop c x r0 (eq_sym E)).
Qed.

Variable sep : A.

(* after a token of a joined text: the end, or the separator *)
Definition tail_ok (r : list A) : Prop := r = [] \/ exists t, r = sep :: t.

Lemma delimited_split : forall {X} (tok : X -> list A) P, delimited tok P tail_ok ->
  forall a b x y, P a -> P b -> tok a ++ sep :: x = tok b ++ sep :: y -> a = b /\ x = y.
Proof.
  intros X tok P Htok a b x y Pa Pb H.
  apply Htok in H as [-> H]; [now injection H | exact Pa | exact Pb | right; eauto ..].
Qed.

(* Array.prototype.join / strings.Join with a one-character separator *)
Fixpoint join (l : list (list A)) : list A :=
  match l with
  | [] => []
  | [x] => x
  | x :: r => x ++ sep :: join r
  end.

Definition jtail (l : list (list A)) : list A := match l with [] => [] | _ => sep :: join l end.

Lemma join_cons : forall x l, join (x :: l) = x ++ jtail l.
Proof. intros x [|y l]; cbn [join jtail]; [now rewrite app_nil_r | reflexivity]. Qed.

Lemma jtail_ok : forall l, tail_ok (jtail l).
Proof. intros [|x l]; [now left | right; eexists; reflexivity]. Qed.

Lemma jtail_inj : forall {X} (tok : X -> list A) P, delimited tok P tail_ok ->
  forall xs ys, Forall P xs -> Forall P ys -> jtail (map tok xs) = jtail (map tok ys) -> xs = ys.
Proof.
  intros X tok P Htok xs ys Hx. revert ys. induction Hx as [|x xs Px _ IH]; intros [|y ys] Hy H; try discriminate H; [reflexivity|].
  inversion Hy as [|? ? Py Hys]; subst. cbn [map jtail] in H. rewrite !join_cons in H. injection H as H.
  apply Htok in H as [-> H]; [|assumption | assumption | apply jtail_ok ..]. f_equal. exact (IH ys Hys H).
Qed.

Lemma join_inj_len : forall {X} (tok : X -> list A) P, delimited tok P tail_ok ->
  forall xs ys, Forall P xs -> Forall P ys -> length xs = length ys ->
  join (map tok xs) = join (map tok ys) -> xs = ys.
Proof.
  intros X tok P Htok [|x xs] [|y ys] Hx Hy Hlen H; try discriminate Hlen; [reflexivity|].
  exact (jtail_inj tok P Htok _ _ Hx Hy (f_equal (cons sep) H)).
Qed.

Lemma plain_delimited : delimited (fun s : list A => s) (fun s => ~ In sep s) tail_ok.
Proof.
  unfold delimited. induction a as [|x a IH]; intros [|y b] r r' Ha Hb Hr Hr' E; cbn in *.
  - now split.
  - destruct Hr as [->|[t ->]]; [discriminate|]. injection E as <- _. destruct Hb. now left.
  - destruct Hr' as [->|[t ->]]; [discriminate|]. injection E as -> _. destruct Ha. now left.
  - injection E as -> E. destruct (IH b r r') as [-> ->]; auto.
Qed.

Lemma join_inj_ne : forall {X} (tok : X -> list A) P, delimited tok P tail_ok -> (forall a, P a -> tok a <> []) ->
  forall xs ys, Forall P xs -> Forall P ys -> join (map tok xs) = join (map tok ys) -> xs = ys.
Proof.
  intros X tok P Htok Hne xs ys Hx Hy H. apply (jtail_inj tok P Htok _ _ Hx Hy).
  destruct Hx as [|x xs Px _], Hy as [|y ys Py _]; cbn [map jtail] in *; [reflexivity | | | now rewrite H].
  - symmetry in H. rewrite join_cons in H. apply app_eq_nil in H as [H _]. now apply Hne in H.
  - rewrite join_cons in H. apply app_eq_nil in H as [H _]. now apply Hne in H.
Qed.

End Delimited.
