(* Sorting by a key, as sort.Slice / sort.Strings do it: why the result depends only on which elements
   are given (as a multiset: up to Permutation) when the key identifies the element.  Nothing here depends on a model.  A model's
   insertion function enters through its two defining equations ([ins_nil], [ins_cons]), its sort
   through "returns a sorted permutation", its order on byte strings as the lexicographic order [lex_ltb N.ltb]. *)
From Coq Require Import List NArith Lia Permutation Sorted.
Import ListNotations.

Lemma StronglySorted_snoc {A} (R : A -> A -> Prop) l x :
  StronglySorted R l -> Forall (fun a => R a x) l -> StronglySorted R (l ++ [x]).
Proof.
  induction 1 as [|y r _ IH F]; intro Fx; cbn; [repeat constructor|].
  inversion Fx; subst. constructor; [apply IH; assumption|].
  apply Forall_app. split; [assumption|]. repeat constructor. assumption.
Qed.

Lemma StronglySorted_rev {A} (R : A -> A -> Prop) l :
  StronglySorted R l -> StronglySorted (fun a b => R b a) (rev l).
Proof.
  induction 1 as [|x l _ IH F]; cbn; [constructor|].
  apply StronglySorted_snoc; [exact IH|]. apply Forall_rev. exact F.
Qed.

Lemma sorted_perm_eq {A} (R : A -> A -> Prop) l1 l2 :
  StronglySorted R l1 -> StronglySorted R l2 -> Permutation l1 l2 ->
  (forall a b, In a l1 -> In b l1 -> R a b -> R b a -> a = b) ->
  l1 = l2.
Proof.
  revert l2. induction l1 as [|a t1 IH]; intros l2 S1 S2 P Anti.
  - apply Permutation_nil in P. subst. reflexivity.
  - destruct l2 as [|b t2]; [apply Permutation_sym, Permutation_nil in P; discriminate|].
    inversion S1 as [|? ? S1' F1]; subst. inversion S2 as [|? ? S2' F2]; subst.
    assert (Hab : a = b).
    { (* each head occurs in the other list: at its head, or behind it, and then the heads are related both ways *)
      assert (Ia : In a (b :: t2)) by (eapply Permutation_in; [exact P|left; reflexivity]).
      assert (Ib : In b (a :: t1)) by (eapply Permutation_in; [apply Permutation_sym; exact P|left; reflexivity]).
      destruct Ia as [Ia|Ia]; [symmetry; exact Ia|].
      destruct Ib as [Ib|Ib]; [exact Ib|].
      rewrite Forall_forall in F1, F2.
      apply Anti; [left; reflexivity|right; exact Ib|apply F1; exact Ib|apply F2; exact Ia]. }
    subst b. f_equal.
    apply IH; try assumption.
    + eapply Permutation_cons_inv. exact P.
    + intros x y Hx Hy. apply Anti; right; assumption.
Qed.

Record strict_total {K} (lt : K -> K -> bool) : Prop := {
  st_asym : forall a b, lt a b = true -> lt b a = false;
  st_trans : forall a b c, lt a b = true -> lt b c = true -> lt a c = true;
  st_total : forall a b, lt a b = false -> lt b a = false -> a = b }.

Lemma strict_total_flip {K} (lt : K -> K -> bool) : strict_total lt -> strict_total (fun a b => lt b a).
Proof.
  intros [As Tr To]. split.
  - intros a b. apply As.
  - intros a b c H1 H2. exact (Tr c b a H2 H1).
  - intros a b H1 H2. exact (To a b H2 H1).
Qed.

Lemma strict_total_negtrans {K} (lt : K -> K -> bool) : strict_total lt ->
  forall a b c, lt a b = false -> lt b c = false -> lt a c = false.
Proof.
  intros [As Tr To] a b c H1 H2.
  destruct (lt a c) eqn:Hac; [|reflexivity].
  destruct (lt b a) eqn:Hba.
  - rewrite (Tr b a c Hba Hac) in H2. discriminate.
  - rewrite <- (To a b H1 Hba), Hac in H2. discriminate.
Qed.

Lemma strict_total_irrefl {K} (lt : K -> K -> bool) : strict_total lt -> forall a, lt a a = false.
Proof. intros [As _ _] a. destruct (lt a a) eqn:E; [|reflexivity]. rewrite <- E. exact (As a a E). Qed.

Lemma N_ltb_order : strict_total N.ltb.
Proof.
  split.
  - intros a b H. apply N.ltb_lt in H. apply N.ltb_ge. lia.
  - intros a b c H1 H2. apply N.ltb_lt in H1, H2. apply N.ltb_lt. lia.
  - intros a b H1 H2. apply N.ltb_ge in H1, H2. lia.
Qed.

(* Go's [<] on strings is the lexicographic order on bytes *)
Section Lex.
  Context {K : Type} (lt : K -> K -> bool).

  Fixpoint lex_ltb (a b : list K) : bool :=
    match a, b with
    | [], [] => false
    | [], _ :: _ => true
    | _ :: _, [] => false
    | x :: a', y :: b' => if lt x y then true else if lt y x then false else lex_ltb a' b'
    end.

  Hypothesis lt_ok : strict_total lt.

  Lemma lex_ltb_cons x a y b :
    lex_ltb (x :: a) (y :: b) = true <-> lt x y = true \/ x = y /\ lex_ltb a b = true.
  Proof.
    cbn. destruct (lt x y) eqn:Hxy; [tauto|]. destruct (lt y x) eqn:Hyx.
    - split; [discriminate|]. intros [H|[<- _]]; [discriminate|].
      rewrite (strict_total_irrefl _ lt_ok) in Hyx. discriminate.
    - rewrite (st_total _ lt_ok x y Hxy Hyx). split; [auto|]. intros [H|[_ H]]; [discriminate|exact H].
  Qed.

  Lemma lex_strict_total : strict_total lex_ltb.
  Proof.
    split.
    - induction a as [|x a IH]; intros [|y b] H; try reflexivity; try discriminate.
      cbn in *. destruct (lt x y) eqn:Hxy.
      + rewrite (st_asym _ lt_ok _ _ Hxy). reflexivity.
      + destruct (lt y x); [discriminate|exact (IH b H)].
    - induction a as [|x a IH]; intros [|y b] [|z c] H1 H2; try reflexivity; try discriminate.
      rewrite lex_ltb_cons in *. destruct H1 as [H1|[-> H1]], H2 as [H2|[-> H2]]; auto.
      + left. exact (st_trans _ lt_ok _ _ _ H1 H2).
      + right. split; [reflexivity|]. exact (IH b c H1 H2).
    - induction a as [|x a IH]; intros [|y b] H1 H2; try reflexivity; try discriminate.
      cbn in H1, H2. destruct (lt x y) eqn:Hxy; [discriminate|]. destruct (lt y x) eqn:Hyx; [discriminate|].
      rewrite (st_total _ lt_ok x y Hxy Hyx). f_equal. apply IH; assumption.
  Qed.
End Lex.

Section ByKey.
  Context {A K : Type} (lt : K -> K -> bool) (key : A -> K).
  Hypothesis lt_ok : strict_total lt.

  (* [a] may stand before [b] *)
  Local Notation before := (fun a b => lt (key b) (key a) = false).

  (* with distinct keys "may stand before" is "stands strictly before" *)
  Lemma sorted_strict l : NoDup (map key l) ->
    StronglySorted before l -> StronglySorted (fun a b => lt (key a) (key b) = true) l.
  Proof.
    intros ND Hs. induction Hs as [|x l _ IH F]; [constructor|].
    inversion ND as [|? ? Hn ND']; subst. constructor; [exact (IH ND')|].
    rewrite Forall_forall in *. intros b Hb. destruct (lt (key x) (key b)) eqn:E; [reflexivity|].
    destruct Hn. rewrite (st_total _ lt_ok _ _ E (F b Hb)). apply in_map, Hb.
  Qed.

  Section Insertion.
    Variable ins : A -> list A -> list A.
    Hypothesis ins_nil : forall x, ins x [] = [x].
    Hypothesis ins_cons : forall x y r,
      ins x (y :: r) = if lt (key y) (key x) then y :: ins x r else x :: y :: r.

    Lemma ins_perm x l : Permutation (ins x l) (x :: l).
    Proof.
      induction l as [|y r IH]; [rewrite ins_nil; apply Permutation_refl|].
      rewrite ins_cons. destruct (lt (key y) (key x)); [|apply Permutation_refl].
      eapply perm_trans; [apply perm_skip; exact IH|apply perm_swap].
    Qed.

    Lemma ins_sorted x l : StronglySorted before l -> StronglySorted before (ins x l).
    Proof.
      induction 1 as [|y r Hs IH F]; [rewrite ins_nil; repeat constructor|].
      rewrite ins_cons. destruct (lt (key y) (key x)) eqn:Hyx.
      - constructor; [exact IH|].
        eapply Permutation_Forall; [apply Permutation_sym, ins_perm|].
        constructor; [|exact F]. apply (st_asym _ lt_ok). exact Hyx.
      - constructor; [constructor; assumption|].
        constructor; [exact Hyx|].
        eapply Forall_impl; [|exact F]. intros z Hz.
        exact (strict_total_negtrans _ lt_ok _ _ _ Hz Hyx).
    Qed.

    Lemma fold_ins_perm l : Permutation (fold_right ins [] l) l.
    Proof.
      induction l as [|x r IH]; cbn; [constructor|].
      eapply perm_trans; [apply ins_perm|apply perm_skip; exact IH].
    Qed.

    Lemma fold_ins_sorted l : StronglySorted before (fold_right ins [] l).
    Proof. induction l as [|x r IH]; cbn; [constructor|apply ins_sorted; exact IH]. Qed.
  End Insertion.

  Section Sort.
    Variable sort : list A -> list A.
    Hypothesis sort_sorted : forall l, StronglySorted before (sort l).
    Hypothesis sort_perm : forall l, Permutation (sort l) l.

    Theorem sorted_perm_is_sort l r :
      Permutation r l -> StronglySorted before r ->
      (forall a b, In a l -> In b l -> key a = key b -> a = b) -> r = sort l.
    Proof.
      intros P Hs Inj. apply (sorted_perm_eq before); [exact Hs|apply sort_sorted| |].
      - eapply perm_trans; [exact P|apply Permutation_sym, sort_perm].
      - intros a b Ha Hb H1 H2.
        apply Inj; [eapply Permutation_in; eassumption..|]. apply (st_total _ lt_ok); assumption.
    Qed.

    Theorem sort_canonical l l' :
      Permutation l l' -> (forall a b, In a l -> In b l -> key a = key b -> a = b) -> sort l = sort l'.
    Proof.
      intros P Inj. symmetry. apply sorted_perm_is_sort; [|apply sort_sorted|exact Inj].
      eapply perm_trans; [apply sort_perm|apply Permutation_sym; exact P].
    Qed.
  End Sort.
End ByKey.
