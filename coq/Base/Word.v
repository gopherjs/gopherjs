(* Integers modulo 2^n, over plain Z: powers of two and shifts, of one word and of a number of two words ([shl_pair],
   [shr_pair]); the signed residue [sres]; the n-bit type, signed or not, as a range and the residue in it ([wrange],
   [wres]); operators that act bit by bit (section Bitwise). *)
From Coq Require Import ZArith Znumtheory Bool Lia.
Local Open Scope Z_scope.

Lemma pow2_pos : forall n, 0 <= n -> 0 < 2 ^ n.
Proof. intros; apply Z.pow_pos_nonneg; lia. Qed.

Lemma pow2_double : forall w, 0 < w -> 2 ^ w = 2 * 2 ^ (w - 1).
Proof. intros w H. replace w with (Z.succ (w - 1)) at 1 by lia. apply Z.pow_succ_r; lia. Qed.

Lemma pow2_split : forall n m, 0 <= m <= n -> 2 ^ n = 2 ^ (n - m) * 2 ^ m.
Proof. intros n m H. rewrite <- Z.pow_add_r by lia. f_equal; lia. Qed.

Lemma mod_mod_pow : forall z a b, 0 <= a <= b -> (z mod 2 ^ b) mod 2 ^ a = z mod 2 ^ a.
Proof.
  intros z a b H. symmetry. apply Zmod_div_mod; try (apply pow2_pos; lia).
  exists (2 ^ (b - a)). apply pow2_split, H.
Qed.

Lemma mod_pow_le : forall x y a b, 0 <= a <= b -> x mod 2 ^ b = y mod 2 ^ b -> x mod 2 ^ a = y mod 2 ^ a.
Proof. intros x y a b H E. rewrite <- (mod_mod_pow x a b), <- (mod_mod_pow y a b), E by assumption. reflexivity. Qed.

Lemma mul_pow2_mod : forall x w n, 0 <= w <= n -> (x * 2 ^ n) mod 2 ^ w = 0.
Proof. intros x w n H. rewrite (pow2_split n w), Z.mul_assoc by assumption. apply Z_mod_mult. Qed.

Lemma shl_mod : forall n m x, 0 <= m <= n -> (x * 2 ^ m) mod 2 ^ n = (x mod 2 ^ (n - m)) * 2 ^ m.
Proof.
  intros n m x H. rewrite (pow2_split n m H). apply Z.mul_mod_distr_r; apply Z.pow_nonzero; lia.
Qed.

(* A number of two w-bit words, h * 2^w + l, shifted by s <= w.  To the left, the top s bits of the low word move into
   the high word; to the right, the low s bits of the high word move to the top of the low word. *)
Lemma top_bits_range : forall w s l, 0 <= s <= w -> 0 <= l < 2 ^ w -> 0 <= l / 2 ^ (w - s) < 2 ^ s.
Proof.
  intros w s l H Hl. pose proof (pow2_pos (w - s) ltac:(lia)). split; [apply Z.div_pos; lia |].
  apply Z.div_lt_upper_bound; [lia |]. rewrite <- (pow2_split w s H). apply Hl.
Qed.

Lemma shl_pair : forall w s h l, 0 <= s <= w ->
  (h * 2 ^ w + l) * 2 ^ s = (h * 2 ^ s + l / 2 ^ (w - s)) * 2 ^ w + (l * 2 ^ s) mod 2 ^ w.
Proof.
  intros w s h l H. replace (l / 2 ^ (w - s)) with (l * 2 ^ s / 2 ^ w).
  - (* the bits that move up are those of l * 2^s above w *)
    pose proof (Z.div_mod (l * 2 ^ s) (2 ^ w) ltac:(apply Z.pow_nonzero; lia)). lia.
  - rewrite (pow2_split w s H). apply Z.div_mul_cancel_r; apply Z.pow_nonzero; lia.
Qed.

Lemma shr_pair : forall w s h l, 0 <= s <= w ->
  (h * 2 ^ w + l) / 2 ^ s = h / 2 ^ s * 2 ^ w + (h mod 2 ^ s * 2 ^ (w - s) + l / 2 ^ s).
Proof.
  intros w s h l H. pose proof (Z.pow_nonzero 2 s) as P.
  rewrite (pow2_split w s H), Z.mul_assoc, Z.div_add_l by lia. rewrite (Z.div_mod h (2 ^ s)) at 1 by lia. ring.
Qed.

(* the residue modulo 2^n that lies in the signed range *)
Definition sres (n x : Z) : Z := (x + 2 ^ (n - 1)) mod 2 ^ n - 2 ^ (n - 1).

Lemma sres_range : forall n x, 0 < n -> - 2 ^ (n - 1) <= sres n x < 2 ^ (n - 1).
Proof.
  intros n x Hn. unfold sres. pose proof (Z.mod_pos_bound (x + 2 ^ (n - 1)) (2 ^ n) (pow2_pos n ltac:(lia))) as B.
  rewrite (pow2_double n Hn) in *. lia.
Qed.

Lemma sres_id : forall n x, 0 < n -> - 2 ^ (n - 1) <= x < 2 ^ (n - 1) -> sres n x = x.
Proof. intros n x Hn Hx. unfold sres. rewrite Z.mod_small by (rewrite (pow2_double n Hn); lia). lia. Qed.

Lemma sres_mod : forall n x, sres n x mod 2 ^ n = x mod 2 ^ n.
Proof. intros n x. unfold sres. rewrite Zminus_mod_idemp_l. f_equal. lia. Qed.

Lemma sres_congr : forall n x y, x mod 2 ^ n = y mod 2 ^ n -> sres n x = sres n y.
Proof. intros n x y H. unfold sres. rewrite <- (Zplus_mod_idemp_l x), H, Zplus_mod_idemp_l. reflexivity. Qed.

(* the same residue as JS' ToInt32 and C06's [wraps] compute it: reduce, then test the sign bit *)
Lemma sres_alt : forall n x, 0 < n -> (let m := x mod 2 ^ n in if m <? 2 ^ (n - 1) then m else m - 2 ^ n) = sres n x.
Proof.
  intros w z Hw. unfold sres. cbv zeta. rewrite (pow2_double w Hw). pose proof (pow2_pos (w - 1) ltac:(lia)) as P.
  set (m := 2 ^ (w - 1)) in *. clearbody m.
  pose proof (Z.div_mod z (2 * m) ltac:(lia)) as D. pose proof (Z.mod_pos_bound z (2 * m) ltac:(lia)) as B.
  destruct (Z.ltb_spec (z mod (2 * m)) m).
  - rewrite <- (Z.mod_unique (z + m) (2 * m) (z / (2 * m)) (z mod (2 * m) + m)); lia.
  - rewrite <- (Z.mod_unique (z + m) (2 * m) (z / (2 * m) + 1) (z mod (2 * m) - m)); lia.
Qed.

(* the n-bit integer type, signed or not: its range, and the residue modulo 2^n that lies in it *)
Definition wrange (s : bool) (n x : Z) : Prop := if s then - 2 ^ (n - 1) <= x < 2 ^ (n - 1) else 0 <= x < 2 ^ n.
Definition wres (s : bool) (n x : Z) : Z := if s then sres n x else x mod 2 ^ n.

Lemma wres_range : forall s n x, 0 < n -> wrange s n (wres s n x).
Proof. intros [] n x Hn; [apply sres_range, Hn | apply Z.mod_pos_bound, pow2_pos; lia]. Qed.

Lemma wres_id : forall s n x, 0 < n -> wrange s n x -> wres s n x = x.
Proof. intros [] n x Hn R; [apply sres_id; assumption | apply Z.mod_small, R]. Qed.

Lemma wres_mod : forall s n x, 0 <= n -> wres s n x mod 2 ^ n = x mod 2 ^ n.
Proof. intros [] n x Hn; [apply sres_mod | apply Z.mod_mod, Z.pow_nonzero; lia]. Qed.

Lemma wres_congr : forall s n m x y, 0 <= n <= m -> x mod 2 ^ m = y mod 2 ^ m -> wres s n x = wres s n y.
Proof. intros [] n m x y Hn E; apply (mod_pow_le x y n m Hn) in E; [apply sres_congr, E | exact E]. Qed.

Lemma wrange_0 : forall s n, 0 < n -> wrange s n 0.
Proof. intros [] n Hn; cbn; [pose proof (pow2_pos (n - 1)) | pose proof (pow2_pos n)]; lia. Qed.

Lemma wrange_le : forall s n m x, 0 < n <= m -> wrange s n x -> wrange s m x.
Proof.
  intros s n m x H R. assert (2 ^ (n - 1) <= 2 ^ (m - 1) /\ 2 ^ n <= 2 ^ m) by (split; apply Z.pow_le_mono_r; lia).
  destruct s; cbn in *; lia.
Qed.

(* x >> m moves toward 0 or -1 *)
Lemma wrange_shiftr : forall s n x m, 0 < n -> 0 <= m -> wrange s n x -> wrange s n (Z.shiftr x m).
Proof.
  intros s n x m Hn Hm R. rewrite Z.shiftr_div_pow2 by assumption. pose proof (pow2_pos m Hm) as P.
  pose proof (Z.div_mod x (2 ^ m) ltac:(lia)) as D. pose proof (Z.mod_pos_bound x (2 ^ m) P) as B.
  pose proof (wrange_0 s n Hn) as R0. destruct s; cbn in *;
  set (p := 2 ^ m) in *; set (q := x / p) in *; clearbody p q; nia.
Qed.

(* on n-bit words (x << m) >> m keeps the low n - m bits of x, sign-extended (and zero-extended with >>>: [shl_mod]) *)
Lemma shl_sres : forall n m x, 0 <= m < n -> sres n (x * 2 ^ m) / 2 ^ m = sres (n - m) x.
Proof.
  intros n m x Hm. pose proof (pow2_pos m) as P. unfold sres.
  replace (2 ^ (n - 1)) with (2 ^ (n - m - 1) * 2 ^ m) by (rewrite <- Z.pow_add_r by lia; f_equal; lia).
  rewrite <- Z.mul_add_distr_r, shl_mod, <- Z.mul_sub_distr_r, Z.div_mul by lia. reflexivity.
Qed.

Lemma div_pow2_sat : forall x m n, 0 <= m <= n -> - 2 ^ m <= x < 2 ^ m -> x / 2 ^ n = if x <? 0 then -1 else 0.
Proof.
  intros x m n Hm Hx. assert (L : 2 ^ m <= 2 ^ n) by (apply Z.pow_le_mono_r; lia).
  destruct (Z.ltb_spec x 0); [symmetry; apply Z.div_unique with (x + 2 ^ n); lia | apply Z.div_small; lia].
Qed.

Lemma lnot_mod_congr : forall a b n, a mod 2 ^ n = b mod 2 ^ n -> Z.lnot a mod 2 ^ n = Z.lnot b mod 2 ^ n.
Proof.
  intros a b n H. replace (Z.lnot a) with ((-1) - a) by (unfold Z.lnot; lia). replace (Z.lnot b) with ((-1) - b) by (unfold Z.lnot; lia).
  rewrite (Zminus_mod (-1) a), (Zminus_mod (-1) b), H. reflexivity.
Qed.

(* a * 2^n and b < 2^n have no bit in common, so "or" adds them *)
Lemma lor_shift_add : forall a b n, 0 <= n -> 0 <= b < 2 ^ n -> Z.lor (a * 2 ^ n) b = a * 2 ^ n + b.
Proof.
  intros a b n Hn Hb.
  assert (D : Z.land (a * 2 ^ n) b = 0).
  { apply Z.bits_inj'; intros i Hi. rewrite Z.land_spec, Z.bits_0. destruct (Z_lt_le_dec i n).
    - rewrite Z.mul_pow2_bits_low by lia. reflexivity.
    - replace b with (b mod 2 ^ n) by (apply Z.mod_small; lia). rewrite Z.mod_pow2_bits_high by lia. apply andb_false_r. }
  rewrite (Z.add_nocarry_lxor _ _ D). symmetry. apply Z.lxor_lor. exact D.
Qed.

Lemma urange_shiftr : forall w a, 0 <= w -> (0 <= a < 2 ^ w <-> Z.shiftr a w = 0).
Proof.
  intros w a Hw. rewrite Z.shiftr_div_pow2 by assumption. pose proof (pow2_pos w Hw). split; intro H0.
  - apply Z.div_small; assumption.
  - pose proof (Z.div_mod a (2 ^ w)) as D. pose proof (Z.mod_pos_bound a (2 ^ w)) as B. rewrite H0 in D. lia.
Qed.

Lemma srange_shiftr : forall w a, 0 < w ->
  - 2 ^ (w - 1) <= a < 2 ^ (w - 1) <-> Z.shiftr a (w - 1) = 0 \/ Z.shiftr a (w - 1) = -1.
Proof.
  intros w a Hw. rewrite Z.shiftr_div_pow2 by lia. pose proof (pow2_pos (w - 1)) as P. split; intro H.
  - destruct (Z_lt_le_dec a 0); [right | left].
    + symmetry; apply Z.div_unique with (a + 2 ^ (w - 1)); lia.
    + apply Z.div_small; lia.
  - pose proof (Z.div_mod a (2 ^ (w - 1))) as D. pose proof (Z.mod_pos_bound a (2 ^ (w - 1))) as B.
    destruct H as [H | H]; rewrite H in D; lia.
Qed.

(* An operator that acts bit by bit, with f(0,0) = 0: Z.land, Z.lor, Z.lxor, x &^ y ([andnot_spec]).
   It commutes with reduction modulo 2^n and with right shifts, hence preserves both ranges. *)
Section Bitwise.
Variables (f : Z -> Z -> Z) (fb : bool -> bool -> bool).
Hypothesis f_spec : forall a b i, Z.testbit (f a b) i = fb (Z.testbit a i) (Z.testbit b i).
Hypothesis fb_00 : fb false false = false.

Lemma bitop_mod : forall a b n, 0 <= n -> f a b mod 2 ^ n = f (a mod 2 ^ n) (b mod 2 ^ n).
Proof.
  intros a b n Hn. apply Z.bits_inj'; intros i Hi.
  rewrite f_spec, !Z.testbit_mod_pow2, f_spec by assumption. destruct (i <? n); [reflexivity | symmetry; exact fb_00].
Qed.

Lemma bitop_shiftr : forall a b n, Z.shiftr (f a b) n = f (Z.shiftr a n) (Z.shiftr b n).
Proof. intros a b n. apply Z.bits_inj'; intros i Hi. rewrite f_spec, !Z.shiftr_spec, f_spec by assumption. reflexivity. Qed.

Lemma bitop_urange : forall w a b, 0 <= w -> 0 <= a < 2 ^ w -> 0 <= b < 2 ^ w -> 0 <= f a b < 2 ^ w.
Proof.
  intros w a b Hw Ha Hb. rewrite urange_shiftr in * by assumption. rewrite bitop_shiftr, Ha, Hb.
  apply Z.bits_inj'; intros i Hi. rewrite f_spec, Z.bits_0. exact fb_00.
Qed.

(* on operands whose bits are all equal, so are the bits of the result *)
Lemma bitop_const : forall a b, a = 0 \/ a = -1 -> b = 0 \/ b = -1 -> f a b = 0 \/ f a b = -1.
Proof.
  intros a b Ha Hb.
  assert (C : forall z, z = 0 \/ z = -1 -> exists c, forall i, 0 <= i -> Z.testbit z i = c).
  { intros z [-> | ->]; [exists false; intros; apply Z.bits_0 | exists true; intros; apply Z.bits_m1; assumption]. }
  destruct (C a Ha) as [ca Ca]. destruct (C b Hb) as [cb Cb].
  destruct (fb ca cb) eqn:E; [right | left]; apply Z.bits_inj'; intros i Hi;
    rewrite f_spec, Ca, Cb, E by assumption; symmetry; [apply Z.bits_m1; assumption | apply Z.bits_0].
Qed.

Lemma bitop_srange : forall w a b, 0 < w -> - 2 ^ (w - 1) <= a < 2 ^ (w - 1) -> - 2 ^ (w - 1) <= b < 2 ^ (w - 1) ->
  - 2 ^ (w - 1) <= f a b < 2 ^ (w - 1).
Proof. intros w a b Hw Ha Hb. rewrite srange_shiftr in * by assumption. rewrite bitop_shiftr. apply bitop_const; assumption. Qed.
Lemma bitop_wrange : forall s n a b, 0 < n -> wrange s n a -> wrange s n b -> wrange s n (f a b).
Proof. intros [] n a b Hn; [apply (bitop_srange n a b Hn) | apply bitop_urange; lia]. Qed.
End Bitwise.

(* x &^ y acts bit by bit as well (below bit 0 every bit is false) *)
Lemma andnot_spec : forall a b i, Z.testbit (Z.land a (Z.lnot b)) i = Z.testbit a i && negb (Z.testbit b i).
Proof.
  intros a b i. destruct (Z.neg_nonneg_cases i) as [N | P].
  - rewrite !Z.testbit_neg_r by assumption. reflexivity.
  - rewrite Z.land_spec, Z.lnot_spec by assumption. reflexivity.
Qed.
