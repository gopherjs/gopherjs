(* C01 — arithmetic: the JavaScript encodings of Go's fixed-width operators compute Go's wrap-around results, and are
   strict in their operands *)
From Coq Require Import ZArith List String Bool Lia ZifyBool.
From Verif Require Import Base.Word Model.C01_GoSem Model.C01_JsSem Model.C01_Compile.
Import ListNotations.
Local Open Scope Z_scope.
Ltac Zify.zify_post_hook ::= Z.to_euclidean_division_equations.

(* replace closed powers of two by numerals *)
Ltac pows := repeat match goal with
  | |- context [2 ^ ?n] =>
      let v := eval vm_compute in (2 ^ n) in
      lazymatch v with Zpos _ => change (2 ^ n) with v end
  | H : context [2 ^ ?n] |- _ =>
      let v := eval vm_compute in (2 ^ n) in
      lazymatch v with Zpos _ => change (2 ^ n) with v in H end
  end.

(* the word-level definitions as plain Z arithmetic over numerals, for lia *)
Ltac unf := unfold norm, smod, umod, in_range, min_int in *; cbn [signed bits] in *; pows.

Lemma in_range_spec : forall k z, in_range k z = true <->
  (if signed k then - 2 ^ (bits k - 1) <= z < 2 ^ (bits k - 1) else 0 <= z < 2 ^ bits k).
Proof. intros. unfold in_range. destruct (signed k); lia. Qed.

Ltac rng := repeat match goal with H : in_range _ _ = true |- _ => apply in_range_spec in H end.

Lemma name_eqb_refl : forall a, name_eqb a a = true.
Proof. intros [b n]. unfold name_eqb. cbn. now rewrite String.eqb_refl, N.eqb_refl. Qed.
Lemma get_set_same : forall V (s : store V) n v, get (set s n v) n = Some v.
Proof. intros. cbn [get set]. now rewrite name_eqb_refl. Qed.

Lemma kind_eqb_eq : forall a b, kind_eqb a b = true -> a = b.
Proof. destruct a, b; cbn; intros; try discriminate; reflexivity. Qed.

Lemma exact_small : forall z, Z.abs z <= 2 ^ 53 -> exact z = Some (JI z).
Proof. intros z H. unfold exact. destruct (Z.abs z <=? 2 ^ 53) eqn:E; [reflexivity|lia]. Qed.

Lemma bits_pos : forall k, 0 < bits k.
Proof. destruct k; reflexivity. Qed.

Lemma norm_in_range : forall k z, in_range k (norm k z) = true.
Proof. intros k z. apply in_range_spec. exact (wres_range _ _ z (bits_pos k)). Qed.

Lemma norm_id : forall k z, in_range k z = true -> norm k z = z.
Proof. intros k z H. apply (wres_id _ _ z (bits_pos k)), in_range_spec, H. Qed.

Lemma range_coarse : forall k z, in_range k z = true -> - 2 ^ 31 <= z < 2 ^ 32.
Proof. intros k z H. destruct k; unf; lia. Qed.
Lemma signed_range32 : forall k a, signed k = true -> in_range k a = true -> - 2 ^ 31 <= a < 2 ^ 31.
Proof. intros k a Hs Ha. rng. rewrite Hs in Ha. destruct k; try discriminate; cbn [bits] in Ha; pows; lia. Qed.
Lemma unsigned_range32 : forall k a, signed k = false -> in_range k a = true -> 0 <= a < 2 ^ 32.
Proof. intros k a Hs Ha. rng. rewrite Hs in Ha. destruct k; try discriminate; cbn [bits] in Ha; pows; lia. Qed.

(* ToInt32 / ToUint32 of the operands: only the value modulo 2^32 matters to a result of any kind *)
Lemma smod32_id : forall z, - 2 ^ 31 <= z < 2 ^ 31 -> smod 32 z = z.
Proof. intros. apply sres_id; [reflexivity | assumption]. Qed.

Lemma smod32_mod : forall z, smod 32 z mod 2 ^ 32 = z mod 2 ^ 32.
Proof. exact (sres_mod 32). Qed.

Lemma umod_smod32 : forall z, umod 32 (smod 32 z) = umod 32 z.
Proof. exact smod32_mod. Qed.

(* no kind is wider than 32 bits *)
Lemma norm_cong : forall k x y, x mod 2 ^ 32 = y mod 2 ^ 32 -> norm k x = norm k y.
Proof. intros k x y H. apply (wres_congr (signed k) (bits k) 32); [destruct k; cbn; lia | exact H]. Qed.

Lemma norm_smod32 : forall k x, norm k (smod 32 x) = norm k x.
Proof. intros. apply norm_cong, smod32_mod. Qed.

Lemma count_id : forall c, 0 <= c < 32 -> umod 32 (smod 32 c) mod 32 = c.
Proof. intros. unf. lia. Qed.

(* (x << m) >>> m on n-bit words; with >> it is [shl_sres] in Base/Word *)
Lemma shl_ushr : forall n m x, 0 <= m <= n -> umod n (x * 2 ^ m) / 2 ^ m = umod (n - m) x.
Proof. intros n m x Hm. unfold umod. rewrite shl_mod by assumption. apply Z.div_mul, Z.pow_nonzero; lia. Qed.

Lemma fix_number_eval : forall k e s x s',
  jeval s e = JOk (JI x) s' -> jeval s (fix_number k e) = JOk (JI (norm k x)) s'.
Proof.
  intros k e s x s' H.
  assert (S : forall m, 0 <= m < 32 -> smod 32 (smod 32 (smod 32 x * 2 ^ m)) / 2 ^ m = smod (32 - m) x).
  { intros m Hm. rewrite (smod32_id (smod 32 _)) by (apply (sres_range 32); reflexivity).
    rewrite (shl_sres 32 m) by lia. apply sres_congr, (mod_pow_le _ _ (32 - m) 32), smod32_mod. lia. }
  assert (U : forall m, 0 <= m < 32 -> umod 32 (smod 32 (smod 32 (smod 32 x * 2 ^ m))) / 2 ^ m = umod (32 - m) x).
  { intros m Hm. rewrite !umod_smod32, shl_ushr by lia. apply (mod_pow_le _ _ (32 - m) 32), smod32_mod. lia. }
  destruct k; cbn [fix_number jshl jshr jushr jeval]; rewrite H; cbn [jeval js_bin to_int32 to_uint32]; do 2 f_equal.
  - apply (S 24). lia.
  - apply (S 16). lia.
  - apply Z.div_1_r.
  - apply Z.div_1_r.
  - apply (U 24). lia.
  - apply (U 16). lia.
  - rewrite umod_smod32. apply Z.div_1_r.
  - rewrite umod_smod32. apply Z.div_1_r.
Qed.

Lemma fix_number_throw : forall k e s, jeval s e = JThrow -> jeval s (fix_number k e) = JThrow.
Proof. intros. destruct k; cbn [fix_number jshl jshr jushr jeval]; rewrite H; reflexivity. Qed.

(* Strictness in the operands.  [jeval] threads the store and stops at the first throw, so code that evaluates an
   operand e and goes on with its value v in the store s1 that e left evaluates as [jbind (jeval s e) K], [K v s1] being
   how it goes on; the equations below put [jeval] of an expression form in that shape, by computation.  A template that
   is one such [jbind] per operand, in Go's order, is simulated operand by operand ([sim_arg] in C01_SimExpr) and then by
   a fact about values.  For fixNumber and the operator templates the shape holds up to a stuck run only (an operand that
   is not a number), which simulates nothing: [jle]. *)
Definition jbind (r : jres) (K : jval -> store jval -> jres) : jres :=
  match r with JOk v s => K v s | JThrow => JThrow | JStuck => JStuck end.
Definition olift (o : option jval) (s : store jval) : jres :=
  match o with Some v => JOk v s | None => JStuck end.
Definition jle (jr jr' : jres) : Prop := jr = JStuck \/ jr = jr'.

Lemma jbind_assoc : forall m f h, jbind (jbind m f) h = jbind m (fun v s => jbind (f v s) h).
Proof. destruct m; reflexivity. Qed.
Lemma jbind_ret : forall m, m = jbind m JOk.
Proof. destruct m; reflexivity. Qed.
Lemma jeval_un : forall s op e, jeval s (JUn op e) = jbind (jeval s e) (fun v s1 => olift (js_un op v) s1).
Proof. reflexivity. Qed.
Lemma jeval_bin : forall s op a b, jeval s (JBin op a b) =
  jbind (jeval s a) (fun va s1 => jbind (jeval s1 b) (fun vb s2 => olift (js_bin op va vb) s2)).
Proof. reflexivity. Qed.
Lemma jeval_comma : forall s a b, jeval s (JComma a b) = jbind (jeval s a) (fun _ s1 => jeval s1 b).
Proof. reflexivity. Qed.
Lemma jeval_asg : forall s n e, jeval s (JAsg n e) = jbind (jeval s e) (fun v s1 => JOk v (set s1 n v)).
Proof. reflexivity. Qed.
Lemma jeval_min_num : forall s e n, jeval s (JMin e (JNum n)) =
  jbind (jeval s e) (fun v s1 => match v with JI x => JOk (JI (Z.min x n)) s1 | _ => JStuck end).
Proof. intros. cbn [jeval]. destruct (jeval s e) as [[]| |]; reflexivity. Qed.

Lemma fix_number_strict : forall k s e,
  jle (jbind (jeval s e) (fun v s1 => match v with JI x => JOk (JI (norm k x)) s1 | _ => JStuck end))
      (jeval s (fix_number k e)).
Proof.
  intros k s e. destruct (jeval s e) as [[x|b|p q| | |] s1| |] eqn:E; cbn [jbind]; try (left; reflexivity); right; symmetry.
  - apply fix_number_eval, E.
  - apply fix_number_throw, E.
Qed.

Lemma add_correct : forall k t a b s, in_range k a = true -> in_range k b = true ->
  jeval s (tmpl k Add t (JNum a) (JNum b)) = JOk (JI (norm k (a + b))) s.
Proof.
  intros k t a b s Ha Hb. apply range_coarse in Ha, Hb. apply fix_number_eval.
  cbn [jeval js_bin]. rewrite exact_small by (pows; lia). reflexivity.
Qed.

Lemma sub_correct : forall k t a b s, in_range k a = true -> in_range k b = true ->
  jeval s (tmpl k Sub t (JNum a) (JNum b)) = JOk (JI (norm k (a - b))) s.
Proof.
  intros k t a b s Ha Hb. apply range_coarse in Ha, Hb. apply fix_number_eval.
  cbn [jeval js_bin]. rewrite exact_small by (pows; lia). reflexivity.
Qed.

Lemma mul_mod32 : forall a b, (smod 32 a * smod 32 b) mod 2 ^ 32 = (a * b) mod 2 ^ 32.
Proof.
  intros. rewrite Zmult_mod, !smod32_mod, <- Zmult_mod. reflexivity.
Qed.

(* below 32 bits the exact product is a safe integer; at 32 bits the translator uses Math.imul *)
Lemma mul_correct : forall k t a b s, in_range k a = true -> in_range k b = true ->
  jeval s (tmpl k Mul t (JNum a) (JNum b)) = JOk (JI (norm k (a * b))) s.
Proof.
  intros k t a b s Ha Hb. rng.
  destruct k; cbn [tmpl signed bits] in *; pows.
  1, 2, 5, 6: (* 8 and 16 bits *) apply fix_number_eval; cbn [jeval js_bin]; rewrite exact_small by (pows; nia); reflexivity.
  1, 2: (* int32, int *) cbn [jeval to_int32]; rewrite (smod32_id a), (smod32_id b) by (pows; lia); reflexivity.
  all: (* uint32, uint: Math.imul, then >>> 0 *) rewrite <- (norm_cong _ _ _ (mul_mod32 a b)), <- norm_smod32;
    apply (fix_number_eval U (JImul _ _)); reflexivity.
Qed.

(* an operator that works bit by bit and maps two zero bits to a zero bit (Base/Word, section Bitwise) *)
Section Bitwise.
  Variables (f : Z -> Z -> Z) (g : bool -> bool -> bool).
  Hypothesis f_spec : forall a b i, Z.testbit (f a b) i = g (Z.testbit a i) (Z.testbit b i).
  Hypothesis g_ff : g false false = false.

  Lemma bitwise_cong : forall k x x' y y', x mod 2 ^ 32 = x' mod 2 ^ 32 -> y mod 2 ^ 32 = y' mod 2 ^ 32 ->
    norm k (f x y) = norm k (f x' y').
  Proof.
    intros k x x' y y' Hx Hy. apply norm_cong. rewrite !(bitop_mod f g f_spec g_ff _ _ 32), Hx, Hy by lia. reflexivity.
  Qed.

  (* x op y on int32 operands, with >>> 0 when the kind is unsigned *)
  Lemma bitwise_correct : forall jop k a b s,
    (forall x y, js_bin jop (JI x) (JI y) = Some (JI (f (smod 32 x) (smod 32 y)))) ->
    in_range k a = true -> in_range k b = true ->
    jeval s (let o := JBin jop (JNum a) (JNum b) in if signed k then o else jushr o 0) = JOk (JI (f a b)) s.
  Proof.
    intros jop k a b s Hop Ha Hb. cbn zeta. destruct (signed k) eqn:Hs.
    - cbn [jeval]. rewrite Hop, !smod32_id by (eapply signed_range32; eassumption). reflexivity.
    - apply (unsigned_range32 k) in Ha, Hb; try assumption.
      replace (f a b) with (norm U (f (smod 32 a) (smod 32 b))).
      + apply (fix_number_eval U). cbn [jeval]. rewrite Hop. reflexivity.
      + unfold norm, umod. cbn [signed bits].
        rewrite (bitop_mod f g f_spec g_ff), !smod32_mod, !Z.mod_small by lia. reflexivity.
  Qed.

  Lemma bitwise_in_range : forall k a b, in_range k a = true -> in_range k b = true -> in_range k (f a b) = true.
  Proof. intros k a b. rewrite !in_range_spec. apply (bitop_wrange f g f_spec g_ff), bits_pos. Qed.
End Bitwise.

Lemma and_correct : forall k t a b s, in_range k a = true -> in_range k b = true ->
  jeval s (tmpl k And t (JNum a) (JNum b)) = JOk (JI (Z.land a b)) s.
Proof.
  intros k t a b s. apply (bitwise_correct Z.land andb Z.land_spec eq_refl). reflexivity.
Qed.
Lemma or_correct : forall k t a b s, in_range k a = true -> in_range k b = true ->
  jeval s (tmpl k Or t (JNum a) (JNum b)) = JOk (JI (Z.lor a b)) s.
Proof.
  intros k t a b s. apply (bitwise_correct Z.lor orb Z.lor_spec eq_refl). reflexivity.
Qed.

(* ^ and &^ wrap the result with fixNumber, so the operands need not even be in range *)
Lemma xor_correct : forall k t a b s,
  jeval s (tmpl k Xor t (JNum a) (JNum b)) = JOk (JI (norm k (Z.lxor a b))) s.
Proof.
  intros. rewrite <- (bitwise_cong Z.lxor xorb Z.lxor_spec eq_refl k _ a _ b (smod32_mod a) (smod32_mod b)).
  apply fix_number_eval. reflexivity.
Qed.

Lemma andnot_correct : forall k t a b s,
  jeval s (tmpl k AndNot t (JNum a) (JNum b)) = JOk (JI (norm k (Z.land a (Z.lnot b)))) s.
Proof.
  intros. rewrite <- (bitwise_cong Z.land andb Z.land_spec eq_refl k (smod 32 a) a (smod 32 (Z.lnot (smod 32 b))) (Z.lnot b)).
  - apply fix_number_eval. reflexivity.
  - apply smod32_mod.
  - rewrite smod32_mod. apply lnot_mod_congr, smod32_mod.
Qed.

Lemma cpl_norm : forall k z, norm k (Z.lnot (smod 32 z)) = norm k (Z.lnot z).
Proof. intros. apply norm_cong, lnot_mod_congr, smod32_mod. Qed.

(* t === t && t !== 1/0 && t !== -1/0: the quotient kept in t is a finite number *)
Definition div_guard (t : name) : jexpr :=
  JAnd (JAnd (JBin JSeq (JVar t) (JVar t)) (JBin JSne (JVar t) jinf)) (JBin JSne (JVar t) jninf).
Definition finite (d : jval) : bool := match d with JPInf | JNInf | JNaN => false | _ => true end.

Lemma div_guard_eval : forall s t d, get s t = Some d -> jeval s (div_guard t) = JOk (JB (finite d)) s.
Proof.
  intros s t d H. unfold div_guard, jinf, jninf.
  destruct d; repeat (cbn; rewrite ?H, ?Z.eqb_refl, ?Bool.eqb_reflx); reflexivity.
Qed.

Definition quo_inner (k : kind) (t : name) (ja jb : jexpr) : jexpr :=
  JComma (JAsg t (JBin JDiv ja jb))
    (JCond (div_guard t) (if signed k then jshr (JVar t) 0 else jushr (JVar t) 0) (JThrowE div_msg)).

Lemma tmpl_quo_eq : forall k t ja jb,
  tmpl k Quo t ja jb = match k with I8 | I16 => fix_number k (quo_inner k t ja jb) | _ => quo_inner k t ja jb end.
Proof. intros. destruct k; reflexivity. Qed.

Lemma js_div_int32 : forall a b, b <> 0 ->
  finite (js_div a b) = true /\ to_int32 (js_div a b) = Some (smod 32 (Z.quot a b)).
Proof.
  intros a b Hb. unfold js_div. rewrite (proj2 (Z.eqb_neq b 0) Hb). destruct (a mod b =? 0) eqn:Em; cbn; auto.
  replace (a / b) with (Z.quot a b) by nia. auto.
Qed.

Lemma quo_inner_eval : forall k t a b s,
  jeval s (quo_inner k t (JNum a) (JNum b)) =
  if b =? 0 then JThrow
  else JOk (JI (if signed k then smod 32 (Z.quot a b) else umod 32 (smod 32 (Z.quot a b)))) (set s t (js_div a b)).
Proof.
  intros. unfold quo_inner. cbn [jeval js_bin]. set (d := js_div a b).
  pose proof (get_set_same _ s t d) as G. rewrite (div_guard_eval _ t d G).
  destruct (b =? 0) eqn:E.
  - apply Z.eqb_eq in E. subst b.
    replace (finite d) with false by (unfold d, js_div; cbn [Z.eqb]; destruct (0 <? a), (a <? 0); reflexivity).
    reflexivity.
  - apply Z.eqb_neq in E. destruct (js_div_int32 a b E) as [Fin T32]. fold d in Fin, T32. rewrite Fin.
    unfold jshr, jushr.
    destruct (signed k); cbn [jeval]; rewrite G; cbn [jeval js_bin]; unfold to_uint32; cbn [to_int32]; rewrite T32, count_id, Z.div_1_r by lia; reflexivity.
Qed.

(* for all operands, MinInt / -1 included *)
Lemma quo_correct : forall k t a b s, in_range k a = true -> in_range k b = true ->
  jeval s (tmpl k Quo t (JNum a) (JNum b)) =
  if b =? 0 then JThrow else JOk (JI (norm k (Z.quot a b))) (set s t (js_div a b)).
Proof.
  intros k t a b s Ha Hb. rewrite tmpl_quo_eq. pose proof (quo_inner_eval k t a b s) as H.
  destruct (b =? 0) eqn:Hz.
  { destruct k; try exact H; apply fix_number_throw, H. }
  apply Z.eqb_neq in Hz. destruct (signed k) eqn:Hs.
  - destruct k; try discriminate; try exact H; rewrite <- norm_smod32; apply fix_number_eval; exact H.
  - (* unsigned: the quotient lies between 0 and a *)
    replace (norm k (Z.quot a b)) with (umod 32 (smod 32 (Z.quot a b))); [destruct k; try discriminate; exact H|].
    pose proof (unsigned_range32 k a Hs Ha). rng. rewrite Hs in *.
    assert (0 <= Z.quot a b <= a) by nia.
    rewrite umod_smod32, norm_id by (apply in_range_spec; rewrite Hs; lia). apply Z.mod_small. pows; lia.
Qed.

(* evaluation steps through an expression that assigns the temporary t and reads it back *)
Ltac stp := cbn [jeval js_bin js_seq get set Z.eqb]; rewrite ?name_eqb_refl, ?Z.eqb_refl.

Lemma rem_in_range : forall k a b, in_range k a = true -> in_range k b = true -> in_range k (Z.rem a b) = true.
Proof. intros k a b Ha Hb. destruct k; unf; lia. Qed.

Lemma rem_correct : forall k t a b s, in_range k a = true -> in_range k b = true ->
  jeval s (tmpl k Rem t (JNum a) (JNum b)) =
  if b =? 0 then JThrow else JOk (JI (Z.rem a b)) (set s t (JI (Z.rem a b))).
Proof.
  intros k t a b s Ha Hb. cbn [tmpl]. destruct (b =? 0) eqn:Hz.
  - apply Z.eqb_eq in Hz. subst b. apply fix_number_throw. repeat stp. reflexivity.
  - rewrite <- (norm_id k (Z.rem a b)) at 1 by (apply rem_in_range; assumption).
    apply fix_number_eval. cbn [jeval js_bin]. rewrite Hz. repeat stp. reflexivity.
Qed.

Definition shift_res (k : kind) (op : binop) (a c : Z) : Z :=
  match op with
  | Shl => if 32 <=? c then 0 else norm k (a * 2 ^ c)
  | _ => if signed k then a / 2 ^ Z.min c 31 else if 32 <=? c then 0 else a / 2 ^ c
  end.

Lemma go_bin_shift : forall k op a c, is_shift op = true -> 0 <= c ->
  go_bin k op a c = EV (VI (shift_res k op a c)).
Proof.
  intros. destruct op; try discriminate; cbn [go_bin shift_res]; replace (c <? 0) with false by lia;
    destruct (signed k), (32 <=? c); reflexivity.
Qed.

(* the arithmetic right shift saturates its count at 31; every other shift yields 0 from 32 on *)
Definition is_sar (k : kind) (op : binop) : bool := match op with Shr => signed k | _ => false end.

Lemma sar_match : forall T k op (A B : T), is_shift op = true ->
  match op, signed k with Shr, true => A | _, _ => B end = if is_sar k op then A else B.
Proof. intros. destruct op; try discriminate; cbn [is_sar]; [|destruct (signed k)]; reflexivity. Qed.

Lemma shift_res_big : forall k op a c, is_shift op = true -> is_sar k op = false -> 32 <= c -> shift_res k op a c = 0.
Proof.
  intros k op a c Ho Hs Hc. destruct op; try discriminate; cbn [shift_res is_sar] in *; rewrite ?Hs;
    replace (32 <=? c) with true by lia; reflexivity.
Qed.

Lemma shr_in_range : forall k a c, in_range k a = true -> 0 <= c -> in_range k (a / 2 ^ c) = true.
Proof.
  intros k a c Ha Hc. rewrite in_range_spec in *. rewrite <- Z.shiftr_div_pow2 by assumption.
  apply wrange_shiftr; [apply bits_pos | assumption | assumption].
Qed.

Lemma shift_res_in_range : forall k op a c, is_shift op = true -> in_range k a = true -> 0 <= c ->
  in_range k (shift_res k op a c) = true.
Proof.
  intros k op a c Ho Ha Hc. destruct op; try discriminate; cbn [shift_res].
  - destruct (32 <=? c). destruct k; reflexivity. apply norm_in_range.
  - destruct (signed k). apply shr_in_range; [assumption|lia].
    destruct (32 <=? c). destruct k; reflexivity. apply shr_in_range; assumption.
Qed.

Lemma shift_core : forall k op a c, is_shift op = true -> in_range k a = true -> 0 <= c < 32 ->
  exists v, js_bin (shift_op k op) (JI a) (JI c) = Some (JI v) /\ norm k v = shift_res k op a c.
Proof.
  intros k op a c Ho Ha Hc. destruct op; try discriminate; cbn [shift_op shift_res].
  - eexists. split. cbn [js_bin to_int32 to_uint32]. rewrite count_id by lia. reflexivity.
    replace (32 <=? c) with false by lia. apply norm_cong. rewrite smod32_mod, Zmult_mod, smod32_mod, <- Zmult_mod. reflexivity.
  - destruct (signed k) eqn:Hs.
    + eexists. split. cbn [js_bin to_int32 to_uint32]. rewrite count_id by lia.
      rewrite smod32_id by (apply (signed_range32 k); assumption). reflexivity.
      rewrite Z.min_l by lia. apply norm_id. apply shr_in_range; [assumption|lia].
    + eexists. split. cbn [js_bin to_int32 to_uint32]. rewrite count_id by lia.
      rewrite umod_smod32. unfold umod. rewrite Z.mod_small by (apply (unsigned_range32 k); assumption). reflexivity.
      replace (32 <=? c) with false by lia. apply norm_id. apply shr_in_range; [assumption|lia].
Qed.

(* signed x >> y: the translator bounds the count by 31 (x >> 31 for a constant, x >> $min(y, 31) otherwise),
   and Go's result does not change beyond 31 *)
Lemma sar_core : forall k op a c, is_sar k op = true -> in_range k a = true -> 0 <= c ->
  exists v, js_bin JShr (JI a) (JI (Z.min c 31)) = Some (JI v) /\ norm k v = shift_res k op a c.
Proof.
  intros k op a c Hs Ha Hc. destruct op; try discriminate. cbn [is_sar] in Hs.
  replace (shift_res k Shr a c) with (shift_res k Shr a (Z.min c 31))
    by (cbn [shift_res]; rewrite Hs, <- Z.min_assoc, Z.min_id; reflexivity).
  replace JShr with (shift_op k Shr) by (cbn [shift_op]; rewrite Hs; reflexivity).
  apply shift_core; auto. lia.
Qed.

(* y < 32 ? (x op y) : 0, where y holds the count and jx reads x *)
Lemma shift_cond_val : forall k op y jx s c a, is_shift op = true -> is_sar k op = false ->
  in_range k a = true -> 0 <= c -> get s y = Some (JI c) -> jeval s jx = JOk (JI a) s ->
  exists v, jeval s (shift_cond k op y jx) = JOk (JI v) s /\ norm k v = shift_res k op a c.
Proof.
  intros k op y jx s c a Ho Hs Ha Hc Hy Hx. unfold shift_cond. cbn [jeval]. rewrite Hy. cbn [jeval js_bin].
  destruct (c <? 32) eqn:E.
  - destruct (shift_core k op a c Ho Ha ltac:(lia)) as [v [Ev Hv]]. exists v. split; [|exact Hv].
    rewrite Hx. cbn [jeval]. rewrite Hy, Ev. reflexivity.
  - exists 0. split. reflexivity. rewrite shift_res_big by (assumption || lia). destruct k; reflexivity.
Qed.

Lemma fix_number_cong : forall k e e' s s', jeval s e = jeval s' e' -> jeval s (fix_number k e) = jeval s' (fix_number k e').
Proof. intros. destruct k; cbn [fix_number jshl jshr jushr jeval]; rewrite H; reflexivity. Qed.

Lemma tmpl_strict : forall k op t ja jb s, is_shift op = false ->
  jle (jbind (jeval s ja) (fun va s1 => jbind (jeval s1 jb) (fun vb s2 =>
         match va, vb with JI a, JI b => jeval s2 (tmpl k op t (JNum a) (JNum b)) | _, _ => JStuck end)))
      (jeval s (tmpl k op t ja jb)).
Proof.
  intros k op t ja jb s Ho.
  destruct (jeval s ja) as [va s1| |] eqn:H1; cbn [jbind];
    [destruct (jeval s1 jb) as [vb s2| |] eqn:H2; cbn [jbind] | |]; try (left; reflexivity).
  1: destruct va as [a| | | | |]; try (left; reflexivity); destruct vb as [b| | | | |]; try (left; reflexivity).
  (* both operands have values, the second throws, the first throws: the template reduces by H1 and H2 *)
  all: right; symmetry; destruct op; try discriminate; cbn [tmpl];
    try (first [apply fix_number_cong | apply fix_number_throw]; repeat (cbn [jeval]; rewrite ?H1, ?H2); reflexivity);
    destruct k; cbn [fix_number signed]; unfold jshl, jshr, jushr; repeat (cbn [jeval]; rewrite ?H1, ?H2); reflexivity.
Qed.

Theorem tmpl_sim : forall k op t a b s, is_shift op = false -> in_range k a = true -> in_range k b = true ->
  match go_bin k op a b with
  | EV (VI r) => in_range k r = true /\
                 exists s', jeval s (tmpl k op t (JNum a) (JNum b)) = JOk (JI r) s' /\
                            (s' = s \/ (temp_base op <> None /\ exists d, s' = set s t d))
  | EV (VB _) => False
  | EPanic => jeval s (tmpl k op t (JNum a) (JNum b)) = JThrow
  | EStuck => False
  end.
Proof.
  intros k op t a b s Ho Ha Hb.
  destruct op; try discriminate; cbn [go_bin].
  - split. apply norm_in_range. eexists. split. apply add_correct; assumption. auto.
  - split. apply norm_in_range. eexists. split. apply sub_correct; assumption. auto.
  - split. apply norm_in_range. eexists. split. apply mul_correct; assumption. auto.
  - rewrite quo_correct by assumption. destruct (b =? 0); [reflexivity|].
    split. apply norm_in_range. eexists. split. reflexivity. right. split. discriminate. eexists. reflexivity.
  - rewrite rem_correct by assumption. destruct (b =? 0); [reflexivity|].
    split. apply rem_in_range; assumption.
    eexists. split. reflexivity. right. split. discriminate. eexists. reflexivity.
  - split. apply (bitwise_in_range Z.land andb Z.land_spec eq_refl); assumption. eexists. split. apply and_correct; assumption. auto.
  - split. apply (bitwise_in_range Z.lor orb Z.lor_spec eq_refl); assumption. eexists. split. apply or_correct; assumption. auto.
  - split. apply norm_in_range. eexists. split. apply xor_correct. auto.
  - split. apply norm_in_range. eexists. split. apply andnot_correct. auto.
Qed.
