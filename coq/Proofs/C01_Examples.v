(* C01 — concrete programs: non-vacuity of the theorems, and the formerly deviating inputs *)
From Coq Require Import ZArith List String Bool.
From Verif Require Import Model.C01_GoSem Model.C01_JsSem Model.C01_Compile Model.C01_Wf.
Import ListNotations.
Local Open Scope Z_scope.

Local Open Scope string_scope.
Definition nm (b : string) (i : N) : name := (b, i).

(* nested labelled loops, shadowing, else-if chain with divisions in the conditions, a for-post that
   needs a temporary, int8 overflow, continue through two loops, final division by zero *)
Definition ex_prog : stmt :=
  SSeq (SDefine (nm "n" 0) (TI I) (ELit I 40))
  (SSeq (SDefine (nm "a" 0) (TI I8) (ELit I8 100))
  (SSeq (SFor (Some "L1") (SDefine (nm "i" 0) (TI I) (ELit I 64)) (Some (ECmp (TI I) Gt (EVar (nm "i" 0)) (ELit I 0)))
           (SAssign (nm "i" 0) (EBin false I Quo (EVar (nm "i" 0)) (ELit I 2)))
           (SSeq (SIf (ECmp (TI I) Eq (EBin false I Rem (EVar (nm "i" 0)) (ELit I 3)) (ELit I 1)) (SSeq (SContinue None) SSkip) SNoElse)
           (SSeq (SFor None (SDefine (nm "j" 0) (TI U8) (ELit U8 0)) (Some (ECmp (TI U8) Lt (EVar (nm "j" 0)) (ELit U8 4)))
                    (SIncDec (nm "j" 0) U8 true)
                    (SSeq (SIf (ECmp (TI U8) Eq (EVar (nm "j" 0)) (ELit U8 2)) (SSeq (SContinue (Some "L1")) SSkip) SNoElse)
                    (SSeq (SDefine (nm "a" 1) (TI I8) (EBin false I8 Add (EVar (nm "a" 0)) (EConv U8 I8 (EVar (nm "j" 0)))))
                    (SSeq (SOpAssign (nm "a" 0) I8 Add (ELit I8 27))
                    (SSeq (SPrint [EVar (nm "i" 0); EVar (nm "j" 0); EVar (nm "a" 1); EVar (nm "a" 0)]) SSkip)))))
           (SSeq (SPrint [EVar (nm "i" 0)]) SSkip))))
  (SSeq (SIf (ECmp (TI I) Gt (EBin false I Quo (EVar (nm "n" 0)) (ELit I 7)) (ELit I 9)) (SSeq (SPrint [EVar (nm "n" 0)]) SSkip)
          (SIf (ECmp (TI I) Eq (EBin false I Rem (EVar (nm "n" 0)) (ELit I 7)) (ELit I 5))
               (SSeq (SOpAssign (nm "n" 0) I Shl (ELit U 3)) SSkip)
               (SSeq (SPrint [EVar (nm "a" 0)]) SSkip)))
  (SSeq (SAssign (nm "n" 0) (EBin false I Sub (EVar (nm "n" 0)) (EVar (nm "n" 0))))
  (SSeq (SPrint [EBin false I Quo (ELit I 1) (EVar (nm "n" 0))]) SSkip))))).

Example ex_prog_simulated :
  wf_prog ex_prog = true /\
  exists out, run_go 50 ex_prog = Done out PanicExit /\ List.length out = 6%nat /\
              run_js 50 (compile ex_prog) = Done out PanicExit.
Proof. vm_compute. split. reflexivity. eexists. repeat split; reflexivity. Qed.

(* inputs on which the translator used to deviate from Go (repaired in /repo): the model of the
   repaired translator agrees with Go on them *)
Definition p_quo_minint : stmt :=
  SSeq (SDefine (nm "a" 0) (TI I8) (ELit I8 (-128))) (SSeq (SDefine (nm "b" 0) (TI I8) (ELit I8 (-1)))
  (SSeq (SPrint [EBin false I8 Quo (EVar (nm "a" 0)) (EVar (nm "b" 0))]) SSkip)).
Definition p_neg_minint : stmt :=
  SSeq (SDefine (nm "x" 0) (TI I32) (ELit I32 (-2147483648))) (SSeq (SAssign (nm "x" 0) (ENeg I32 (EVar (nm "x" 0))))
  (SSeq (SPrint [EVar (nm "x" 0)]) SSkip)).
Definition p_shr_const : stmt :=
  SSeq (SDefine (nm "x" 0) (TI I) (ELit I (-5))) (SSeq (SPrint [EBin false I Shr (EVar (nm "x" 0)) (ELit U 32)]) SSkip).
Definition p_shift_skip : stmt :=
  SSeq (SDefine (nm "x" 0) (TI I) (ELit I 1)) (SSeq (SDefine (nm "z" 0) (TI I) (ELit I 0)) (SSeq (SDefine (nm "s" 0) (TI U) (ELit U 40))
  (SSeq (SPrint [EBin false I Shl (EBin false I Quo (EVar (nm "x" 0)) (EVar (nm "z" 0))) (EVar (nm "s" 0))]) SSkip))).


Example formerly_deviating :
  run_js 5 (compile p_quo_minint) = Done [[VI (-128)]] Exit /\ run_go 5 p_quo_minint = Done [[VI (-128)]] Exit /\
  run_js 5 (compile p_neg_minint) = Done [[VI (-2147483648)]] Exit /\ run_go 5 p_neg_minint = Done [[VI (-2147483648)]] Exit /\
  run_js 5 (compile p_shr_const) = Done [[VI (-1)]] Exit /\ run_go 5 p_shr_const = Done [[VI (-1)]] Exit /\
  run_js 5 (compile p_shift_skip) = Done [] PanicExit /\ run_go 5 p_shift_skip = Done [] PanicExit /\
  wf_prog p_quo_minint = true /\ wf_prog p_neg_minint = true /\ wf_prog p_shr_const = true /\ wf_prog p_shift_skip = true.
Proof. vm_compute. repeat split. Qed.
