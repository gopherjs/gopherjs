(* C01 stage 2 — unfolding equations of the two interpreters with calls; [Static] for [cstmt2]; binding the arguments *)
From Coq Require Import ZArith List String Bool Lia.
From Verif Require Import Model.C01_GoSem Model.C01_JsSem Model.C01_Compile Model.C01_Wf
  Model.C01_S2_GoSem Model.C01_S2_JsSem Model.C01_S2_Compile Model.C01_S2_Wf
  Proofs.C01_Arith Proofs.C01_SimBase Proofs.C01_SimExpr Proofs.C01_SimBin Proofs.C01_SimStatic
  Proofs.C01_SimStmt1 Proofs.C01_SimStmt2 Proofs.C01_SimStmt3 Proofs.C01_SimStmt4.
Import ListNotations.
Local Open Scope Z_scope.

Lemma inj2_eq : forall v, inj2 v = inj v.
Proof. reflexivity. Qed.

Lemma prepend2_nil : forall S V (r : res2 S V), prepend2 [] r = r.
Proof. intros S V [g s o|o| |]; reflexivity. Qed.
Lemma prepend2_app : forall S V o1 o2 (r : res2 S V), prepend2 o1 (prepend2 o2 r) = prepend2 (o1 ++ o2) r.
Proof. intros S V o1 o2 [g s o|o| |]; cbn; rewrite ?app_assoc; reflexivity. Qed.
Lemma of_sres_prepend : forall S V o (r : sres S), @of_sres S V (prepend o r) = prepend2 o (of_sres r).
Proof. intros S V o [[|[l|]|l] s o1|o1| |]; reflexivity. Qed.

Section JEq.
  Variable jfe : list (fname * jfdef).

  Lemma jexec2_list_nil : forall f s, jexec2_list jfe f [] s = Q2Ok GNorm s [].
  Proof. reflexivity. Qed.
  Lemma jexec2_list_cons : forall f a r s,
    jexec2_list jfe f (a :: r) s = match jexec2 jfe f a s with
                                   | Q2Ok GNorm s1 o1 => prepend2 o1 (jexec2_list jfe f r s1)
                                   | q => q
                                   end.
  Proof. reflexivity. Qed.
  Lemma jexec2_list_app : forall f l1 l2 s,
    jexec2_list jfe f (l1 ++ l2) s = match jexec2_list jfe f l1 s with
                                     | Q2Ok GNorm s1 o1 => prepend2 o1 (jexec2_list jfe f l2 s1)
                                     | q => q
                                     end.
  Proof.
    induction l1 as [|a l1 IH]; intros l2 s.
    - cbn [app]. rewrite jexec2_list_nil, prepend2_nil. reflexivity.
    - cbn [app]. rewrite !jexec2_list_cons. destruct (jexec2 jfe f a s) as [g s1 o1|o| |]; try reflexivity.
      destruct g; try reflexivity. rewrite IH.
      destruct (jexec2_list jfe f l1 s1) as [g2 s2 o2|o| |]; try reflexivity.
      destruct g2; try reflexivity. cbn [prepend2]. rewrite prepend2_app. reflexivity.
  Qed.
  Lemma jexec2_list_single : forall f a s, jexec2_list jfe f [a] s = jexec2 jfe f a s.
  Proof.
    intros. rewrite jexec2_list_cons. destruct (jexec2 jfe f a s) as [g s1 o1|o| |]; try reflexivity.
    destruct g; try reflexivity. rewrite jexec2_list_nil. cbn [prepend2]. rewrite app_nil_r. reflexivity.
  Qed.

  Lemma jexec2_base : forall f b s, jexec2 jfe f (J2Base b) s = of_sres (jexec f b s).
  Proof. destruct f; reflexivity. Qed.

  Lemma jexec2_list_base : forall f js s, jexec2_list jfe f (map J2Base js) s = of_sres (jexec_list f js s).
  Proof.
    induction js as [|a js IH]; intros s.
    - reflexivity.
    - cbn [map]. rewrite jexec2_list_cons, jexec_list_cons, jexec2_base.
      destruct (jexec f a s) as [[|[l|]|l] s1 o1|o1| |]; try reflexivity.
      cbn [of_sres]. rewrite IH, of_sres_prepend. reflexivity.
  Qed.

  Lemma jexec2_call : forall f dst fn args s,
    jexec2 jfe f (J2Call dst fn args) s =
    match jeval_list s args with
    | inl (Some (vs, s1)) =>
        match f with
        | O => Q2OOF
        | S fl =>
            match find_fn jfe fn with
            | None => Q2Stuck
            | Some fd =>
                match bind_params (jf_params fd) (map inj vs) [] with
                | None => Q2Stuck
                | Some s0 =>
                    after_call (fun s a => set s (match dst with Some n => n | None => (""%string, 0%N) end) a)
                      (has_dst dst) s1 (finish_call (jexec2_list jfe fl (jf_body fd) s0))
                end
            end
        end
    | inl None => Q2Stuck
    | inr JThrow => Q2Panic []
    | inr _ => Q2Stuck
    end.
  Proof. destruct f; reflexivity. Qed.

  Lemma jexec2_if : forall f c t e s,
    jexec2 jfe f (J2If c t e) s =
    match jeval s c with
    | JOk (JB true) s1 => jexec2_list jfe f t s1
    | JOk (JB false) s1 => jexec2_list jfe f (match e with None => [] | Some b => b end) s1
    | JOk _ _ => Q2Stuck
    | JThrow => Q2Panic []
    | JStuck => Q2Stuck
    end.
  Proof. destruct f, e; reflexivity. Qed.

  Lemma jexec2_while : forall f body s,
    jexec2 jfe f (J2While body) s =
    match jexec2_list jfe f body s with
    | Q2Ok GNorm s1 o1 => match f with O => Q2OOF | S fl => prepend2 o1 (jexec2 jfe fl (J2While body) s1) end
    | Q2Ok GBrk s1 o1 => Q2Ok GNorm s1 o1
    | r => r
    end.
  Proof. destruct f; reflexivity. Qed.

  Lemma jexec2_return : forall f e s,
    jexec2 jfe f (J2Return e) s =
    match e with
    | None => Q2Ok (GRet None) s []
    | Some e => match jeval s e with
                | JOk v s1 => Q2Ok (GRet (Some v)) s1 []
                | JThrow => Q2Panic []
                | JStuck => Q2Stuck
                end
    end.
  Proof. destruct f; destruct e; reflexivity. Qed.

  Lemma head_eval : forall f jc sj,
    jexec2 jfe f (loop_head jc) sj = match jeval sj jc with
                                     | JOk (JB true) sj1 => Q2Ok GNorm sj1 []
                                     | JOk (JB false) sj1 => Q2Ok GBrk sj1 []
                                     | JOk _ _ => Q2Stuck
                                     | JThrow => Q2Panic []
                                     | JStuck => Q2Stuck
                                     end.
  Proof.
    intros f jc sj. unfold loop_head. rewrite jexec2_base, jexec_if. cbn [jeval].
    destruct (jeval sj jc) as [[z|[|]|? ?| | |] sj1| |]; try reflexivity.
    cbn [js_un negb]. rewrite jexec_list_single, jexec_break. reflexivity.
  Qed.
End JEq.

Section GEq.
  Variable fe : fenv.

  Lemma exec2_skip : forall f s, exec2 fe f TSkip s = Q2Ok GNorm s [].
  Proof. destruct f; reflexivity. Qed.
  Lemma exec2_base : forall f b s, exec2 fe f (TBase b) s = of_sres (exec f b s).
  Proof. destruct f; reflexivity. Qed.
  Lemma exec2_seq : forall f a b s,
    exec2 fe f (TSeq a b) s = match exec2 fe f a s with
                              | Q2Ok GNorm s1 o1 => prepend2 o1 (exec2 fe f b s1)
                              | r => r
                              end.
  Proof. destruct f; reflexivity. Qed.
  Lemma exec2_call : forall f dst fn args s,
    exec2 fe f (TCall dst fn args) s =
    match eval_list s args with
    | inl (Some vs) =>
        match f with
        | O => Q2OOF
        | S fl =>
            match find_fn fe fn with
            | None => Q2Stuck
            | Some fd =>
                match bind_params (map fst (f_params fd)) vs [] with
                | None => Q2Stuck
                | Some s0 =>
                    after_call (fun s a => set s (dst_name dst) a) (has_dst dst) s
                      (finish_call (exec2 fe fl (f_body fd) s0))
                end
            end
        end
    | inl None => Q2Stuck
    | inr EPanic => Q2Panic []
    | inr _ => Q2Stuck
    end.
  Proof. destruct f; reflexivity. Qed.
  Lemma exec2_if : forall f c t e s,
    exec2 fe f (TIf c t e) s = match eval s c with
                               | EV (VB true) => exec2 fe f t s
                               | EV (VB false) => exec2 fe f e s
                               | EV _ => Q2Stuck
                               | EPanic => Q2Panic []
                               | EStuck => Q2Stuck
                               end.
  Proof. destruct f; reflexivity. Qed.
  Lemma exec2_return : forall f e s,
    exec2 fe f (TReturn e) s =
    match e with
    | None => Q2Ok (GRet None) s []
    | Some e => match eval s e with
                | EV a => Q2Ok (GRet (Some a)) s []
                | EPanic => Q2Panic []
                | EStuck => Q2Stuck
                end
    end.
  Proof. destruct f; destruct e; reflexivity. Qed.

  Definition loop_once (f : nat) (c : expr) (post : stmt) (body : stmt2) (s1 : store val) : res2 (store val) val :=
    match eval s1 c with
    | EV (VB true) =>
        match exec2 fe f body s1 with
        | Q2Ok GNorm s2 o2 =>
            match exec_simple post s2 with
            | ROk SNormal s3 o3 =>
                match f with
                | O => Q2OOF
                | S fl => prepend2 (o2 ++ o3) (exec2 fe fl (TFor SSkip c post body) s3)
                end
            | ROk _ _ _ => Q2Stuck
            | RPanic o => Q2Panic (o2 ++ o)
            | ROOF => Q2OOF
            | RStuck => Q2Stuck
            end
        | Q2Ok GBrk _ _ => Q2Stuck
        | r => r
        end
    | EV (VB false) => Q2Ok GNorm s1 []
    | EV _ => Q2Stuck
    | EPanic => Q2Panic []
    | EStuck => Q2Stuck
    end.

  Lemma exec2_for : forall f init c post body s,
    exec2 fe f (TFor init c post body) s =
    match exec_simple init s with
    | ROk SNormal s1 o1 => prepend2 o1 (loop_once f c post body s1)
    | ROk _ _ _ => Q2Stuck
    | RPanic o => Q2Panic o
    | ROOF => Q2OOF
    | RStuck => Q2Stuck
    end.
  Proof. destruct f; reflexivity. Qed.
  Lemma exec2_for_skip : forall f c post body s,
    exec2 fe f (TFor SSkip c post body) s = loop_once f c post body s.
  Proof. intros. rewrite exec2_for. cbn [exec_simple]. apply prepend2_nil. Qed.
End GEq.

(* no else part is an empty else part: [cstmt2 st1 TSkip = ([], st1)] *)
Definition else_opt (e : stmt2) (je : list jstmt2) : option (list jstmt2) :=
  match e with TSkip => None | _ => Some je end.

Lemma cstmt2_if : forall st c t e,
  cstmt2 st (TIf c t e) =
  let '(jc, st0) := cexpr st c in let '(jt, st1) := cstmt2 st0 t in let '(je, st2) := cstmt2 st1 e in
  ([J2If jc jt (else_opt e je)], st2).
Proof.
  intros st c t e. cbn [cstmt2]. destruct (cexpr st c) as [jc st0]. destruct (cstmt2 st0 t) as [jt st1].
  destruct e; reflexivity.
Qed.

Lemma else_opt_list : forall st1 e je st2, cstmt2 st1 e = (je, st2) ->
  match else_opt e je with None => [] | Some b => b end = je.
Proof. intros st1 e je st2 H. destruct e; try reflexivity. inversion H. reflexivity. Qed.

Lemma cparams_static : forall ps st ns st', cparams st ps = (ns, st') -> Static st ps st'.
Proof.
  induction ps as [|p ps IH]; cbn [cparams]; intros st ns st' H.
  - inversion H; subst. apply Static_refl.
  - destruct (declare st p) as [n st1] eqn:D. destruct (cparams st1 ps) as [ns' st2] eqn:C. inversion H; subst.
    change (p :: ps) with ([p] ++ ps). eapply Static_trans. eapply Static_declare; eauto. eauto.
Qed.

Lemma cstmt2_static : forall s st js st', cstmt2 st s = (js, st') -> Static st (defs2 s) st'.
Proof.
  induction s as [ | b | a IHa b IHb | dst f args | c t IHt e IHe | init c post body IHbody | oe ]; intros st js st' H.
  - cbn in H. inversion H; subst. apply Static_refl.
  - cbn [cstmt2 defs2] in *. destruct (cstmt [] st b) as [js0 st1] eqn:C. inversion H; subst.
    eapply (proj1 (cstmt_static b)); eauto.
  - cbn [cstmt2 defs2] in *. destruct (cstmt2 st a) as [ja st1] eqn:C1. destruct (cstmt2 st1 b) as [jb st2] eqn:C2.
    inversion H; subst. eapply Static_trans; eauto.
  - cbn [cstmt2] in H. destruct (cexprs st args) as [ja st1] eqn:C. destruct (cexprs_mono _ _ _ _ C) as [L R].
    assert (S1 : Static st [] st1) by (apply Static_same; auto).
    destruct dst as [[v [t|]]|]; cbn [defs2].
    + destruct (declare st1 v) as [n st2] eqn:D. inversion H; subst.
      eapply Static_nil_l; eauto. eapply Static_declare; eauto.
    + inversion H; subst. exact S1.
    + inversion H; subst. exact S1.
  - rewrite cstmt2_if in H. destruct (cexpr st c) as [jc st0] eqn:C0. destruct (cstmt2 st0 t) as [jt st1] eqn:C1.
    destruct (cstmt2 st1 e) as [je st2] eqn:C2. inversion H; subst. cbn [defs2].
    eapply Static_nil_l. eapply Static_cexpr; eauto.
    eapply Static_trans; eauto.
  - cbn [cstmt2 defs2] in *. destruct (csimple st init) as [ji st0] eqn:C0. destruct (cexpr st0 c) as [jc st1] eqn:C1.
    destruct (cstmt2 st1 body) as [jb st2] eqn:C2. destruct (cpost st2 post) as [jp st3] eqn:C3. inversion H; subst.
    eapply Static_trans. eapply Static_csimple; eauto.
    eapply Static_nil_l. eapply Static_cexpr; eauto.
    eapply Static_nil_r. eauto. eapply Static_cpost; eauto.
  - destruct oe as [e|]; cbn [cstmt2 defs2] in *.
    + destruct (cexpr st e) as [je st1] eqn:C. inversion H; subst. eapply Static_cexpr; eauto.
    + inversion H; subst. apply Static_refl.
Qed.

Lemma wf_stmt2_incl : forall fe rt s g g', wf_stmt2 fe rt g s = Some g' -> incl g g'.
Proof.
  intros fe rt. induction s as [ | b | a IHa b IHb | dst f args | c t IHt e IHe | init c post body IHbody | oe ];
    intros g g' H; cbn [wf_stmt2] in H.
  - inversion H; subst. apply incl_refl.
  - eapply wf_stmt_incl; eauto.
  - destruct (wf_stmt2 fe rt g a) as [g1|] eqn:W; [|discriminate]. eapply incl_tran; eauto.
  - destruct (find_fn fe f) as [fd|]; [|discriminate]. destruct (wf_args g args _); [|discriminate].
    destruct dst as [[v [t|]]|].
    + destruct (f_ret fd) as [t'|]; [|discriminate]. destruct (ty_eqb t t'); [|discriminate]. inversion H; subst.
      apply incl_tl. apply incl_refl.
    + destruct (f_ret fd) as [t'|]; [|discriminate]. destruct (env_get g v) as [t''|]; [|discriminate].
      destruct (ty_eqb t' t''); [|discriminate]. inversion H; subst. apply incl_refl.
    + inversion H; subst. apply incl_refl.
  - destruct (opt_ty_is (wf_expr g c) TB); [|discriminate].
    destruct (wf_stmt2 fe rt g t); [|discriminate]. destruct (wf_stmt2 fe rt g e); [|discriminate].
    inversion H; subst. apply incl_refl.
  - destruct (wf_simple g init true) as [g1|]; [|discriminate].
    destruct (_ && _); [|discriminate].
    destruct (wf_simple g1 post false); [|discriminate]. destruct (wf_stmt2 fe rt g1 body); [|discriminate].
    inversion H; subst. apply incl_refl.
  - destruct oe as [e|]; destruct rt as [t|]; try discriminate.
    + destruct (opt_ty_is (wf_expr g e) t); [|discriminate]. inversion H; subst. apply incl_refl.
    + inversion H; subst. apply incl_refl.
Qed.

Lemma wf_args_typed : forall g es ts, wf_args g es ts = true -> Forall2 (fun e t => wf_expr g e = Some t) es ts.
Proof.
  induction es as [|e es IH]; intros [|t ts] H; cbn [wf_args] in H; try discriminate. constructor.
  apply andb_true_iff in H as [We Wes]. constructor; auto using opt_ty_is_spec.
Qed.

Lemma params_sim : forall ps vs st ns st' g sg sj sg',
  cparams st (map fst ps) = (ns, st') -> Forall2 val_ok (map snd ps) vs -> rho_ok st -> Inv g (rho st) sg sj ->
  fresh st (map fst ps) -> NoDup (map fst ps) ->
  bind_params (map fst ps) vs sg = Some sg' ->
  exists sj', bind_params ns (map inj vs) sj = Some sj' /\ Inv (rev ps ++ g) (rho st') sg' sj' /\ rho_ok st'.
Proof.
  induction ps as [|[p t] ps IH]; intros vs st ns st' g sg sj sg' Hc HV Hr HI Hf Hn Hb; cbn [map fst snd cparams bind_params] in *.
  - inversion HV; subst. inversion Hc; subst. cbn [map bind_params] in *. inversion Hb; subst.
    exists sj. auto.
  - inversion HV as [|t0 a ts vs' Va HV']; subst. cbn [bind_params map] in *.
    destruct (declare st p) as [n st1] eqn:D. destruct (cparams st1 (map fst ps)) as [ns' st2] eqn:C. inversion Hc; subst; clear Hc.
    destruct (Static_seq st [p] st1 (map fst ps) (Static_declare _ _ _ _ D) Hf Hn Hr) as [_ [[E1 Hr1] [F1 N1]]].
    assert (HI1 : Inv ((p, t) :: g) (rho st1) (set sg p a) (set sj n (inj a))).
    { eapply Inv_declare; eauto. apply Hf. left. reflexivity. }
    destruct (IH vs' st1 ns' st' ((p, t) :: g) _ _ sg' C HV' Hr1 HI1 F1 N1 Hb) as [sj' [B [HI' Hr']]].
    exists sj'. cbn [bind_params]. split. exact B. split; auto.
    cbn [rev]. rewrite <- app_assoc. exact HI'.
Qed.

Lemma find_compile : forall fe f fd, find_fn fe f = Some fd -> find_fn (compile_fns fe) f = Some (compile_fn fd).
Proof.
  induction fe as [|[g d] fe IH]; cbn [find_fn compile_fns map fst snd]; intros f fd H. discriminate.
  destruct (String.eqb g f). inversion H; subst. reflexivity. apply IH. exact H.
Qed.

Lemma find_fn_In : forall A (fe : list (fname * A)) f fd, find_fn fe f = Some fd -> exists g, In (g, fd) fe.
Proof.
  induction fe as [|[g d] fe IH]; cbn [find_fn]; intros f fd H. discriminate.
  destruct (String.eqb g f). inversion H; subst. exists g. left. reflexivity.
  destruct (IH _ _ H) as [g' I]. exists g'. right. exact I.
Qed.
