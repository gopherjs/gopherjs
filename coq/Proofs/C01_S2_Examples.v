(* C01 stage 2 — example programs for the non-vacuity statements of Props/C01.v *)
From Coq Require Import ZArith List String Bool.
From Verif Require Import Model.C01_GoSem Model.C01_JsSem Model.C01_Compile Model.C01_Wf
  Model.C01_S2_GoSem Model.C01_S2_JsSem Model.C01_S2_Compile Model.C01_S2_Wf.
Import ListNotations.
Local Open Scope Z_scope.
Local Open Scope string_scope.

(* func h(n int, d int) int { if n <= 0 { return 100 / d }; r := h(n-1, d); return r + n }
   func find(k int) int { for i := 0; i < 10; i++ { x := h(1, i+1); if x < k { return i } }; return -1 }
   func show(v int, f bool) { if f { println(v); return }; println(v, f) }
   func main() { a := find(30); show(a, a > 2); show(a, a > 3); b := h(2, 0); println(b) } *)
Definition vn := ("n", 0%N). Definition vd := ("d", 0%N). Definition vr := ("r", 0%N).
Definition vk := ("k", 0%N). Definition vi := ("i", 0%N). Definition vx := ("x", 0%N).
Definition vv := ("v", 0%N). Definition vf := ("f", 0%N). Definition va := ("a", 0%N). Definition vb := ("b", 0%N).

Definition ex2_h : fdef := {| f_params := [(vn, TI I); (vd, TI I)]; f_ret := Some (TI I);
  f_body := TSeq (TIf (ECmp (TI I) Le (EVar vn) (ELit I 0))
                      (TSeq (TReturn (Some (EBin false I Quo (ELit I 100) (EVar vd)))) TSkip) TSkip)
           (TSeq (TCall (Some (vr, Some (TI I))) "h" [EBin false I Sub (EVar vn) (ELit I 1); EVar vd])
           (TSeq (TReturn (Some (EBin false I Add (EVar vr) (EVar vn)))) TSkip)) |}.
Definition ex2_find : fdef := {| f_params := [(vk, TI I)]; f_ret := Some (TI I);
  f_body := TSeq (TFor (SDefine vi (TI I) (ELit I 0)) (ECmp (TI I) Lt (EVar vi) (ELit I 10)) (SIncDec vi I true)
                    (TSeq (TCall (Some (vx, Some (TI I))) "h" [ELit I 1; EBin false I Add (EVar vi) (ELit I 1)])
                    (TSeq (TIf (ECmp (TI I) Lt (EVar vx) (EVar vk)) (TSeq (TReturn (Some (EVar vi))) TSkip) TSkip) TSkip)))
           (TSeq (TReturn (Some (ELit I (-1)))) TSkip) |}.
Definition ex2_show : fdef := {| f_params := [(vv, TI I); (vf, TB)]; f_ret := None;
  f_body := TSeq (TIf (EVar vf) (TSeq (TBase (SPrint [EVar vv])) (TSeq (TReturn None) TSkip)) TSkip)
           (TSeq (TBase (SPrint [EVar vv; EVar vf])) TSkip) |}.
Definition ex2_main : fdef := {| f_params := []; f_ret := None;
  f_body := TSeq (TCall (Some (va, Some (TI I))) "find" [ELit I 30])
           (TSeq (TCall None "show" [EVar va; ECmp (TI I) Gt (EVar va) (ELit I 2)])
           (TSeq (TCall None "show" [EVar va; ECmp (TI I) Gt (EVar va) (ELit I 3)])
           (TSeq (TCall (Some (vb, Some (TI I))) "h" [ELit I 2; ELit I 0])
           (TSeq (TBase (SPrint [EVar vb])) TSkip)))) |}.
Definition ex2_prog : prog2 :=
  {| p_funcs := [("h", ex2_h); ("find", ex2_find); ("show", ex2_show); ("main", ex2_main)]; p_main := "main" |}.
