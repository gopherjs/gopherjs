(* C01 stage 2 — the result relation [Res2]; function bodies ([fn_sim]); every statement by induction on the fuel
   ([dyn2_all]); programs *)
From Coq Require Import ZArith List String Bool Lia.
From Verif Require Import Base.Lists Model.C01_GoSem Model.C01_JsSem Model.C01_Compile Model.C01_Wf
  Model.C01_S2_GoSem Model.C01_S2_JsSem Model.C01_S2_Compile Model.C01_S2_Wf
  Proofs.C01_Arith Proofs.C01_SimBase Proofs.C01_SimExpr Proofs.C01_SimBin Proofs.C01_SimStatic
  Proofs.C01_SimStmt1 Proofs.C01_SimStmt2 Proofs.C01_SimStmt3 Proofs.C01_SimStmt4 Proofs.C01_S2_Base.
Import ListNotations.
Local Open Scope Z_scope.

Definition retv_ok (rt : option ty) (v : option val) : Prop :=
  match rt, v with
  | None, None => True
  | Some t, Some a => val_ok t a
  | _, _ => False
  end.

(* [Res] for stage 2; rt is the result type of the enclosing function *)
Definition Res2 (rt : option ty) (g' : env) (r' : list (name * name))
  (rg : res2 (store val) val) (rj : res2 (store jval) jval) : Prop :=
  match rg with
  | Q2Ok GNorm sg' out => exists sj', rj = Q2Ok GNorm sj' out /\ Inv g' r' sg' sj'
  | Q2Ok (GRet v) sg' out => retv_ok rt v /\ exists sj', rj = Q2Ok (GRet (option_map inj v)) sj' out
  | Q2Ok GBrk _ _ => True          (* every MiniGo context turns it into Stuck *)
  | Q2Panic out => rj = Q2Panic out
  | Q2OOF => True
  | Q2Stuck => True
  end.

Lemma Res2_prepend : forall rt g' r' rg rj o, Res2 rt g' r' rg rj -> Res2 rt g' r' (prepend2 o rg) (prepend2 o rj).
Proof.
  intros rt g' r' rg rj o H. destruct rg as [[| |v] sg' out|out| |]; cbn [prepend2 Res2] in *; auto.
  - destruct H as [sj' [-> HI]]. exists sj'. auto.
  - destruct H as [Rv [sj' ->]]. split; auto. exists sj'. reflexivity.
  - subst. reflexivity.
Qed.

Lemma Res2_mono : forall rt g' r' g0' r'' rg rj,
  incl g0' g' -> rho_ext r' r'' -> Res2 rt g' r' rg rj -> Res2 rt g0' r'' rg rj.
Proof.
  intros rt g' r' g0' r'' rg rj I E H. destruct rg as [[| |v] sg' out|out| |]; cbn [Res2] in *; auto.
  destruct H as [sj' [-> HI]]. exists sj'. split; auto. eapply Inv_ext; eauto. eapply Inv_incl; eauto.
Qed.

(* a call seen by the caller *)
Definition CRes (rt : option ty) (cg : cres val) (cj : cres jval) : Prop :=
  match cg with
  | CRet v o => match v with Some a => exists t, rt = Some t /\ val_ok t a | None => True end /\
                cj = CRet (option_map inj v) o
  | CPanic o => cj = CPanic o
  | COOF => True
  | CStuck => True
  end.

Lemma after_call_sim : forall rt frt g' r' (updG : store val -> val -> store val) (updJ : store jval -> jval -> store jval)
  (d : bool) sg sj1 cg cj,
  CRes frt cg cj ->
  (if d then forall a t, frt = Some t -> val_ok t a -> Inv g' r' (updG sg a) (updJ sj1 (inj a)) else Inv g' r' sg sj1) ->
  Res2 rt g' r' (after_call updG d sg cg) (after_call updJ d sj1 cj).
Proof.
  intros rt frt g' r' updG updJ d sg sj1 cg cj H Hd. destruct cg as [v o|o| |]; cbn [CRes after_call] in *; auto.
  - destruct H as [Hv ->]. cbn [after_call]. destruct d.
    + destruct v as [a|]; cbn [option_map Res2]; auto.
      destruct Hv as [t [E Va]]. exists (updJ sj1 (inj a)). split. reflexivity. eapply Hd; eauto.
    + cbn [Res2]. exists sj1. split. reflexivity. exact Hd.
  - subst. reflexivity.
Qed.

Section Sim2.
  Variable fe : fenv.
  Hypothesis fe_wf : forall f fd, find_fn fe f = Some fd -> wf_fn fe fd = true.
  Let jfe := compile_fns fe.

  Definition Dyn2 (fuel : nat) (s : stmt2) : Prop := forall rt st js st' g g' sg sj,
    cstmt2 st s = (js, st') -> wf_stmt2 fe rt g s = Some g' ->
    fresh st (defs2 s) -> NoDup (defs2 s) -> rho_ok st -> Inv g (rho st) sg sj ->
    Res2 rt g' (rho st') (exec2 fe fuel s sg) (jexec2_list jfe fuel js sj).

  Lemma fn_sim : forall fuel, (forall s, Dyn2 fuel s) -> forall f fd vs s0,
    find_fn fe f = Some fd -> Forall2 val_ok (map snd (f_params fd)) vs ->
    bind_params (map fst (f_params fd)) vs [] = Some s0 ->
    exists sj0, bind_params (jf_params (compile_fn fd)) (map inj vs) [] = Some sj0 /\
      CRes (f_ret fd) (finish_call (exec2 fe fuel (f_body fd) s0))
                      (finish_call (jexec2_list jfe fuel (jf_body (compile_fn fd)) sj0)).
  Proof.
    intros fuel D f fd vs s0 Hfind HV HB. pose proof (fe_wf _ _ Hfind) as Hwf. unfold wf_fn in Hwf.
    destruct (wf_stmt2 fe (f_ret fd) (rev (f_params fd)) (f_body fd)) as [g'|] eqn:W; [|discriminate].
    apply andb_true_iff in Hwf as [Hnd _]. apply (nodupb_NoDup name_eqb name_eqb_eq) in Hnd.
    unfold compile_fn. destruct (cparams cstate0 (map fst (f_params fd))) as [ns st0] eqn:CP.
    destruct (cstmt2 st0 (f_body fd)) as [jb st] eqn:CB. cbn [jf_params jf_body].
    assert (F0 : fresh cstate0 (map fst (f_params fd) ++ defs2 (f_body fd))) by (intros v _; reflexivity).
    destruct (Static_seq _ _ _ _ (cparams_static _ _ _ _ CP) F0 Hnd rho_ok0) as [[Fp Np] [_ [Fb0 Nb]]].
    destruct (params_sim (f_params fd) vs cstate0 ns st0 [] [] [] s0 CP HV rho_ok0 (Inv_nil _ _ _) Fp Np HB)
      as [sj0 [B [HI0 Hr0]]].
    rewrite app_nil_r in HI0.
    pose proof (D (f_body fd) (f_ret fd) st0 jb st _ g' s0 sj0 CB W Fb0 Nb Hr0 HI0) as R.
    exists sj0. split. exact B.
    destruct (exec2 fe fuel (f_body fd) s0) as [[| |v] s o|o| |]; cbn [finish_call Res2 CRes] in *; auto.
    - destruct R as [sj' [-> _]]. cbn [finish_call]. split; auto.
    - destruct R as [Rv [sj' ->]]. cbn [finish_call]. split; auto.
      destruct v as [a|]; auto. unfold retv_ok in Rv. destruct (f_ret fd) as [t|]; [|contradiction]. eauto.
    - rewrite R. reflexivity.
  Qed.

  Section Loop2.
    Variables (rt : option ty) (g1 gb : env) (r1 r2 r3 : list (name * name)).
    Variables (c : expr) (jc : jexpr) (post : stmt) (jp : list jstmt) (body : stmt2) (jb : list jstmt2).
    Variable fuel : nat.
    Let W := J2While (loop_head jc :: jb ++ map J2Base jp).
    Hypothesis HC : CondSim g1 r1 c jc.
    Hypothesis HB : forall sg sj, Inv g1 r1 sg sj ->
      Res2 rt gb r2 (exec2 fe fuel body sg) (jexec2_list jfe fuel jb sj).
    Hypothesis HP : forall sg sj, Inv g1 r2 sg sj -> SimpleRes g1 r3 (exec_simple post sg) (jexec_list fuel jp sj).
    Hypothesis Igb : incl g1 gb.
    Hypothesis E13 : rho_ext r1 r3.
    (* the following rounds run on one unit of fuel less *)
    Hypothesis IH : forall fl, fuel = S fl -> forall sg sj, Inv g1 r1 sg sj ->
      Res2 rt g1 r3 (loop_once fe fl c post body sg) (jexec2 jfe fl W sj).

    Lemma loop2_sim : forall sg sj, Inv g1 r1 sg sj ->
      Res2 rt g1 r3 (loop_once fe fuel c post body sg) (jexec2 jfe fuel W sj).
    Proof.
      intros sg sj HI.
      unfold loop_once. unfold W at 1. rewrite jexec2_while, jexec2_list_cons.
      pose proof (HC sg sj HI) as CS.
      destruct (eval sg c) as [[z|[|]]| |]; try contradiction.
      - (* condition true *)
        destruct CS as [sj1 [J HI1]]. rewrite head_eval, J. rewrite prepend2_nil, jexec2_list_app.
        pose proof (HB sg sj1 HI1) as RB.
        destruct (exec2 fe fuel body sg) as [[| |v] sg2 o2|o2| |]; cbn [Res2] in RB |- *; auto.
        + destruct RB as [sj2 [-> HI2]]. assert (HI2' : Inv g1 r2 sg2 sj2) by (eapply Inv_incl; eauto).
          rewrite jexec2_list_base.
          pose proof (HP sg2 sj2 HI2') as RP.
          destruct (exec_simple post sg2) as [[| |] sg3 o3|o3| |]; try contradiction.
          * destruct RP as [-> [sj3 [JP HI3]]]. rewrite JP. cbn [of_sres prepend2].
            destruct fuel as [|fl]. exact Logic.I.
            rewrite !app_nil_r. fold W. rewrite (exec2_for_skip fe fl c post body sg3).
            apply Res2_prepend. apply (IH fl eq_refl). exact (Inv_back _ _ _ _ _ _ _ E13 HI HI3).
          * destruct RP as [-> JP]. rewrite JP. cbn [of_sres prepend2 Res2]. rewrite app_nil_r. reflexivity.
        + destruct RB as [Rv [sj2 ->]]. split. exact Rv. exists sj2. reflexivity.
        + rewrite RB. reflexivity.
      - (* condition false *)
        destruct CS as [sj1 [J HI1]]. rewrite head_eval, J. cbn [Res2].
        exists sj1. split. reflexivity. eapply Inv_ext; eauto.
      - rewrite head_eval, CS. reflexivity.
    Qed.
  End Loop2.

  Section Step2.
    Variable fuel : nat.
    Hypothesis IHfuel : forall fl, fuel = S fl -> forall s, Dyn2 fl s.

    Lemma dyn2_skip : Dyn2 fuel TSkip.
    Proof.
      intros rt st js st' g g' sg sj Hc Hwf Hfr Hnd Hr HI. cbn [cstmt2 wf_stmt2] in *.
      inversion Hc; inversion Hwf; subst. rewrite exec2_skip, jexec2_list_nil. cbn [Res2]. eauto.
    Qed.

    Lemma dyn2_base : forall b, Dyn2 fuel (TBase b).
    Proof.
      intros b rt st js st' g g' sg sj Hc Hwf Hfr Hnd Hr HI. cbn [cstmt2 wf_stmt2 defs2] in *.
      destruct (cstmt [] st b) as [js0 st1] eqn:C. inversion Hc; subst; clear Hc.
      pose proof (proj1 (dyn_all fuel b) [] st js0 st' g g' sg sj C Hwf (Forall_nil _) Hfr Hnd Hr HI) as R.
      rewrite exec2_base. unfold jfe. rewrite jexec2_list_base.
      destruct (exec fuel b sg) as [[|l|l] sg' o|o| |]; cbn [Res of_sres Res2] in *.
      - destruct R as [sj' [-> HI']]. cbn [of_sres]. eauto.
      - (* an escaping break: Res2 asks nothing of it, labelled or not *) destruct l; exact Logic.I.
      - (* an escaping continue is stuck in stage 2 *) exact Logic.I.
      - (* panic *) rewrite R. reflexivity.
      - exact Logic.I.
      - exact Logic.I.
    Qed.

    Lemma dyn2_seq : forall a b, Dyn2 fuel a -> Dyn2 fuel b -> Dyn2 fuel (TSeq a b).
    Proof.
      intros a b Da Db rt st js st' g g' sg sj Hc Hwf Hfr Hnd Hr HI. cbn [cstmt2 wf_stmt2 defs2] in *.
      destruct (cstmt2 st a) as [ja st1] eqn:Ca. destruct (cstmt2 st1 b) as [jb st2] eqn:Cb.
      inversion Hc; subst; clear Hc.
      destruct (wf_stmt2 fe rt g a) as [g1|] eqn:Wa; [|discriminate].
      destruct (Static_seq _ _ _ _ (cstmt2_static _ _ _ _ Ca) Hfr Hnd Hr) as [[Fa Na] [[Ea Ra] [Fb1 Nb]]].
      specialize (Da rt st ja st1 g g1 sg sj Ca Wa Fa Na Hr HI).
      rewrite exec2_seq. unfold jfe in *. rewrite jexec2_list_app.
      destruct (exec2 fe fuel a sg) as [[| |v] sg1 o1|o1| |]; cbn [Res2] in Da |- *; auto.
      - destruct Da as [sj1 [-> HI1]].
        specialize (Db rt st1 jb st' g1 g' sg1 sj1 Cb Hwf Fb1 Nb Ra HI1).
        apply Res2_prepend. exact Db.
      - destruct Da as [Rv [sj1 ->]]. split; auto. exists sj1. reflexivity.
      - rewrite Da. reflexivity.
    Qed.

    Lemma dyn2_return : forall oe, Dyn2 fuel (TReturn oe).
    Proof.
      intros oe rt st js st' g g' sg sj Hc Hwf Hfr Hnd Hr HI. rewrite exec2_return.
      destruct oe as [e|]; cbn [cstmt2 wf_stmt2] in *.
      - destruct (cexpr st e) as [je st1] eqn:C. inversion Hc; subst; clear Hc.
        destruct rt as [t|]; [|discriminate]. destruct (opt_ty_is (wf_expr g e) t) eqn:We; [|discriminate].
        apply opt_ty_is_spec in We.
        pose proof (cexpr_sim g sg e _ _ _ _ sj We C Hr HI) as Sim. unfold ESim in Sim.
        unfold jfe. rewrite jexec2_list_single, jexec2_return.
        destruct (eval sg e) as [a| |]; try contradiction; cbn [Res2].
        + destruct Sim as [Va [sj1 [J F]]]. rewrite J. split. exact Va. exists sj1. reflexivity.
        + rewrite Sim. reflexivity.
      - inversion Hc; subst; clear Hc. destruct rt as [t|]; [discriminate|].
        unfold jfe. rewrite jexec2_list_single, jexec2_return. cbn [Res2]. split. exact Logic.I. exists sj. reflexivity.
    Qed.

    Lemma dyn2_if : forall c t e, Dyn2 fuel t -> Dyn2 fuel e -> Dyn2 fuel (TIf c t e).
    Proof.
      intros c t e Dt De rt st js st' g g' sg sj Hc Hwf Hfr Hnd Hr HI.
      rewrite cstmt2_if in Hc.
      destruct (cexpr st c) as [jc st0] eqn:C0. destruct (cstmt2 st0 t) as [jt st1] eqn:C1.
      destruct (cstmt2 st1 e) as [je st2] eqn:C2. inversion Hc; subst; clear Hc.
      cbn [wf_stmt2 defs2] in *.
      destruct (opt_ty_is (wf_expr g c) TB) eqn:Wc; [|discriminate]. apply opt_ty_is_spec in Wc.
      destruct (wf_stmt2 fe rt g t) as [gt|] eqn:Wt; [|discriminate].
      destruct (wf_stmt2 fe rt g e) as [ge|] eqn:We; [|discriminate]. inversion Hwf; subst; clear Hwf.
      destruct (cexpr_mono _ _ _ _ C0) as [L0 R0].
      assert (Hr0 : rho_ok st0) by (apply (rho_ok_mono st); auto).
      assert (Hfr0 : fresh st0 (defs2 t ++ defs2 e)) by (apply (fresh_same st); assumption).
      destruct (Static_seq _ _ _ _ (cstmt2_static _ _ _ _ C1) Hfr0 Hnd Hr0) as [[Ft0 Nt] [[Et Rt] [Fe1 Ne]]].
      destruct (Static_ext _ _ _ (cstmt2_static _ _ _ _ C2) Fe1 Ne Rt) as [Ee Re].
      assert (CS : CondSim g' (rho st) c jc) by (eapply cond_sim; eauto).
      specialize (CS sg sj HI).
      rewrite exec2_if. unfold jfe in *. rewrite jexec2_list_single, jexec2_if.
      destruct (eval sg c) as [[z|[|]]| |]; try contradiction.
      - destruct CS as [sj1 [J HI1]]. rewrite J. rewrite <- R0 in HI1.
        specialize (Dt rt st0 jt st1 g' gt sg sj1 C1 Wt Ft0 Nt Hr0 HI1).
        eapply Res2_mono; [exact (wf_stmt2_incl _ _ _ _ _ Wt) | exact Ee | exact Dt].
      - destruct CS as [sj1 [J HI1]]. rewrite J, (else_opt_list _ _ _ _ C2). rewrite <- R0 in HI1.
        assert (HI1' : Inv g' (rho st1) sg sj1) by (eapply Inv_ext; [exact Et | exact HI1]).
        specialize (De rt st1 je st' g' ge sg sj1 C2 We Fe1 Ne Rt HI1').
        eapply Res2_mono; [exact (wf_stmt2_incl _ _ _ _ _ We) | apply rho_ext_refl | exact De].
      - rewrite CS. reflexivity.
    Qed.

    Lemma dyn2_call : forall dst f args, Dyn2 fuel (TCall dst f args).
    Proof.
      intros dst f args rt st js st' g g' sg sj Hc Hwf Hfr Hnd Hr HI.
      cbn [cstmt2] in Hc. destruct (cexprs st args) as [ja st1] eqn:Ca.
      cbn [wf_stmt2] in Hwf. destruct (find_fn fe f) as [fd|] eqn:Ff; [|discriminate].
      destruct (wf_args g args (map snd (f_params fd))) eqn:Wa; [|discriminate].
      destruct (cexprs_mono _ _ _ _ Ca) as [L1 R1].
      assert (Hr1 : rho_ok st1) by (apply (rho_ok_mono st); auto).
      pose proof (cexprs_sim g sg args _ st ja st1 sj (wf_args_typed _ _ _ Wa) Ca Hr HI) as SA.
      (* the three forms differ only in how the result is stored *)
      assert (Main : forall n, js = [J2Call (if has_dst dst then Some n else None) f ja] ->
        (forall sj1, frame st sj sj1 ->
           if has_dst dst then forall (a : val) t, f_ret fd = Some t -> val_ok t a ->
                               Inv g' (rho st') (set sg (dst_name dst) a) (set sj1 n (inj a))
           else Inv g' (rho st') sg sj1) ->
        Res2 rt g' (rho st') (exec2 fe fuel (TCall dst f args) sg) (jexec2_list jfe fuel js sj)).
      { intros n -> Upd. unfold jfe. rewrite exec2_call, jexec2_list_single, jexec2_call.
        destruct (eval_list sg args) as [[vs|]|[?| |]]; try contradiction; cbn [Res2]; auto.
        2: { rewrite SA. reflexivity. }
        destruct SA as [FV [sj1 [JL F]]]. rewrite JL.
        destruct fuel as [|fl]. exact Logic.I.
        rewrite Ff. rewrite (find_compile _ _ _ Ff).
        destruct (bind_params (map fst (f_params fd)) vs []) as [s0|] eqn:B; [|exact Logic.I].
        destruct (fn_sim fl (IHfuel fl eq_refl) f fd vs s0 Ff FV B) as [sj0 [BJ CR]]. rewrite BJ.
        assert (HD : has_dst (if has_dst dst then Some n else None) = has_dst dst) by (destruct dst; reflexivity).
        rewrite HD. eapply (after_call_sim rt (f_ret fd)); [exact CR |].
        specialize (Upd sj1 F). destruct dst; exact Upd. }
      destruct dst as [[v [t|]]|]; cbn [has_dst dst_name] in *.
      - (* v := f(args) *)
        destruct (f_ret fd) as [t'|] eqn:Rf; [|discriminate]. destruct (ty_eqb t t') eqn:Et; [|discriminate].
        apply ty_eqb_eq in Et. subst t'. inversion Hwf; subst; clear Hwf.
        destruct (declare st1 v) as [n st2] eqn:D. inversion Hc; subst; clear Hc.
        apply (Main n); auto. intros sj1 F a t0 E0 Va. inversion E0; subst.
        eapply Inv_declare; eauto.
        + rewrite R1. apply Hfr. left. reflexivity.
        + apply (Inv_next g sg st st1 sj sj1); auto.
      - (* v = f(args) *)
        destruct (f_ret fd) as [t'|] eqn:Rf; [|discriminate]. destruct (env_get g v) as [t''|] eqn:Gv; [|discriminate].
        destruct (ty_eqb t' t'') eqn:Et; [|discriminate]. apply ty_eqb_eq in Et. subst t''.
        inversion Hwf; subst; clear Hwf. inversion Hc; subst; clear Hc.
        apply (Main (js_name st' v)); auto. intros sj1 F a t0 E0 Va. inversion E0; subst.
        eapply Inv_assign; eauto. apply (Inv_next g' sg st st' sj sj1); auto.
      - (* f(args) *)
        inversion Hwf; subst; clear Hwf. inversion Hc; subst; clear Hc.
        apply (Main (""%string, 0%N)); auto. intros sj1 F. apply (Inv_next g' sg st st' sj sj1); auto.
    Qed.

    Lemma dyn2_for : forall init c post body, Dyn2 fuel body -> Dyn2 fuel (TFor init c post body).
    Proof.
      intros init c post body Db rt st js st' g g' sg sj Hc Hwf Hfr Hnd Hr HI.
      cbn [cstmt2] in Hc.
      destruct (csimple st init) as [ji st0] eqn:C0. destruct (cexpr st0 c) as [jc st1] eqn:C1.
      destruct (cstmt2 st1 body) as [jb st2] eqn:C2. destruct (cpost st2 post) as [jp st3] eqn:C3.
      inversion Hc; subst; clear Hc.
      cbn [wf_stmt2 defs2] in *.
      destruct (wf_simple g init true) as [g1|] eqn:Wi; [|discriminate].
      destruct (opt_ty_is (wf_expr g1 c) TB && negb (is_boollit c) && negb (ends_ret body)) eqn:Wc; [|discriminate].
      destruct (wf_simple g1 post false) as [gp|] eqn:Wp; [|discriminate].
      destruct (wf_stmt2 fe rt g1 body) as [gb|] eqn:Wb; [|discriminate]. inversion Hwf; subst; clear Hwf.
      pose proof Wc as Wcl. apply andb_true_iff in Wc as [Wc _]. apply andb_true_iff in Wc as [Wc _]. apply opt_ty_is_spec in Wc.
      destruct (wf_simple_inv _ _ _ _ Wi) as [_ [Ig _]]. destruct (wf_simple_inv _ _ _ _ Wp) as [_ [_ Ep]].
      rewrite (Ep eq_refl) in *. clear Ep.
      destruct (Static_seq _ _ _ _ (Static_csimple _ _ _ _ C0) Hfr Hnd Hr) as [[Fi Ni] [[Ei Ri] [Fb0 Nb]]].
      destruct (cexpr_mono _ _ _ _ C1) as [L01 R01].
      assert (Hr1 : rho_ok st1) by (apply (rho_ok_mono st0); auto).
      assert (Fb1 : fresh st1 (defs2 body)) by (apply (fresh_same st0); assumption).
      pose proof (cstmt2_static _ _ _ _ C2) as Sb.
      destruct (Static_ext _ _ _ Sb Fb1 Nb Hr1) as [Eb Rb].
      pose proof (Static_cpost _ _ _ _ C3) as Sp.
      destruct (Static_ext _ _ _ Sp (fresh_nil st2) (NoDup_nil _) Rb) as [E23 R3].
      pose proof (wf_stmt2_incl _ _ _ _ _ Wb) as Igb.
      rewrite exec2_for. unfold jfe. rewrite jexec2_list_app, jexec2_list_base.
      pose proof (csimple_sim g' g1 true sg sj st init ji st0 fuel Wi C0 Hr Fi HI) as SI.
      destruct (exec_simple init sg) as [[| |] sg1 o1|o1| |]; try contradiction; cbn [Res2].
      2: { destruct SI as [-> J]. rewrite J. reflexivity. }
      destruct SI as [-> [sj1 [J HI1]]]. rewrite J. cbn [of_sres]. rewrite !prepend2_nil, jexec2_list_single.
      eapply Res2_mono; [exact Ig | apply rho_ext_refl |].
      rewrite R01 in Eb. pose proof (rho_ext_trans _ _ _ Eb E23) as E03.
      apply (loop2_sim rt g1 gb (rho st0) (rho st2) (rho st') c jc post jp body jb fuel); auto.
      - (* condition *) eapply cond_sim; eauto.
      - (* body *) intros sg0 sj0 HI0. apply (Db rt st1 jb st2 g1 gb sg0 sj0); auto. rewrite R01. exact HI0.
      - (* post statement *) intros sg0 sj0 HI0. apply (cpost_sim g1 sg0 sj0 st2 post jp st' fuel); auto.
      - (* the following rounds are the same loop without its init statement, translated at st0 *)
        intros fl E sg0 sj0 HI0.
        assert (C : cstmt2 st0 (TFor SSkip c post body) = ([J2While (loop_head jc :: jb ++ map J2Base jp)], st'))
          by (cbn [cstmt2 csimple]; rewrite C1, C2, C3; reflexivity).
        assert (Wf : wf_stmt2 fe rt g1 (TFor SSkip c post body) = Some g1)
          by (cbn [wf_stmt2 wf_simple]; rewrite Wcl, Wp, Wb; reflexivity).
        pose proof (IHfuel fl E _ rt st0 _ st' g1 g1 sg0 sj0 C Wf) as R.
        rewrite exec2_for_skip, jexec2_list_single in R. apply R; auto.
    Qed.
  End Step2.

  Theorem dyn2_all : forall fuel s, Dyn2 fuel s.
  Proof.
    induction fuel as [fuel IHfuel] using lt_wf_ind.
    assert (IHf : forall fl, fuel = S fl -> forall s, Dyn2 fl s) by (intros fl E; apply IHfuel; lia).
    induction s as [ | b | a IHa b IHb | dst f args | c t IHt e IHe | init c post body IHbody | oe ].
    - apply dyn2_skip.
    - apply dyn2_base.
    - apply dyn2_seq; assumption.
    - apply dyn2_call. exact IHf.
    - apply dyn2_if; assumption.
    - apply dyn2_for; assumption.
    - apply dyn2_return.
  Qed.
End Sim2.

Theorem compile_correct_stage2_all : forall p, wf_prog2 p = true ->
  forall fuel out e, run_go2 fuel p = Done out e -> run_js2 fuel (compile2 p) = Done out e.
Proof.
  intros p Hwf fuel out e Hgo. unfold wf_prog2 in Hwf. apply andb_true_iff in Hwf as [Hall Hmain].
  assert (fe_wf : forall f fd, find_fn (p_funcs p) f = Some fd -> wf_fn (p_funcs p) fd = true).
  { intros f fd H. destruct (find_fn_In _ _ _ _ H) as [g I]. rewrite forallb_forall in Hall. apply (Hall _ I). }
  unfold run_go2 in Hgo. unfold run_js2, compile2. cbn [jp2_funcs jp2_main].
  destruct (find_fn (p_funcs p) (p_main p)) as [fd|] eqn:F; [|discriminate].
  rewrite (find_compile _ _ _ F).
  destruct (f_params fd) as [|x xs] eqn:P; [|discriminate]. destruct (f_ret fd) as [t|] eqn:R; [discriminate|].
  pose proof (fn_sim (p_funcs p) fe_wf fuel (dyn2_all (p_funcs p) fe_wf fuel) (p_main p) fd [] [] F) as S.
  rewrite P in S. cbn [map bind_params] in S. specialize (S (Forall2_nil _) eq_refl).
  destruct S as [sj0 [B CR]].
  assert (JP : jf_params (compile_fn fd) = []).
  { unfold compile_fn. rewrite P. cbn [map cparams]. destruct (cstmt2 cstate0 (f_body fd)). reflexivity. }
  rewrite JP in B. cbn [map bind_params] in B. inversion B; subst sj0.
  destruct (finish_call (exec2 (p_funcs p) fuel (f_body fd) [])) as [v o|o| |]; cbn [outcome_of_cres CRes] in *; try discriminate.
  - destruct CR as [_ ->]. exact Hgo.
  - rewrite CR. exact Hgo.
Qed.
