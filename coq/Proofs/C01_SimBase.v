(* C01 — the simulation invariant [Inv] between a Go store and a JavaScript store, and every lemma that looks inside it
   or inside [rho_ok] *)
From Coq Require Import ZArith List String Bool Lia.
From Verif Require Import Model.C01_GoSem Model.C01_JsSem Model.C01_Compile Model.C01_Wf
  Proofs.C01_Arith.
Import ListNotations.
Local Open Scope Z_scope.

Lemma name_eqb_eq : forall a b, name_eqb a b = true <-> a = b.
Proof.
  intros [a1 a2] [b1 b2]. unfold name_eqb. cbn [fst snd]. rewrite andb_true_iff, String.eqb_eq, N.eqb_eq.
  split; [intros [-> ->]; reflexivity | intros H; inversion H; auto].
Qed.
Lemma name_eqb_neq : forall a b, a <> b -> name_eqb a b = false.
Proof. intros a b H. destruct (name_eqb a b) eqn:E; [apply name_eqb_eq in E; contradiction|reflexivity]. Qed.

Lemma get_set_other : forall V (s : store V) n m v, n <> m -> get (set s n v) m = get s m.
Proof. intros. cbn [get set]. now rewrite name_eqb_neq. Qed.

(* the allocator of st has handed out n *)
Definition below (st : cstate) (n : name) : Prop := (snd n < count_of (cnt st) (fst n))%N.
Definition st_le (a b : cstate) : Prop := forall n, below a n -> below b n.

Lemma st_le_refl : forall a, st_le a a. Proof. unfold st_le; auto. Qed.
Lemma st_le_trans : forall a b c, st_le a b -> st_le b c -> st_le a c. Proof. unfold st_le; auto. Qed.

Lemma alloc_spec : forall st b n st', alloc st b = (n, st') ->
  ~ below st n /\ below st' n /\ st_le st st' /\ rho st' = rho st.
Proof.
  intros st b n st' H. unfold alloc in H. inversion H; subst; clear H.
  unfold st_le, below. cbn [fst snd cnt rho count_of]. rewrite String.eqb_refl.
  repeat split; try lia.
  intros [m i] Hm. cbn [fst snd cnt count_of] in *. destruct (String.eqb b m) eqn:E.
  - apply String.eqb_eq in E. subst. lia.
  - assumption.
Qed.

Lemma lookup_cons_other : forall r v n u, u <> v -> lookup ((v, n) :: r) u = lookup r u.
Proof. intros. cbn [lookup]. rewrite name_eqb_neq; auto. Qed.
Lemma lookup_cons_same : forall r v n, lookup ((v, n) :: r) v = Some n.
Proof. intros. cbn [lookup]. now rewrite name_eqb_refl. Qed.

Lemma declare_spec : forall st v n st', declare st v = (n, st') ->
  ~ below st n /\ below st' n /\ st_le st st' /\ rho st' = (v, n) :: rho st.
Proof.
  intros st v n st' H. unfold declare in H. destruct (alloc st (fst v)) as [m st1] eqn:A.
  apply alloc_spec in A. destruct A as [A1 [A2 [A3 A4]]]. inversion H; subst; clear H.
  unfold below, st_le in *. cbn [cnt rho]. rewrite A4. auto.
Qed.

Definition inj (v : val) : jval := match v with VI z => JI z | VB b => JB b end.
Definition val_ok (t : ty) (v : val) : Prop :=
  match t, v with TI k, VI z => in_range k z = true | TB, VB _ => True | _, _ => False end.

Lemma val_ok_int : forall k v, val_ok (TI k) v -> exists z, v = VI z /\ in_range k z = true.
Proof. intros k [z|b] H; cbn in H; [eauto | contradiction]. Qed.
Lemma val_ok_bool : forall v, val_ok TB v -> exists b, v = VB b.
Proof. intros [z|b] H; cbn in H; [contradiction | eauto]. Qed.

Definition env_fun (g : env) : Prop := forall v t t', In (v, t) g -> In (v, t') g -> t = t'.

(* every variable in scope is defined, typed, and mirrored in the JavaScript store under its name *)
Definition Inv (g : env) (r : list (name * name)) (sg : store val) (sj : store jval) : Prop :=
  env_fun g /\
  forall v t, In (v, t) g ->
    exists a n, get sg v = Some a /\ val_ok t a /\ lookup r v = Some n /\ get sj n = Some (inj a).

Definition rho_ok (st : cstate) : Prop :=
  (forall v n, lookup (rho st) v = Some n -> below st n) /\
  (forall v1 v2 n, lookup (rho st) v1 = Some n -> lookup (rho st) v2 = Some n -> v1 = v2).

Definition frame (st : cstate) (sj sj' : store jval) : Prop := forall n, below st n -> get sj' n = get sj n.

Lemma frame_refl : forall st s, frame st s s. Proof. unfold frame; auto. Qed.
Lemma frame_trans : forall st st1 s s1 s2, st_le st st1 -> frame st s s1 -> frame st1 s1 s2 -> frame st s s2.
Proof. unfold frame, st_le. intros. rewrite H1 by auto. auto. Qed.
Lemma frame_step : forall st s s1 s2, frame st s s1 -> frame st s1 s2 -> frame st s s2.
Proof. intros st s s1 s2. apply frame_trans, st_le_refl. Qed.
Lemma frame_set : forall st s n v, ~ below st n -> frame st s (set s n v).
Proof. unfold frame. intros. apply get_set_other. intro; subst; contradiction. Qed.
Lemma frame_le : forall st0 st s s', st_le st0 st -> frame st s s' -> frame st0 s s'.
Proof. unfold frame, st_le. auto. Qed.

Lemma env_get_In : forall g v t, env_get g v = Some t -> In (v, t) g.
Proof.
  induction g as [| [u t'] g IH]; cbn [env_get]; intros v t H. discriminate.
  destruct (name_eqb u v) eqn:E.
  - apply name_eqb_eq in E. inversion H; subst. left; reflexivity.
  - right. auto.
Qed.

Lemma rho_ok0 : rho_ok cstate0.
Proof. split; cbn; intros; discriminate. Qed.

Lemma Inv_nil : forall r sg sj, Inv [] r sg sj.
Proof. intros. split. intros v t t' []. intros v t []. Qed.

Lemma Inv_var : forall g sg v t st sj, env_get g v = Some t -> rho_ok st -> Inv g (rho st) sg sj ->
  exists a, get sg v = Some a /\ val_ok t a /\ below st (js_name st v) /\ get sj (js_name st v) = Some (inj a).
Proof.
  intros g sg v t st sj Hv [Hb _] [_ HI]. destruct (HI v t (env_get_In _ _ _ Hv)) as [a [n [H1 [H2 [H3 H4]]]]].
  unfold js_name. rewrite H3. exists a. repeat split; eauto.
Qed.

Lemma Inv_frame : forall g st sg sj sj', rho_ok st -> Inv g (rho st) sg sj -> frame st sj sj' -> Inv g (rho st) sg sj'.
Proof.
  intros g st sg sj sj' [Hr _] [Hf HI] Hfr. split. assumption.
  intros v t Hin. destruct (HI v t Hin) as [a [n [H1 [H2 [H3 H4]]]]].
  exists a, n. repeat split; auto. rewrite Hfr; auto. eapply Hr; eauto.
Qed.

Lemma Inv_incl : forall g g' r sg sj, incl g g' -> Inv g' r sg sj -> Inv g r sg sj.
Proof.
  intros g g' r sg sj Hi [Hf HI]. split.
  - intros v t t' H1 H2. eapply Hf; apply Hi; eassumption.
  - intros v t H. apply HI. apply Hi. assumption.
Qed.

Definition rho_ext (r r' : list (name * name)) : Prop := forall v n, lookup r v = Some n -> lookup r' v = Some n.
Lemma rho_ext_refl : forall r, rho_ext r r. Proof. unfold rho_ext; auto. Qed.
Lemma rho_ext_trans : forall a b c, rho_ext a b -> rho_ext b c -> rho_ext a c. Proof. unfold rho_ext; auto. Qed.

Lemma Inv_ext : forall g r r' sg sj, rho_ext r r' -> Inv g r sg sj -> Inv g r' sg sj.
Proof.
  intros g r r' sg sj He [Hf HI]. split. assumption.
  intros v t H. destruct (HI v t H) as [a [n [H1 [H2 [H3 H4]]]]]. exists a, n. auto.
Qed.

(* r already named every variable of g, so the names Inv finds in the extension r' are those of r *)
Lemma Inv_back : forall g r r' sg0 sj0 sg sj, rho_ext r r' -> Inv g r sg0 sj0 -> Inv g r' sg sj -> Inv g r sg sj.
Proof.
  intros g r r' sg0 sj0 sg sj He [_ H0] [Hf HI]. split. assumption.
  intros v t H. destruct (HI v t H) as [a [n [H1 [H2 [H3 H4]]]]].
  destruct (H0 v t H) as [a0 [n0 [_ [_ [L0 _]]]]].
  assert (n0 = n) by (apply He in L0; congruence). subst.
  exists a, n. auto.
Qed.

Lemma Inv_declare : forall g st v n st' sg sj t a,
  declare st v = (n, st') -> rho_ok st -> lookup (rho st) v = None -> Inv g (rho st) sg sj -> val_ok t a ->
  Inv ((v, t) :: g) (rho st') (set sg v a) (set sj n (inj a)).
Proof.
  intros g st v n st' sg sj t a D Hr Hv HI Va.
  destruct (declare_spec _ _ _ _ D) as [D1 [D2 [D3 D4]]].
  rewrite D4. destruct HI as [Hf HIv]. destruct Hr as [Rb Ri]. split.
  - intros u t1 t2 [E1|I1] [E2|I2].
    + congruence.
    + inversion E1; subst. destruct (HIv _ _ I2) as [? [? [_ [_ [L _]]]]]. congruence.
    + inversion E2; subst. destruct (HIv _ _ I1) as [? [? [_ [_ [L _]]]]]. congruence.
    + eauto.
  - intros u tu [E|I].
    + inversion E; subst. exists a, n. rewrite !get_set_same, lookup_cons_same. auto.
    + destruct (HIv _ _ I) as [au [nu [G1 [G2 [G3 G4]]]]].
      assert (u <> v) by (intro; subst; congruence).
      assert (nu <> n) by (intro; subst; apply D1; eapply Rb; eauto).
      exists au, nu. rewrite lookup_cons_other by auto. rewrite !get_set_other by auto.
      repeat split; auto.
Qed.

Lemma Inv_assign : forall g st v sg sj t a,
  rho_ok st -> env_get g v = Some t -> Inv g (rho st) sg sj -> val_ok t a ->
  Inv g (rho st) (set sg v a) (set sj (js_name st v) (inj a)).
Proof.
  intros g st v sg sj t a Hr Hv HI Va. apply env_get_In in Hv.
  destruct HI as [Hf HIv]. destruct Hr as [Rb Ri].
  destruct (HIv _ _ Hv) as [av [nv [G1 [G2 [G3 G4]]]]].
  unfold js_name. rewrite G3. split. exact Hf.
  intros u tu I. destruct (name_eqb u v) eqn:E.
  - apply name_eqb_eq in E. subst u. assert (tu = t) by (eapply Hf; eauto). subst.
    exists a, nv. rewrite !get_set_same. auto.
  - assert (Nuv : u <> v) by (intro; subst; rewrite name_eqb_refl in E; discriminate).
    destruct (HIv _ _ I) as [au [nu [U1 [U2 [U3 U4]]]]].
    assert (nu <> nv) by (intro; subst; apply Nuv; eapply Ri; eauto).
    exists au, nu. rewrite !get_set_other by auto. repeat split; auto.
Qed.
