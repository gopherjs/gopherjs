(* C01 — one lemma per expression form, the operator templates and the shifts last; [cexpr_sim] *)
From Coq Require Import ZArith List String Bool Lia.
From Verif Require Import Model.C01_GoSem Model.C01_JsSem Model.C01_Compile Model.C01_Wf
  Proofs.C01_Arith Proofs.C01_SimBase Proofs.C01_SimExpr.
Import ListNotations.
Local Open Scope Z_scope.

(* H : wf_expr g e = Some t, where wf_expr of this form is [if c then Some _ else None]: leaves W, the conjuncts of c *)
Ltac wf_if H W :=
  cbn [wf_expr] in H;
  match type of H with (if ?c then _ else _) = _ => destruct c eqn:W; [|discriminate] end;
  inversion H; subst; clear H; repeat rewrite andb_true_iff in W.

Section Bin.
  Variable g : env.
  Variable sg : store val.
  Notation SimAt := (SimAt g sg).

  Lemma sim_lit : forall k z, SimAt (ELit k z).
  Proof.
    intros k z t st je st' sj Hwf Hc Hr HI. cbn [wf_expr cexpr] in *.
    destruct (in_range k z) eqn:R; [|discriminate]. inversion Hwf; inversion Hc; subst.
    apply (RSim_ret _ (TI k) _ (VI z)), R.
  Qed.

  Lemma sim_bool : forall b, SimAt (EBool b).
  Proof.
    intros b t st je st' sj Hwf Hc Hr HI. cbn [wf_expr cexpr] in *. inversion Hwf; inversion Hc; subst.
    apply (RSim_ret _ TB _ (VB b)), Logic.I.
  Qed.

  Lemma sim_not : forall a, SimAt a -> SimAt (ENot a).
  Proof.
    intros a IH t st je st' sj Hwf Hc Hr HI. wf_if Hwf W. destruct W as [W _]. apply opt_ty_is_spec in W.
    cbn [cexpr] in Hc. destruct (cexpr st a) as [ja st1] eqn:Ca. inversion Hc; subst; clear Hc.
    unfold ESim. cbn [eval jeval].
    apply (sim_arg g sg a TB TB st st ja st' sj _ _ IH W Ca (st_le_refl _) Hr HI).
    intros va s1 V _ _ _ _. destruct (val_ok_bool _ V) as [b ->]. apply (RSim_ret _ TB _ (VB (negb b)) Logic.I).
  Qed.

  Lemma sim_neg : forall k a, SimAt a -> SimAt (ENeg k a).
  Proof.
    intros k a IH t st je st' sj Hwf Hc Hr HI. wf_if Hwf W. destruct W as [W _]. apply opt_ty_is_spec in W.
    cbn [cexpr] in Hc. destruct (cexpr st a) as [ja st1] eqn:Ca. inversion Hc; subst; clear Hc.
    unfold ESim. cbn [eval]. apply RSim_fix. rewrite jeval_un, jbind_assoc.
    apply (sim_arg g sg a (TI k) (TI k) st st ja st' sj _ _ IH W Ca (st_le_refl _) Hr HI).
    intros va s1 V _ _ _ _. destruct (val_ok_int _ _ V) as [z [-> Hz]]. apply (RSim_ret _ (TI k) _ (VI _)), norm_in_range.
  Qed.

  Lemma sim_cpl : forall k a, SimAt a -> SimAt (ECpl k a).
  Proof.
    intros k a IH t st je st' sj Hwf Hc Hr HI. wf_if Hwf W. destruct W as [W _]. apply opt_ty_is_spec in W.
    cbn [cexpr] in Hc. destruct (cexpr st a) as [ja st1] eqn:Ca. inversion Hc; subst; clear Hc.
    unfold ESim. cbn [eval]. apply RSim_fix. rewrite jeval_un, jbind_assoc.
    apply (sim_arg g sg a (TI k) (TI k) st st ja st' sj _ _ IH W Ca (st_le_refl _) Hr HI).
    intros va s1 V _ _ _ _. destruct (val_ok_int _ _ V) as [z [-> Hz]]. cbn [inj js_un to_int32 olift jbind].
    rewrite cpl_norm. apply (RSim_ret _ (TI k) _ (VI _)), norm_in_range.
  Qed.

  Lemma sim_conv : forall from to a, SimAt a -> SimAt (EConv from to a).
  Proof.
    intros from to a IH t st je st' sj Hwf Hc Hr HI. wf_if Hwf W. destruct W as [W _]. apply opt_ty_is_spec in W.
    cbn [cexpr] in Hc. destruct (cexpr st a) as [ja st1] eqn:Ca. inversion Hc; subst; clear Hc.
    unfold ESim. cbn [eval]. destruct (kind_eqb from to) eqn:E; [rewrite (jbind_ret (jeval sj ja)) | apply RSim_fix];
      apply (sim_arg g sg a (TI from) (TI to) st st ja st' sj _ _ IH W Ca (st_le_refl _) Hr HI); intros va s1 V _ _ _ _;
      destruct (val_ok_int _ _ V) as [z [-> Hz]].
    - apply kind_eqb_eq in E. subst. rewrite norm_id by assumption. apply (RSim_ret _ (TI to) _ (VI z)), Hz.
    - apply (RSim_ret _ (TI to) _ (VI _)), norm_in_range.
  Qed.

  (* && and ||: the left operand decides the result, or the right operand is the result *)
  Lemma sim_and : forall a b, SimAt a -> SimAt b -> SimAt (EAnd a b).
  Proof.
    intros a b IHa IHb t st je st' sj Hwf Hc Hr HI. wf_if Hwf W. destruct W as [[Wa Wb] _]. apply opt_ty_is_spec in Wa, Wb.
    cbn [cexpr] in Hc. destruct (cexpr st a) as [ja st1] eqn:Ca. destruct (cexpr st1 b) as [jb st2] eqn:Cb.
    inversion Hc; subst; clear Hc.
    unfold ESim. cbn [eval jeval].
    apply (sim_arg g sg a TB TB st st ja st1 sj _ _ IHa Wa Ca (st_le_refl _) Hr HI). intros va s1 Va _ L1 Hr1 HI1.
    destruct (val_ok_bool _ Va) as [[|] ->]; cbn [inj]; cbv beta iota; [|apply (RSim_ret _ TB _ (VB false) Logic.I)].
    rewrite (jbind_ret (jeval s1 jb)).
    apply (sim_arg g sg b TB TB st st1 jb st' s1 _ _ IHb Wb Cb L1 Hr1 HI1). intros vb s2 Vb _ _ _ _.
    destruct (val_ok_bool _ Vb) as [c ->]. apply (RSim_ret _ TB _ (VB c) Logic.I).
  Qed.

  Lemma sim_or : forall a b, SimAt a -> SimAt b -> SimAt (EOr a b).
  Proof.
    intros a b IHa IHb t st je st' sj Hwf Hc Hr HI. wf_if Hwf W. destruct W as [[Wa Wb] _]. apply opt_ty_is_spec in Wa, Wb.
    cbn [cexpr] in Hc. destruct (cexpr st a) as [ja st1] eqn:Ca. destruct (cexpr st1 b) as [jb st2] eqn:Cb.
    inversion Hc; subst; clear Hc.
    unfold ESim. cbn [eval jeval].
    apply (sim_arg g sg a TB TB st st ja st1 sj _ _ IHa Wa Ca (st_le_refl _) Hr HI). intros va s1 Va _ L1 Hr1 HI1.
    destruct (val_ok_bool _ Va) as [[|] ->]; cbn [inj]; cbv beta iota; [apply (RSim_ret _ TB _ (VB true) Logic.I)|].
    rewrite (jbind_ret (jeval s1 jb)).
    apply (sim_arg g sg b TB TB st st1 jb st' s1 _ _ IHb Wb Cb L1 Hr1 HI1). intros vb s2 Vb _ _ _ _.
    destruct (val_ok_bool _ Vb) as [c ->]. apply (RSim_ret _ TB _ (VB c) Logic.I).
  Qed.

  Lemma sim_cmp : forall t0 op a b, SimAt a -> SimAt b -> SimAt (ECmp t0 op a b).
  Proof.
    intros t0 op a b IHa IHb t st je st' sj Hwf Hc Hr HI. wf_if Hwf W. destruct W as [[[Wa Wb] Wop] _].
    apply opt_ty_is_spec in Wa, Wb.
    cbn [cexpr] in Hc. destruct (cexpr st a) as [ja st1] eqn:Ca. destruct (cexpr st1 b) as [jb st2] eqn:Cb.
    inversion Hc; subst; clear Hc.
    (* ja, then jb, then an operator on the two values (under ! for !=) *)
    destruct op; unfold ESim; cbn [eval]; rewrite ?jeval_un, jeval_bin, ?jbind_assoc.
    all: apply (sim_arg g sg a t0 TB st st ja st1 sj _ _ IHa Wa Ca (st_le_refl _) Hr HI); intros va s1 Va _ L1 Hr1 HI1;
      cbv beta; rewrite ?jbind_assoc.
    all: apply (sim_arg g sg b t0 TB st st1 jb st' s1 _ _ IHb Wb Cb L1 Hr1 HI1); intros vb s2 Vb _ _ _ _.
    (* two integers; or two booleans, which Wop allows only == and != to compare *)
    all: destruct t0 as [k|];
      [destruct (val_ok_int _ _ Va) as [za [-> _]]; destruct (val_ok_int _ _ Vb) as [zb [-> _]]
      | destruct (val_ok_bool _ Va) as [ba ->]; destruct (val_ok_bool _ Vb) as [bb ->]; try discriminate].
    all: apply (RSim_ret _ TB _ (VB _) Logic.I).
  Qed.

  (* what wf_expr asks of a shift count: a non-negative literal, or an expression of unsigned type *)
  Definition count_ok (b : expr) : bool :=
    match b with
    | ELit _ c => 0 <=? c
    | _ => match wf_expr g b with Some (TI kb) => negb (signed kb) | _ => false end
    end.

  Lemma sim_count : forall b t st0 st jb st1 sj F K, SimAt b -> count_ok b = true ->
    cexpr st b = (jb, st1) -> st_le st0 st -> rho_ok st -> Inv g (rho st) sg sj ->
    (forall c s1, 0 <= c -> frame st sj s1 -> RSim st0 t s1 (F (VI c)) (K (JI c) s1)) ->
    RSim st0 t sj (ebind (eval sg b) F) (jbind (jeval sj jb) K).
  Proof.
    intros b t st0 st jb st1 sj F K IH Hok C L Hr HI HK.
    destruct b; cbn [count_ok] in Hok.
    2: { cbn [cexpr] in C. inversion C; subst. apply Z.leb_le in Hok. apply (HK z sj Hok (frame_refl _ _)). }
    all: destruct (wf_expr g _) as [[kb|]|] eqn:W in Hok; try discriminate.
    all: apply (sim_arg g sg _ (TI kb) t st0 st jb st1 sj F K IH W C L Hr HI); intros va s1 V F1 _ _ _;
      destruct (val_ok_int _ _ V) as [z [-> Hz]]; apply HK; auto;
      apply (unsigned_range32 kb); [now destruct (signed kb) | exact Hz].
  Qed.

  Lemma sim_bin_arith : forall p k op a b, is_shift op = false ->
    SimAt a -> SimAt b -> SimAt (EBin p k op a b).
  Proof.
    intros p k op a b Sh IHa IHb t st je st' sj Hwf Hc Hr HI.
    wf_if Hwf W. rewrite Sh in W. destruct W as [[Wa Wb] _]. rewrite andb_true_iff in Wb. destruct Wb as [Wb _].
    apply opt_ty_is_spec in Wa, Wb.
    cbn [cexpr] in Hc. rewrite Sh in Hc.
    (* with or without a temporary tn for the template, the operands are translated at a state st0 that keeps rho *)
    assert (Hal : exists tn st0,
      (let '(ja, st1) := cexpr st0 a in let '(jb, st2) := cexpr st1 b in (tmpl k op tn ja jb, st2)) = (je, st') /\
      st_le st st0 /\ rho st0 = rho st /\ (temp_base op <> None -> ~ below st tn)).
    { destruct (temp_base op) as [bs|].
      - destruct (alloc st bs) as [tn st0] eqn:Al. apply alloc_spec in Al. destruct Al as [A1 [A2 [A3 A4]]].
        exists tn, st0. auto.
      - exists (""%string, 0%N), st. repeat split; auto using st_le_refl; try (intros H; contradiction). }
    clear Hc. destruct Hal as [tn [st0 [Hc [L0 [R0 Ht]]]]].
    destruct (cexpr st0 a) as [ja st1] eqn:Ca. destruct (cexpr st1 b) as [jb st2] eqn:Cb.
    inversion Hc; subst; clear Hc.
    assert (Hr0 : rho_ok st0) by (apply (rho_ok_mono st); auto).
    assert (HI0 : Inv g (rho st0) sg sj) by (rewrite R0; exact HI).
    unfold ESim. cbn [eval]. apply (RSim_le _ _ _ _ _ _ (tmpl_strict k op tn ja jb sj Sh)).
    apply (sim_arg g sg a (TI k) (TI k) st st0 ja st1 sj _ _ IHa Wa Ca L0 Hr0 HI0). intros va s1 Va _ L1 Hr1 HI1.
    destruct (val_ok_int _ _ Va) as [za [-> Hza]].
    apply (sim_arg g sg b (TI k) (TI k) st st1 jb st' s1 _ _ IHb Wb Cb (st_le_trans _ _ _ L0 L1) Hr1 HI1). intros vb s2 Vb _ _ _ _.
    destruct (val_ok_int _ _ Vb) as [zb [-> Hzb]]. cbn [inj].
    pose proof (tmpl_sim k op tn za zb s2 Sh Hza Hzb) as T.
    destruct (go_bin k op za zb) as [[r|?]| |]; try contradiction; [|exact T].
    destruct T as [Hrg [s' [Js Hs']]]. split. exact Hrg. exists s'. split. exact Js.
    destruct Hs' as [-> | [Hn [d ->]]]; [apply frame_refl | apply frame_set; auto].
  Qed.

  Lemma is_var_inv : forall a, is_var a = true -> exists v, a = EVar v.
  Proof. destruct a; cbn; intros; try discriminate. eauto. Qed.

  Lemma const_of_lit : forall p b c, const_of p b = Some c -> exists kc, b = ELit kc c.
  Proof. unfold const_of. intros [|] b c H; [discriminate|]. destruct b; try discriminate. inversion H; eauto. Qed.

  Lemma fix_throw_comma : forall k e s, jeval s e = JThrow -> jeval s (fix_number k e) = JThrow.
  Proof. exact fix_number_throw. Qed.

  Lemma RSim_shift : forall st k op s za c v s', is_shift op = true -> in_range k za = true -> 0 <= c ->
    norm k v = shift_res k op za c -> frame st s s' ->
    RSim st (TI k) s (go_bin k op za c) (JOk (JI (norm k v)) s').
  Proof.
    intros st k op s za c v s' Sh Hz Hc E F. rewrite go_bin_shift, E by assumption.
    split. apply shift_res_in_range; assumption. eauto.
  Qed.

  Lemma sim_bin_shift : forall p k op a b, is_shift op = true ->
    SimAt a -> SimAt b -> SimAt (EBin p k op a b).
  Proof.
    intros p k op a b Sh IHa IHb t st je st' sj Hwf Hc Hr HI.
    wf_if Hwf W. rewrite Sh in W. destruct W as [[Wa Wb] _]. rewrite andb_true_iff in Wb. destruct Wb as [_ Wb].
    apply opt_ty_is_spec in Wa. fold (count_ok b) in Wb.
    cbn [cexpr] in Hc. rewrite Sh, !sar_match in Hc by assumption.
    destruct (const_of p b) as [c|] eqn:Cst.
    - (* constant count *)
      destruct (const_of_lit _ _ _ Cst) as [kc ->]. cbn [count_ok] in Wb. apply Z.leb_le in Wb.
      unfold ESim. cbn [eval].
      destruct (32 <=? c) eqn:Big; [apply Z.leb_le in Big; destruct (is_sar k op) eqn:Sar | apply Z.leb_gt in Big].
      + (* signed x >> c, c >= 32: x >> 31 *)
        destruct (cexpr st a) as [ja st1] eqn:Ca. inversion Hc; subst.
        apply RSim_fix. unfold jshr. rewrite jeval_bin, jbind_assoc.
        apply (sim_arg g sg a (TI k) (TI k) st st ja st' sj _ _ IHa Wa Ca (st_le_refl _) Hr HI). intros va s1 V _ _ _ _.
        destruct (val_ok_int _ _ V) as [za [-> Hz]]. cbn [jeval jbind inj].
        destruct (sar_core k op za c Sar Hz Wb) as [v [E Ev]]. rewrite Z.min_r in E by lia. rewrite E.
        apply RSim_shift; auto using frame_refl.
      + (* any other shift by 32 or more: 0, after the left operand unless that is an identifier *)
        destruct (is_var a) eqn:Va.
        * destruct (is_var_inv _ Va) as [v ->]. inversion Hc; subst.
          destruct (Inv_var g sg v _ st' sj Wa Hr HI) as [av [G1 [G2 _]]]. destruct (val_ok_int _ _ G2) as [za [-> Hz]].
          cbn [eval jeval]. rewrite G1. rewrite <- (norm_id k 0) by (destruct k; reflexivity).
          apply RSim_shift; auto using frame_refl. rewrite shift_res_big by assumption. destruct k; reflexivity.
        * destruct (cexpr st a) as [ja st1] eqn:Ca. inversion Hc; subst. cbn [jeval].
          apply (sim_arg g sg a (TI k) (TI k) st st ja st' sj _ (fun _ s1 => JOk (JI 0) s1) IHa Wa Ca (st_le_refl _) Hr HI). intros va s1 V _ _ _ _.
          destruct (val_ok_int _ _ V) as [za [-> Hz]]. rewrite <- (norm_id k 0) by (destruct k; reflexivity).
          apply RSim_shift; auto using frame_refl. rewrite shift_res_big by assumption. destruct k; reflexivity.
      + (* x op c *)
        destruct (cexpr st a) as [ja st1] eqn:Ca. inversion Hc; subst.
        apply RSim_fix. rewrite jeval_bin, jbind_assoc.
        apply (sim_arg g sg a (TI k) (TI k) st st ja st' sj _ _ IHa Wa Ca (st_le_refl _) Hr HI). intros va s1 V _ _ _ _.
        destruct (val_ok_int _ _ V) as [za [-> Hz]]. cbn [jeval jbind inj].
        destruct (shift_core k op za c Sh Hz ltac:(lia)) as [v [E Ev]]. rewrite E.
        apply RSim_shift; auto using frame_refl.
    - unfold ESim. cbn [eval]. destruct (is_sar k op) eqn:Sar.
      + (* signed x >> y *)
        destruct (cexpr st a) as [ja st1] eqn:Ca. destruct (cexpr st1 b) as [jb st2] eqn:Cb. inversion Hc; subst; clear Hc.
        apply RSim_fix. rewrite jeval_bin, jbind_assoc.
        apply (sim_arg g sg a (TI k) (TI k) st st ja st1 sj _ _ IHa Wa Ca (st_le_refl _) Hr HI). intros va s1 V _ L1 Hr1 HI1.
        destruct (val_ok_int _ _ V) as [za [-> Hz]]. cbn [inj]. rewrite jeval_min_num, !jbind_assoc.
        apply (sim_count b (TI k) st st1 jb st' s1 _ _ IHb Wb Cb L1 Hr1 HI1). intros c s2 Hc0 _.
        cbn [jeval jbind]. destruct (sar_core k op za c Sar Hz Hc0) as [v [E Ev]]. rewrite E.
        apply RSim_shift; auto using frame_refl.
      + (* (y = count, y < 32 ? (x op y) : 0) *)
        destruct (alloc st "y"%string) as [y st0] eqn:Ay.
        destruct (alloc_spec _ _ _ _ Ay) as [Y1 [Y2 [Y3 Y4]]].
        assert (Hr0 : rho_ok st0) by (apply (rho_ok_mono st); auto).
        assert (HI0 : Inv g (rho st0) sg sj) by (rewrite Y4; exact HI).
        destruct (is_var a) eqn:Va.
        * (* x is an identifier: the count is translated and evaluated first *)
          destruct (is_var_inv _ Va) as [v ->].
          destruct (cexpr st0 b) as [jb st1] eqn:Cb. cbn [cexpr] in Hc. inversion Hc; subst; clear Hc.
          destruct (cexpr_mono _ _ _ _ Cb) as [L1 R1].
          destruct (Inv_var g sg v _ st sj Wa Hr HI) as [av [G1 [G2 [G3 G4]]]]. destruct (val_ok_int _ _ G2) as [za [-> Hz]].
          replace (js_name st' v) with (js_name st v) by (unfold js_name; rewrite R1, Y4; reflexivity).
          cbn [eval]. rewrite G1. apply RSim_fix. rewrite jeval_comma, jeval_asg, !jbind_assoc.
          apply (sim_count b (TI k) st st0 jb st' sj _ _ IHb Wb Cb Y3 Hr0 HI0). intros c s1 Hc0 F1. cbn [jbind].
          destruct (shift_cond_val k op y (JVar (js_name st v)) (set s1 y (JI c)) c za Sh Sar Hz Hc0 (get_set_same _ _ _ _)) as [r [E Er]].
          { cbn [jeval]. rewrite get_set_other by (intro; subst; contradiction). rewrite F1 by (apply Y3; assumption). rewrite G4. reflexivity. }
          rewrite E. apply RSim_shift; auto. apply frame_set; assumption.
        * (* otherwise x is kept in a temporary while the count is evaluated *)
          destruct (alloc st0 "x"%string) as [x st0'] eqn:Ax.
          destruct (alloc_spec _ _ _ _ Ax) as [X1 [X2 [X3 X4]]].
          assert (Nxy : x <> y) by (unfold alloc in Ax, Ay; inversion Ax; inversion Ay; discriminate).
          destruct (cexpr st0' a) as [ja st1] eqn:Ca. destruct (cexpr st1 b) as [jb st2] eqn:Cb. inversion Hc; subst; clear Hc.
          assert (Hr0' : rho_ok st0') by (apply (rho_ok_mono st0); auto).
          assert (HI0' : Inv g (rho st0') sg sj) by (rewrite X4; exact HI0).
          apply RSim_fix. rewrite !jeval_comma, jeval_asg, !jbind_assoc.
          apply (sim_arg g sg a (TI k) (TI k) st st0' ja st1 sj _ _ IHa Wa Ca (st_le_trans _ _ _ Y3 X3) Hr0' HI0'). intros va s1 V _ L1 Hr1 HI1.
          destruct (val_ok_int _ _ V) as [za [-> Hz]]. cbn [jbind inj]. rewrite jeval_asg, !jbind_assoc.
          assert (HI1' : Inv g (rho st1) sg (set s1 x (JI za))).
          { destruct (cexpr_mono _ _ _ _ Ca) as [_ R1]. rewrite R1, X4 in HI1 |- *.
            eapply Inv_frame; [exact Hr0 | exact HI1 | apply frame_set; assumption]. }
          apply (RSim_pre st _ s1 (set s1 x (JI za))); [apply frame_set; intro B; apply X1, Y3, B|].
          apply (sim_count b (TI k) st st1 jb st' _ _ _ IHb Wb Cb (st_le_trans _ _ _ (st_le_trans _ _ _ Y3 X3) L1) Hr1 HI1'). intros c s2 Hc0 F2. cbn [jbind].
          destruct (shift_cond_val k op y (JVar x) (set s2 y (JI c)) c za Sh Sar Hz Hc0 (get_set_same _ _ _ _)) as [r [E Er]].
          { cbn [jeval]. rewrite get_set_other by auto. rewrite F2 by (apply L1; assumption). rewrite get_set_same. reflexivity. }
          rewrite E. apply RSim_shift; auto. apply frame_set; assumption.
  Qed.

  Theorem cexpr_sim : forall e, SimAt e.
  Proof.
    induction e.
    - apply sim_var.
    - apply sim_lit.
    - apply sim_bool.
    - destruct (is_shift op) eqn:Sh; [apply sim_bin_shift | apply sim_bin_arith]; assumption.
    - apply sim_cmp; assumption.
    - apply sim_and; assumption.
    - apply sim_or; assumption.
    - apply sim_not; assumption.
    - apply sim_neg; assumption.
    - apply sim_cpl; assumption.
    - apply sim_conv; assumption.
  Qed.
End Bin.
