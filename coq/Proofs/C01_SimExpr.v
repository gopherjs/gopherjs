(* C01 — simulation of an expression: [ESim], on results [RSim]; the step repeated per operand, [sim_arg] *)
From Coq Require Import ZArith List String Bool Lia.
From Verif Require Import Model.C01_GoSem Model.C01_JsSem Model.C01_Compile Model.C01_Wf
  Proofs.C01_Arith Proofs.C01_SimBase.
Import ListNotations.
Local Open Scope Z_scope.

Lemma ty_eqb_eq : forall a b, ty_eqb a b = true -> a = b.
Proof. destruct a, b; cbn; intros; try discriminate; try reflexivity. f_equal. now apply kind_eqb_eq. Qed.
Lemma opt_ty_is_spec : forall o t, opt_ty_is o t = true -> o = Some t.
Proof. intros [u|] t H; cbn in H; [f_equal; now apply ty_eqb_eq | discriminate]. Qed.

Ltac dlets :=
  repeat match goal with
  | H : (let '(_, _) := ?x in _) = _ |- _ => let E := fresh "E" in destruct x as [? ?] eqn:E
  | H : (if ?c then _ else _) = (_, _) |- _ => destruct c eqn:?
  | H : match ?x with _ => _ end = (_, _) |- _ => destruct x eqn:?
  | H : (_, _) = (_, _) |- _ => inversion H; subst; clear H
  end.

(* in the shift case the tests on the operator and its signedness are first folded into [is_sar] *)
Lemma cexpr_mono : forall e st je st', cexpr st e = (je, st') -> st_le st st' /\ rho st' = rho st.
Proof.
  induction e; intros st je st' H; cbn [cexpr] in H;
    try (destruct (is_shift op) eqn:Sh; [rewrite !sar_match in H by assumption|]); dlets;
    repeat match goal with
    | IH : forall st je st', cexpr st ?a = (je, st') -> _, E : cexpr _ ?a = _ |- _ => apply IH in E; destruct E
    | E : alloc _ _ = _ |- _ => apply alloc_spec in E; destruct E as [? [? [? ?]]]
    end;
    (split; [eauto 6 using st_le_trans, st_le_refl | congruence]).
Qed.

Lemma rho_ok_mono : forall st st', rho_ok st -> st_le st st' -> rho st' = rho st -> rho_ok st'.
Proof. intros st st' [H1 H2] Hl He. unfold rho_ok. rewrite He. split; eauto. Qed.

Definition ESim (st : cstate) (t : ty) (sg : store val) (sj : store jval) (e : expr) (je : jexpr) : Prop :=
  match eval sg e with
  | EV v => val_ok t v /\ exists sj', jeval sj je = JOk (inj v) sj' /\ frame st sj sj'
  | EPanic => jeval sj je = JThrow
  | EStuck => False
  end.

Lemma ESim_val : forall st t sg sj e je, ESim st t sg sj e je ->
  (eval sg e = EPanic /\ jeval sj je = JThrow) \/
  exists v sj1, eval sg e = EV v /\ val_ok t v /\ jeval sj je = JOk (inj v) sj1 /\ frame st sj sj1.
Proof.
  unfold ESim. intros st t sg sj e je H. destruct (eval sg e); try contradiction.
  - right. destruct H as [Hv [sj' [H1 H2]]]. exists v, sj'. auto.
  - left. auto.
Qed.

Lemma ESim_int : forall st k sg sj e je, ESim st (TI k) sg sj e je ->
  (exists z sj', eval sg e = EV (VI z) /\ in_range k z = true /\ jeval sj je = JOk (JI z) sj' /\ frame st sj sj') \/
  (eval sg e = EPanic /\ jeval sj je = JThrow).
Proof.
  intros st k sg sj e je H. destruct (ESim_val _ _ _ _ _ _ H) as [P | [v [sj' [E [V [J F]]]]]]; [right; exact P | left].
  destruct (val_ok_int _ _ V) as [z [-> Hz]]. exists z, sj'. auto.
Qed.
Lemma ESim_bool : forall st sg sj e je, ESim st TB sg sj e je ->
  (exists b sj', eval sg e = EV (VB b) /\ jeval sj je = JOk (JB b) sj' /\ frame st sj sj') \/
  (eval sg e = EPanic /\ jeval sj je = JThrow).
Proof.
  intros st sg sj e je H. destruct (ESim_val _ _ _ _ _ _ H) as [P | [v [sj' [E [V [J F]]]]]]; [right; exact P | left].
  destruct (val_ok_bool _ V) as [b ->]. exists b, sj'. auto.
Qed.

Lemma ESim_weaken : forall st0 st t sg sj e je, st_le st0 st -> ESim st t sg sj e je -> ESim st0 t sg sj e je.
Proof.
  unfold ESim. intros. destruct (eval sg e); auto. destruct H0 as [Hv [sj' [H1 H2]]]. split; auto.
  exists sj'. split; auto. eapply frame_le; eauto.
Qed.

(* [ebind] is [jbind] (C01_Arith) for Go's results; [RSim] is [ESim] on results:
   [ESim st t sg sj e je] is [RSim st t sj (eval sg e) (jeval sj je)] *)
Definition ebind (r : eres) (F : val -> eres) : eres :=
  match r with EV v => F v | EPanic => EPanic | EStuck => EStuck end.

Definition RSim (st : cstate) (t : ty) (sj : store jval) (r : eres) (jr : jres) : Prop :=
  match r with
  | EV v => val_ok t v /\ exists sj', jr = JOk (inj v) sj' /\ frame st sj sj'
  | EPanic => jr = JThrow
  | EStuck => False
  end.

Lemma RSim_ret : forall st t s v, val_ok t v -> RSim st t s (EV v) (JOk (inj v) s).
Proof. intros. split. assumption. exists s. split. reflexivity. apply frame_refl. Qed.

Lemma RSim_pre : forall st t s s' r jr, frame st s s' -> RSim st t s' r jr -> RSim st t s r jr.
Proof.
  intros st t s s' r jr F H. destruct r as [v| |]; cbn [RSim] in *; auto.
  destruct H as [V [s2 [E F2]]]. split; auto. exists s2. split; auto. eapply frame_step; eauto.
Qed.

Lemma RSim_le : forall st t sj r jr jr', jle jr jr' -> RSim st t sj r jr -> RSim st t sj r jr'.
Proof.
  intros st t sj r jr jr' [-> | ->] H; [|exact H].
  destruct r; cbn [RSim] in H; [destruct H as [_ [? [? _]]] | | contradiction]; discriminate.
Qed.

(* to simulate fixNumber(e), simulate e going on with the wrapped integer *)
Definition RSim_fix st t sj r k s e := RSim_le st t sj r _ _ (fix_number_strict k s e).

Section Expr.
  Variable g : env.
  Variable sg : store val.

  Definition SimAt (e : expr) : Prop := forall t st je st' sj,
    wf_expr g e = Some t -> cexpr st e = (je, st') -> rho_ok st -> Inv g (rho st) sg sj ->
    ESim st t sg sj e je.

  Lemma Inv_next : forall st st1 sj sj1, rho_ok st -> rho st1 = rho st ->
    Inv g (rho st) sg sj -> frame st sj sj1 -> Inv g (rho st1) sg sj1.
  Proof.
    intros st st1 sj sj1 Hr He HI Hf. rewrite He. eapply Inv_frame; eauto.
  Qed.

  Lemma cexpr_next : forall e st je st1 sj sj1, cexpr st e = (je, st1) -> rho_ok st ->
    Inv g (rho st) sg sj -> frame st sj sj1 -> st_le st st1 /\ rho_ok st1 /\ Inv g (rho st1) sg sj1.
  Proof.
    intros e st je st1 sj sj1 C Hr HI F. destruct (cexpr_mono _ _ _ _ C) as [L R].
    split; [exact L | split; [apply (rho_ok_mono st) | apply (Inv_next st st1 sj)]; assumption].
  Qed.

  Lemma sim_var : forall v, SimAt (EVar v).
  Proof.
    intros v t st je st' sj Hwf Hc Hr HI. cbn [wf_expr cexpr] in *. inversion Hc; subst; clear Hc.
    destruct (Inv_var g sg v t st' sj Hwf Hr HI) as [a [H1 [H2 [_ H4]]]].
    unfold ESim. cbn [eval jeval]. rewrite H1, H4. apply RSim_ret, H2.
  Qed.

  (* An operand is simulated: if it panics, so does everything strict in it; otherwise what follows sees its value, and
     Inv at the next allocator state.  F and K are found by unification, provided the goal shows its [eval] and [jeval]
     one step unfolded: [unfold ESim; cbn [eval jeval]] (or a rewrite with the equations of C01_Arith) comes first,
     otherwise unification unfolds the fixpoints themselves. *)
  Lemma sim_arg : forall a ta t st0 st ja st1 sj F K,
    SimAt a -> wf_expr g a = Some ta -> cexpr st a = (ja, st1) -> st_le st0 st -> rho_ok st -> Inv g (rho st) sg sj ->
    (forall va s1, val_ok ta va -> frame st sj s1 -> st_le st st1 -> rho_ok st1 -> Inv g (rho st1) sg s1 ->
                   RSim st0 t s1 (F va) (K (inj va) s1)) ->
    RSim st0 t sj (ebind (eval sg a) F) (jbind (jeval sj ja) K).
  Proof.
    intros a ta t st0 st ja st1 sj F K IH W C L Hr HI HK.
    pose proof (IH _ _ _ _ _ W C Hr HI) as S. unfold ESim in S.
    destruct (eval sg a) as [v| |]; cbn [ebind]; try contradiction.
    - destruct S as [V [s1 [-> F1]]]. cbn [jbind].
      destruct (cexpr_next _ _ _ _ _ _ C Hr HI F1) as [L1 [Hr1 HI1]].
      specialize (HK v s1 V F1 L1 Hr1 HI1). destruct (F v) as [w| |]; cbn [RSim] in *; auto.
      destruct HK as [Vw [s2 [E F2]]]. split; auto. exists s2. split; auto.
      eapply frame_step; [eapply frame_le; eauto | exact F2].
    - rewrite S. reflexivity.
  Qed.
End Expr.
