(* C01 — what translating a statement does to the allocator ([Static]); the translation of loops and else-if chains in
   the shape the simulation uses *)
From Coq Require Import ZArith List String Bool Lia.
From Verif Require Import Base.Lists Model.C01_GoSem Model.C01_JsSem Model.C01_Compile Model.C01_Wf
  Proofs.C01_Arith Proofs.C01_SimBase Proofs.C01_SimExpr.
Import ListNotations.
Local Open Scope Z_scope.

Definition fresh (st : cstate) (ds : list name) : Prop := forall v, In v ds -> lookup (rho st) v = None.

Lemma fresh_nil : forall st, fresh st [].
Proof. intros st v []. Qed.

(* translating something that declares ds takes the allocator from st to st': what it declares is renamed from then
   on, whatever else (d2) is still to be declared stays unnamed *)
Definition Static (st : cstate) (ds : list name) (st' : cstate) : Prop :=
  forall d2, fresh st (ds ++ d2) -> NoDup (ds ++ d2) -> rho_ok st ->
  rho_ext (rho st) (rho st') /\ rho_ok st' /\ fresh st' d2.

Lemma fresh_same : forall st st' ds, rho st' = rho st -> fresh st ds -> fresh st' ds.
Proof. unfold fresh. intros st st' ds R. rewrite R. auto. Qed.

Lemma fresh_app : forall st a b, fresh st (a ++ b) -> fresh st a /\ fresh st b.
Proof. unfold fresh. intros. split; intros; apply H; apply in_or_app; auto. Qed.

Lemma Static_same : forall st st', st_le st st' -> rho st' = rho st -> Static st [] st'.
Proof.
  intros st st' L R d2 F _ Hr. rewrite R. split; [apply rho_ext_refl | split].
  - apply (rho_ok_mono st); auto.
  - apply (fresh_same st); assumption.
Qed.

Lemma Static_refl : forall st ds, Static st ds st.
Proof. intros st ds d2 F _ Hr. split; [apply rho_ext_refl | split]; [assumption | apply (fresh_app _ _ _ F)]. Qed.

Lemma Static_trans : forall st d1 st1 d2 st2, Static st d1 st1 -> Static st1 d2 st2 -> Static st (d1 ++ d2) st2.
Proof.
  intros st d1 st1 d2 st2 A B d3 F N Hr. rewrite <- app_assoc in F, N.
  destruct (A _ F N Hr) as [E1 [R1 F1]]. destruct (proj1 (NoDup_app_iff _ _) N) as (_ & N2 & _).
  destruct (B _ F1 N2 R1) as [E2 [R2 F2]]. split; [eapply rho_ext_trans; eauto | auto].
Qed.

Lemma Static_nil_r : forall st d st1 st2, Static st d st1 -> Static st1 [] st2 -> Static st d st2.
Proof. intros. rewrite <- (app_nil_r d). eapply Static_trans; eauto. Qed.
Lemma Static_nil_l : forall st d st1 st2, Static st [] st1 -> Static st1 d st2 -> Static st d st2.
Proof. intros st d st1. exact (Static_trans st [] st1 d). Qed.

Lemma Static_declare : forall st v n st', declare st v = (n, st') -> Static st [v] st'.
Proof.
  intros st v n st' H d2 F N [R1 R2]. destruct (declare_spec _ _ _ _ H) as [D1 [D2 [D3 D4]]].
  assert (Fv : lookup (rho st) v = None) by (apply F; left; reflexivity).
  unfold rho_ok, rho_ext, fresh. rewrite D4. split; [|split; [split|]].
  - intros u m L. rewrite lookup_cons_other; auto. intro; subst. congruence.
  - intros u m L. destruct (name_eqb v u) eqn:E.
    + apply name_eqb_eq in E. subst. rewrite lookup_cons_same in L. inversion L; subst. exact D2.
    + cbn [lookup] in L. rewrite E in L. apply D3. eauto.
  - intros v1 v2 m L1 L2.
    destruct (name_eqb v v1) eqn:E1; destruct (name_eqb v v2) eqn:E2;
      cbn [lookup] in L1, L2; rewrite ?E1, ?E2 in *.
    + apply name_eqb_eq in E1, E2. congruence.
    + inversion L1; subst. exfalso. apply D1. eauto.
    + inversion L2; subst. exfalso. apply D1. eauto.
    + eauto.
  - intros u Hu. rewrite lookup_cons_other. apply F. right. exact Hu.
    intro; subst. inversion N; auto.
Qed.

Lemma Static_ext : forall st d st', Static st d st' -> fresh st d -> NoDup d -> rho_ok st ->
  rho_ext (rho st) (rho st') /\ rho_ok st'.
Proof. intros st d st' S F N R. rewrite <- (app_nil_r d) in F, N. destruct (S _ F N R) as [E [R' _]]. auto. Qed.

Lemma Static_seq : forall st d1 st1 d2, Static st d1 st1 -> fresh st (d1 ++ d2) -> NoDup (d1 ++ d2) -> rho_ok st ->
  (fresh st d1 /\ NoDup d1) /\ (rho_ext (rho st) (rho st1) /\ rho_ok st1) /\ (fresh st1 d2 /\ NoDup d2).
Proof.
  intros st d1 st1 d2 S F N R. destruct (S _ F N R) as [E [R1 F1]]. destruct (proj1 (NoDup_app_iff _ _) N) as (N1 & N2 & _).
  split; [split; [apply (fresh_app _ _ _ F) | exact N1] | auto].
Qed.

Lemma Static_cexpr : forall st e je st', cexpr st e = (je, st') -> Static st [] st'.
Proof. intros. destruct (cexpr_mono _ _ _ _ H). apply Static_same; auto. Qed.

Lemma cexprs_mono : forall es st js st', cexprs st es = (js, st') -> st_le st st' /\ rho st' = rho st.
Proof.
  induction es as [|e es IH]; cbn [cexprs]; intros st js st' H.
  - inversion H; subst. split; auto using st_le_refl.
  - destruct (cexpr st e) as [je st1] eqn:C. destruct (cexprs st1 es) as [jr st2] eqn:Cs. inversion H; subst.
    destruct (cexpr_mono _ _ _ _ C) as [X1 X2]. destruct (IH _ _ _ Cs) as [X3 X4].
    split; [apply (st_le_trans _ st1); assumption | congruence].
Qed.

Lemma Static_cassign : forall st v e d js st', cassign st v e d = (js, st') ->
  Static st (if d then [v] else []) st'.
Proof.
  intros st v e d js st' H. unfold cassign in H. destruct (cexpr st e) as [je st1] eqn:C.
  pose proof (Static_cexpr _ _ _ _ C) as S1. destruct d.
  - destruct (declare st1 v) as [n st2] eqn:D. inversion H; subst.
    eapply Static_nil_l; eauto. eapply Static_declare; eauto.
  - inversion H; subst. exact S1.
Qed.

Lemma Static_csimple : forall st s js st', csimple st s = (js, st') -> Static st (defs s) st'.
Proof.
  intros st s js st' H. destruct s; cbn [csimple defs] in *;
    try (inversion H; subst; apply Static_refl);
    try (apply Static_cassign in H; exact H).
Qed.

Lemma Static_cpost : forall st s js st', cpost st s = (js, st') -> Static st [] st'.
Proof.
  intros st s js st' H. destruct s; cbn [cpost csimple] in *;
    try (inversion H; subst; apply Static_refl);
    try (apply Static_cassign in H; exact H).
Qed.

Lemma chain_conds_mono : forall e st cs st', chain_conds st e = (cs, st') -> st_le st st' /\ rho st' = rho st.
Proof.
  induction e; intros st cs st' H; cbn [chain_conds] in H; try solve [inversion H; subst; split; auto using st_le_refl].
  destruct (cexpr st c) as [jc st1] eqn:C. destruct (chain_conds st1 e2) as [r st2] eqn:Cs. inversion H; subst.
  destruct (cexpr_mono _ _ _ _ C) as [X1 X2]. destruct (IHe2 _ _ _ Cs) as [X3 X4].
  split; [apply (st_le_trans _ st1); assumption | congruence].
Qed.

(* the head of a translated loop: `if (!(cond)) { break; }`, or nothing *)
Definition ccond (st0 : cstate) (oc : option expr) : list jstmt * cstate :=
  match oc with
  | None => ([], st0)
  | Some ce => let '(je, st') := cexpr st0 ce in ([JSIf (JUn JNot je) [JSBreak None] JNoElse], st')
  end.

Lemma ccond_mono : forall st0 oc jc st1, ccond st0 oc = (jc, st1) -> st_le st0 st1 /\ rho st1 = rho st0.
Proof.
  intros st0 [ce|] jc st1 H; cbn [ccond] in H.
  - destruct (cexpr st0 ce) as [je st'] eqn:Ce. inversion H; subst. eapply cexpr_mono; eauto.
  - inversion H; subst. split; auto using st_le_refl.
Qed.

Lemma cstmt_for : forall cx st l init oc post body, cstmt cx st (SFor l init oc post body) =
  let '(ji, st0) := csimple st init in let '(jc, st1) := ccond st0 oc in
  let '(jb, st2) := cstmt ((l, post) :: cx) st1 body in
  let '(jp, st3) := if is_branch (last_stmt body) then ([], st2) else cpost st2 post in
  (ji ++ [JSWhile l (jc ++ jb ++ jp)], st3).
Proof. reflexivity. Qed.

Definition is_simple (s : stmt) : bool :=
  match s with SSkip | SDefine _ _ _ | SAssign _ _ | SOpAssign _ _ _ _ | SIncDec _ _ _ => true | _ => false end.

Definition block_like (e : stmt) : Prop := match e with SIf _ _ _ | SNoElse => False | _ => True end.

(* what stands after `else`: nothing, a block, or the next link of an else-if chain, whose condition
   was translated with the conditions of the whole chain, before any body *)
Definition else_part (cx : ctx) (st2 : cstate) (e : stmt) (cs : list jexpr) : jelse * cstate :=
  match e with
  | SNoElse => (JNoElse, st2)
  | SIf _ _ _ => celif cx st2 e cs
  | _ => let '(jb, st') := cstmt cx st2 e in (JElse jb, st')
  end.

Lemma else_part_if : forall cx st c t e jc cs, else_part cx st (SIf c t e) (jc :: cs) =
  let '(jt, st2) := cstmt cx st t in let '(je, st3) := else_part cx st2 e cs in (JElif (JSIf jc jt je), st3).
Proof. reflexivity. Qed.

(* an if statement is the head of its own chain *)
Lemma cstmt_if : forall cx st c t e, cstmt cx st (SIf c t e) =
  let '(cs, st1) := chain_conds st (SIf c t e) in let '(je, st3) := else_part cx st1 (SIf c t e) cs in
  (match je with JElif i => [i] | _ => [] end, st3).
Proof.
  intros. cbn [cstmt chain_conds]. destruct (cexpr st c) as [jc st0]. destruct (chain_conds st0 e) as [cs st1].
  rewrite else_part_if. destruct (cstmt cx st1 t) as [jt st2]. unfold else_part.
  destruct (match e with SNoElse => _ | _ => _ end) as [je st3]. reflexivity.
Qed.

(* statements and else parts are treated together: P for a statement, Q for an else part *)
Lemma stmt_else_ind : forall P Q : stmt -> Prop,
  (forall s, is_simple s = true -> P s) ->
  (forall a b, P a -> P b -> P (SSeq a b)) ->
  (forall c t e, Q (SIf c t e) -> P (SIf c t e)) ->
  (forall c t e, P t -> Q e -> Q (SIf c t e)) ->
  P SNoElse -> Q SNoElse ->
  (forall l init oc post body, P body -> P (SFor l init oc post body)) ->
  (forall l, P (SBreak l)) -> (forall l, P (SContinue l)) -> (forall es, P (SPrint es)) ->
  (forall e, block_like e -> P e -> Q e) ->
  forall s, P s /\ Q s.
Proof.
  intros P Q Hsimple Hseq Hif Helif Hno Hqno Hfor Hbrk Hcont Hprint Hblock.
  assert (Hboth : forall e, block_like e -> P e -> P e /\ Q e) by auto.
  induction s as [ | a [IHa _] b [IHb _] | | | | | c t [IHt _] e [_ IHe] | | l init _ oc post _ body [IHbody _] | | | ];
    try (apply Hboth; [exact Logic.I | auto]).
  - assert (HQ : Q (SIf c t e)) by auto. auto.
  - auto.
Qed.

Lemma cstmt_static : forall s,
  (forall cx st js st', cstmt cx st s = (js, st') -> Static st (defs s) st') /\
  (forall cx st cs je st', else_part cx st s cs = (je, st') -> Static st (defs s) st').
Proof.
  apply stmt_else_ind.
  - (* simple *) intros s Hs cx st js st' H. apply (Static_csimple st s js). destruct s; try discriminate; exact H.
  - (* SSeq *) intros a b Pa Pb cx st js st' H. cbn [cstmt defs] in H.
    destruct (cstmt cx st a) as [ja st1] eqn:C1. destruct (cstmt cx st1 b) as [jb st2] eqn:C2. inversion H; subst.
    eapply Static_trans; eauto.
  - (* SIf as a statement *) intros c t e Q cx st js st' H. rewrite cstmt_if in H.
    destruct (chain_conds st (SIf c t e)) as [cs st1] eqn:C1. destruct (else_part cx st1 (SIf c t e) cs) as [je st3] eqn:C3.
    inversion H; subst. destruct (chain_conds_mono _ _ _ _ C1).
    eapply Static_nil_l. apply Static_same; eassumption. eapply Q; eauto.
  - (* SIf as an else part *) intros c t e Pt Qe cx st cs je st' H. destruct cs as [|jc cs'].
    { (* impossible shape, still static *) cbn in H. inversion H; subst. apply Static_refl. }
    rewrite else_part_if in H. destruct (cstmt cx st t) as [jt st2] eqn:C2.
    destruct (else_part cx st2 e cs') as [je' st3] eqn:C3. inversion H; subst.
    cbn [defs]. eapply Static_trans; eauto.
  - (* SNoElse, as a statement and as an else part *) intros cx st js st' H. inversion H; subst. apply Static_refl.
  - intros cx st cs je st' H. inversion H; subst. apply Static_refl.
  - (* SFor *) intros l init oc post body P3 cx st js st' H. rewrite cstmt_for in H. cbn [defs].
    destruct (csimple st init) as [ji st0] eqn:C0. destruct (ccond st0 oc) as [jc st1] eqn:C1.
    destruct (cstmt ((l, post) :: cx) st1 body) as [jb st2] eqn:C2.
    destruct (if is_branch (last_stmt body) then ([], st2) else cpost st2 post) as [jp st3] eqn:C3.
    inversion H; subst.
    assert (S1 : Static st0 [] st1) by (destruct (ccond_mono _ _ _ _ C1); apply Static_same; assumption).
    assert (S3 : Static st2 [] st').
    { destruct (is_branch (last_stmt body)). inversion C3; subst. apply Static_refl. eapply Static_cpost; eauto. }
    eapply Static_trans. eapply Static_csimple; eauto.
    eapply Static_nil_l. exact S1. eapply Static_nil_r. eapply P3; eauto. exact S3.
  - (* SBreak *) intros l cx st js st' H. inversion H; subst. apply Static_refl.
  - (* SContinue *) intros l cx st js st' H. cbn [cstmt defs] in H.
    destruct (cpost st (find_post cx l)) as [jp st1] eqn:C. inversion H; subst. eapply Static_cpost; eauto.
  - (* SPrint *) intros es cx st js st' H. cbn [cstmt defs] in H.
    destruct (cexprs st es) as [jl st1] eqn:C. inversion H; subst. destruct (cexprs_mono _ _ _ _ C).
    apply Static_same; auto.
  - (* a block as an else part *) intros e Hb P cx st cs je st' H.
    assert (H' : (let '(jb, st'0) := cstmt cx st e in (JElse jb, st'0)) = (je, st')) by (destruct e; try contradiction; exact H).
    destruct (cstmt cx st e) as [jb st2] eqn:C. inversion H'; subst. eapply P; eauto.
Qed.
