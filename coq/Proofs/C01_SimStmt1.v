(* C01 — unfolding equations of the two statement interpreters; one round of a loop on either side *)
From Coq Require Import ZArith List String Bool Lia.
From Verif Require Import Model.C01_GoSem Model.C01_JsSem Model.C01_Compile Model.C01_Wf
  Proofs.C01_Arith Proofs.C01_SimBase Proofs.C01_SimExpr Proofs.C01_SimBin Proofs.C01_SimStatic.
Import ListNotations.
Local Open Scope Z_scope.

Lemma prepend_nil : forall S (r : sres S), prepend [] r = r.
Proof. intros S [g s o|o| |]; reflexivity. Qed.
Lemma prepend_app : forall S o1 o2 (r : sres S), prepend o1 (prepend o2 r) = prepend (o1 ++ o2) r.
Proof. intros S o1 o2 [g s o|o| |]; cbn; rewrite ?app_assoc; reflexivity. Qed.

Lemma jexec_list_nil : forall f s, jexec_list f [] s = ROk SNormal s [].
Proof. reflexivity. Qed.
Lemma jexec_list_cons : forall f a r s,
  jexec_list f (a :: r) s = match jexec f a s with
                            | ROk SNormal s1 o1 => prepend o1 (jexec_list f r s1)
                            | q => q
                            end.
Proof. reflexivity. Qed.
Lemma jexec_list_app : forall f l1 l2 s,
  jexec_list f (l1 ++ l2) s = match jexec_list f l1 s with
                              | ROk SNormal s1 o1 => prepend o1 (jexec_list f l2 s1)
                              | q => q
                              end.
Proof.
  induction l1 as [|a l1 IH]; intros l2 s.
  - cbn [app]. rewrite jexec_list_nil, prepend_nil. reflexivity.
  - cbn [app]. rewrite !jexec_list_cons. destruct (jexec f a s) as [g s1 o1|o| |]; try reflexivity.
    destruct g; try reflexivity. rewrite IH.
    destruct (jexec_list f l1 s1) as [g2 s2 o2|o| |]; try reflexivity.
    destruct g2; try reflexivity. cbn [prepend]. rewrite prepend_app. reflexivity.
Qed.
Lemma jexec_list_single : forall f a s, jexec_list f [a] s = jexec f a s.
Proof.
  intros. rewrite jexec_list_cons. destruct (jexec f a s) as [g s1 o1|o| |]; try reflexivity.
  destruct g; try reflexivity. rewrite jexec_list_nil. cbn [prepend]. rewrite app_nil_r. reflexivity.
Qed.

Definition exec_else (f : nat) (je : jelse) (s : store jval) : sres (store jval) :=
  match je with
  | JNoElse => ROk SNormal s []
  | JElse b => jexec_list f b s
  | JElif i => jexec f i s
  end.

Lemma jexec_expr : forall f e s,
  jexec f (JSExpr e) s = match jeval s e with
                         | JOk _ s1 => ROk SNormal s1 []
                         | JThrow => RPanic []
                         | JStuck => RStuck
                         end.
Proof. destruct f; reflexivity. Qed.
Lemma jexec_if : forall f c t e s,
  jexec f (JSIf c t e) s = match jeval s c with
                           | JOk (JB true) s1 => jexec_list f t s1
                           | JOk (JB false) s1 => exec_else f e s1
                           | JOk _ _ => RStuck
                           | JThrow => RPanic []
                           | JStuck => RStuck
                           end.
Proof. destruct f; reflexivity. Qed.
Lemma jexec_break : forall f l s, jexec f (JSBreak l) s = ROk (SBrk l) s [].
Proof. destruct f; reflexivity. Qed.
Lemma jexec_continue : forall f l s, jexec f (JSContinue l) s = ROk (SCont l) s [].
Proof. destruct f; reflexivity. Qed.
Lemma jexec_log : forall f args s,
  jexec f (JSLog args) s = match jeval_list s args with
                           | inl (Some (vs, s1)) => ROk SNormal s1 [vs]
                           | inl None => RStuck
                           | inr JThrow => RPanic []
                           | inr _ => RStuck
                           end.
Proof. destruct f; reflexivity. Qed.
(* what a while loop does with the result of one run of its body *)
Definition while_next (f : nat) (l : option string) (body : list jstmt) (r : sres (store jval)) : sres (store jval) :=
  match r with
  | ROk g s1 o1 =>
      match g with
      | SBrk t => if catches l t then ROk SNormal s1 o1 else ROk g s1 o1
      | _ => if match g with SCont t => catches l t | _ => true end then
               match f with
               | O => ROOF
               | S f' => prepend o1 (jexec f' (JSWhile l body) s1)
               end
             else ROk g s1 o1
      end
  | RPanic o => RPanic o
  | ROOF => ROOF
  | RStuck => RStuck
  end.

Lemma jexec_while : forall f l body s,
  jexec f (JSWhile l body) s = while_next f l body (jexec_list f body s).
Proof. destruct f; reflexivity. Qed.

Lemma exec_simple_eq : forall f p s, is_simple p = true -> exec f p s = exec_simple p s.
Proof. intros f p s H. destruct p; try discriminate; destruct f; reflexivity. Qed.

Lemma exec_skip : forall f s, exec f SSkip s = ROk SNormal s [].
Proof. destruct f; reflexivity. Qed.
Lemma exec_noelse : forall f s, exec f SNoElse s = ROk SNormal s [].
Proof. destruct f; reflexivity. Qed.
Lemma exec_seq : forall f a b s,
  exec f (SSeq a b) s = match exec f a s with
                        | ROk SNormal s1 o1 => prepend o1 (exec f b s1)
                        | r => r
                        end.
Proof. destruct f; reflexivity. Qed.
Lemma exec_if : forall f c t e s,
  exec f (SIf c t e) s = match eval s c with
                         | EV (VB true) => exec f t s
                         | EV (VB false) => exec f e s
                         | EV _ => RStuck
                         | EPanic => RPanic []
                         | EStuck => RStuck
                         end.
Proof. destruct f; reflexivity. Qed.
Lemma exec_break : forall f l s, exec f (SBreak l) s = ROk (SBrk l) s [].
Proof. destruct f; reflexivity. Qed.
Lemma exec_continue : forall f l s, exec f (SContinue l) s = ROk (SCont l) s [].
Proof. destruct f; reflexivity. Qed.
Lemma exec_print : forall f es s,
  exec f (SPrint es) s = match eval_list s es with
                         | inl (Some vs) => ROk SNormal s [vs]
                         | inl None => RStuck
                         | inr EPanic => RPanic []
                         | inr _ => RStuck
                         end.
Proof. destruct f; reflexivity. Qed.

(* one round of a for loop: the part after the condition, and the round starting at the condition *)
Definition loop_iter (fuel : nat) (l : option string) (c : option expr) (post body : stmt) (s1 : store val)
  : sres (store val) :=
  match exec fuel body s1 with
  | ROk g s2 o2 =>
      match g with
      | SBrk t => if catches l t then ROk SNormal s2 o2 else ROk g s2 o2
      | _ =>
          if match g with SCont t => catches l t | _ => true end then
            match exec fuel post s2 with
            | ROk SNormal s3 o3 =>
                match fuel with
                | O => ROOF
                | S f => prepend (o2 ++ o3) (exec f (SFor l SSkip c post body) s3)
                end
            | ROk _ _ _ => RStuck
            | r => prepend o2 r
            end
          else ROk g s2 o2
      end
  | r => r
  end.

Definition loop_go (fuel : nat) (l : option string) (c : option expr) (post body : stmt) (s1 : store val)
  : sres (store val) :=
  match (match c with None => EV (VB true) | Some ce => eval s1 ce end) with
  | EV (VB true) => loop_iter fuel l c post body s1
  | EV (VB false) => ROk SNormal s1 []
  | EV _ => RStuck
  | EPanic => RPanic []
  | EStuck => RStuck
  end.

Lemma exec_for : forall f l init c post body s,
  exec f (SFor l init c post body) s =
  match exec f init s with
  | ROk SNormal s1 o1 => prepend o1 (loop_go f l c post body s1)
  | ROk _ _ _ => RStuck
  | r => r
  end.
Proof. destruct f; reflexivity. Qed.

Lemma exec_for_skip : forall f l c post body s,
  exec f (SFor l SSkip c post body) s = loop_go f l c post body s.
Proof. intros. rewrite exec_for, exec_skip, prepend_nil. reflexivity. Qed.
