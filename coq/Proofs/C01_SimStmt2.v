(* C01 — simple statements, println arguments, conditions, and the enclosing loops as the proof sees them *)
From Coq Require Import ZArith List String Bool Lia.
From Verif Require Import Model.C01_GoSem Model.C01_JsSem Model.C01_Compile Model.C01_Wf
  Proofs.C01_Arith Proofs.C01_SimBase Proofs.C01_SimExpr Proofs.C01_SimBin Proofs.C01_SimStatic
  Proofs.C01_SimStmt1.
Import ListNotations.
Local Open Scope Z_scope.

Lemma env_get_name : forall g v t, env_get g v = Some t -> In (v, t) g.
Proof. exact env_get_In. Qed.

(* a simple statement prints nothing: it ends normally with related stores, or panics *)
Definition SimpleRes (g' : env) (r' : list (name * name)) (rg : sres (store val)) (rj : sres (store jval)) : Prop :=
  match rg with
  | ROk SNormal sg' out => out = [] /\ exists sj', rj = ROk SNormal sj' [] /\ Inv g' r' sg' sj'
  | ROk _ _ _ => False
  | RPanic out => out = [] /\ rj = RPanic []
  | _ => False
  end.

Lemma cassign_sim : forall g sg sj st v e define t js st' fuel,
  wf_expr g e = Some t -> cassign st v e define = (js, st') -> rho_ok st -> Inv g (rho st) sg sj ->
  (if define then lookup (rho st) v = None else env_get g v = Some t) ->
  SimpleRes (if define then (v, t) :: g else g) (rho st') (assign sg v e) (jexec_list fuel js sj).
Proof.
  intros g sg sj st v e define t js st' fuel Hwf Hc Hr HI Hv.
  unfold cassign in Hc. destruct (cexpr st e) as [je st1] eqn:Ce.
  assert (Sh : exists n, js = [JSExpr (JAsg n je)] /\
                         if define then declare st1 v = (n, st') else n = js_name st1 v /\ st' = st1).
  { destruct define; [destruct (declare st1 v) as [n st2] eqn:D|]; inversion Hc; subst; eauto. }
  destruct Sh as [n [-> Sh]]. rewrite jexec_list_single, jexec_expr. cbn [jeval].
  destruct (cexpr_mono _ _ _ _ Ce) as [_ R1].
  pose proof (cexpr_sim g sg e _ _ _ _ sj Hwf Ce Hr HI) as Sim. unfold ESim in Sim. unfold assign.
  destruct (eval sg e) as [a| |]; try contradiction; cbn [SimpleRes].
  - destruct Sim as [Va [sj1 [J F]]]. rewrite J. split. reflexivity.
    exists (set sj1 n (inj a)). split. reflexivity.
    destruct (cexpr_next g sg _ _ _ _ _ _ Ce Hr HI F) as [_ [Hr1 HI1]].
    destruct define.
    + eapply Inv_declare; eauto. rewrite R1. exact Hv.
    + destruct Sh as [-> ->]. eapply Inv_assign; eauto.
  - rewrite Sim. split; reflexivity.
Qed.

Lemma csimple_sim : forall g g' allow sg sj st p js st' fuel,
  wf_simple g p allow = Some g' -> csimple st p = (js, st') -> rho_ok st -> fresh st (defs p) -> Inv g (rho st) sg sj ->
  SimpleRes g' (rho st') (exec_simple p sg) (jexec_list fuel js sj).
Proof.
  intros g g' allow sg sj st p js st' fuel Hwf Hc Hr Hfr HI.
  destruct p; try discriminate; cbn [wf_simple csimple exec_simple defs] in *.
  - inversion Hwf; inversion Hc; subst. split. reflexivity. exists sj. split. reflexivity. exact HI.
  - destruct (allow && opt_ty_is (wf_expr g e) t) eqn:W; [|discriminate]. inversion Hwf; subst.
    apply andb_true_iff in W as [_ W]. apply opt_ty_is_spec in W.
    apply (cassign_sim g sg sj st v e true t js st' fuel W Hc Hr HI). apply Hfr. left. reflexivity.
  - destruct (env_get g v) as [t|] eqn:G; [|discriminate].
    destruct (opt_ty_is (wf_expr g e) t) eqn:W; [|discriminate]. inversion Hwf; subst. apply opt_ty_is_spec in W.
    apply (cassign_sim g' sg sj st v e false t js st' fuel W Hc Hr HI G).
  - destruct (opt_ty_is (env_get g v) (TI k) && opt_ty_is (wf_expr g (EBin true k op (EVar v) e)) (TI k)) eqn:W; [|discriminate].
    inversion Hwf; subst. apply andb_true_iff in W as [W1 W2]. apply opt_ty_is_spec in W1, W2.
    apply (cassign_sim g' sg sj st v _ false (TI k) js st' fuel W2 Hc Hr HI W1).
  - destruct (opt_ty_is (env_get g v) (TI k)) eqn:W; [|discriminate]. inversion Hwf; subst. apply opt_ty_is_spec in W.
    assert (W2 : wf_expr g' (EBin true k (if inc then Add else Sub) (EVar v) (ELit k 1)) = Some (TI k)).
    { cbn [wf_expr]. rewrite W. destruct inc, k; reflexivity. }
    apply (cassign_sim g' sg sj st v _ false (TI k) js st' fuel W2 Hc Hr HI W).
Qed.

Lemma cpost_sim : forall g sg sj st p js st' fuel,
  wf_simple g p false = Some g -> cpost st p = (js, st') -> rho_ok st -> Inv g (rho st) sg sj ->
  SimpleRes g (rho st') (exec_simple p sg) (jexec_list fuel js sj).
Proof.
  intros g sg sj st p js st' fuel Hwf Hc Hr HI.
  assert (Hd : defs p = []) by (destruct p; try reflexivity; cbn in Hwf; discriminate).
  assert (Hc' : csimple st p = (js, st')) by (destruct p; try exact Hc; cbn in Hwf; discriminate).
  apply (csimple_sim g g false sg sj st p js st' fuel Hwf Hc' Hr); auto.
  rewrite Hd. intros v [].
Qed.

Lemma wf_simple_inv : forall g p allow g', wf_simple g p allow = Some g' ->
  is_simple p = true /\ incl g g' /\ (allow = false -> g' = g).
Proof.
  intros g p allow g' H. destruct p; try discriminate; cbn [wf_simple] in H; (split; [reflexivity|]).
  - inversion H; subst. auto using incl_refl.
  - destruct allow; [|discriminate]. destruct (opt_ty_is _ _); inversion H; subst.
    split; [apply incl_tl, incl_refl | discriminate].
  - destruct (env_get g v); [|discriminate]. destruct (opt_ty_is _ _); inversion H; subst. auto using incl_refl.
  - destruct (_ && _); inversion H; subst. auto using incl_refl.
  - destruct (opt_ty_is _ _); inversion H; subst. auto using incl_refl.
Qed.

Lemma wf_stmt_incl : forall s loops g g', wf_stmt loops g s = Some g' -> incl g g'.
Proof.
  induction s as [ | a IHa b IHb | v t e | v e | v k op e | v k inc | c t IHt e IHe | | l init IHinit oc post IHpost body IHbody | l | l | es ];
    intros loops g g' H; cbn [wf_stmt] in H;
    try (inversion H; subst; apply incl_refl);
    try (eapply wf_simple_inv; eassumption).
  - destruct (wf_stmt loops g a) as [g1|] eqn:W1; [|discriminate].
    eapply incl_tran; [eapply IHa; eauto | eapply IHb; eauto].
  - destruct (opt_ty_is _ _); [|discriminate].
    destruct (wf_stmt loops g t); [|discriminate]. destruct (wf_stmt loops g e); [|discriminate].
    inversion H; subst. apply incl_refl.
  - destruct (wf_simple g init true) as [g1|]; [|discriminate].
    destruct (wf_simple g1 post false); [|discriminate]. destruct (wf_stmt (l :: loops) g1 body); [|discriminate].
    destruct (_ && _); [|discriminate]. inversion H; subst. apply incl_refl.
  - destruct (label_ok loops l); [|discriminate]. inversion H; subst. apply incl_refl.
  - destruct (label_ok loops l); [|discriminate]. inversion H; subst. apply incl_refl.
  - destruct (forallb _ _); [|discriminate]. inversion H; subst. apply incl_refl.
Qed.

Lemma cexprs_sim : forall g sg es ts st js st' sj,
  Forall2 (fun e t => wf_expr g e = Some t) es ts ->
  cexprs st es = (js, st') -> rho_ok st -> Inv g (rho st) sg sj ->
  match eval_list sg es with
  | inl (Some vs) => Forall2 val_ok ts vs /\ exists sj', jeval_list sj js = inl (Some (vs, sj')) /\ frame st sj sj'
  | inl None => False
  | inr EPanic => jeval_list sj js = inr JThrow
  | inr _ => False
  end.
Proof.
  intros g sg es ts st js st' sj Hwf. revert st js st' sj.
  induction Hwf as [|e t es ts W _ IH]; intros st js st' sj Hc Hr HI; cbn [cexprs eval_list] in *.
  - inversion Hc; subst. split. constructor. exists sj. split. reflexivity. apply frame_refl.
  - destruct (cexpr st e) as [je st1] eqn:Ce. destruct (cexprs st1 es) as [jr st2] eqn:Cs. inversion Hc; subst; clear Hc.
    pose proof (cexpr_sim g sg e _ _ _ _ sj W Ce Hr HI) as Sim. unfold ESim in Sim.
    destruct (eval sg e) as [a| |]; try contradiction.
    + destruct Sim as [Va [sj1 [J F]]].
      destruct (cexpr_next g sg _ _ _ _ _ _ Ce Hr HI F) as [L1 [Hr1 HI1]].
      specialize (IH _ _ _ sj1 Cs Hr1 HI1).
      cbn [jeval_list]. rewrite J.
      assert (Pr : printable (inj a) = Some a) by (destruct a; reflexivity). rewrite Pr.
      destruct (eval_list sg es) as [[vs|]|[?| |]]; try contradiction.
      * destruct IH as [FV [sj' [JL F2]]]. rewrite JL. split. constructor; auto.
        exists sj'. split. reflexivity. eapply frame_trans; eauto.
      * rewrite IH. reflexivity.
    + cbn [jeval_list]. rewrite Sim. reflexivity.
Qed.

Lemma wf_print_typed : forall g es,
  forallb (fun e => match wf_expr g e with Some _ => has_var e | None => false end) es = true ->
  exists ts, Forall2 (fun e t => wf_expr g e = Some t) es ts.
Proof.
  induction es as [|e es IH]; cbn [forallb]; intros H. exists []. constructor.
  apply andb_true_iff in H as [We Wes]. destruct (wf_expr g e) as [t|] eqn:W; [|discriminate].
  destruct (IH Wes) as [ts Hts]. exists (t :: ts). constructor; assumption.
Qed.

Definition CondSim (g : env) (r0 : list (name * name)) (c : expr) (jc : jexpr) : Prop :=
  forall sg sj, Inv g r0 sg sj ->
  match eval sg c with
  | EV (VB b) => exists sj', jeval sj jc = JOk (JB b) sj' /\ Inv g r0 sg sj'
  | EV _ => False
  | EPanic => jeval sj jc = JThrow
  | EStuck => False
  end.

Lemma cond_sim : forall g c st jc st', wf_expr g c = Some TB -> cexpr st c = (jc, st') -> rho_ok st ->
  CondSim g (rho st) c jc.
Proof.
  intros g c st jc st' W C Hr sg sj HI.
  pose proof (cexpr_sim g sg c _ _ _ _ sj W C Hr HI) as Sim. unfold ESim in Sim.
  destruct (eval sg c) as [a| |]; try contradiction; auto.
  destruct Sim as [Va [sj1 [J F]]]. destruct a as [z|b]; [destruct Va|].
  exists sj1. split. exact J. eapply Inv_frame; eauto.
Qed.

Lemma ccond_sim : forall g oc st0 jc st1, ccond st0 oc = (jc, st1) -> rho_ok st0 ->
  match oc with None => True | Some ce => wf_expr g ce = Some TB end ->
  match oc with
  | None => jc = []
  | Some ce => exists je, jc = [JSIf (JUn JNot je) [JSBreak None] JNoElse] /\ CondSim g (rho st0) ce je
  end.
Proof.
  intros g [ce|] st0 jc st1 H Hr W; cbn [ccond] in H.
  - destruct (cexpr st0 ce) as [je st'] eqn:Ce. inversion H; subst. exists je. split. reflexivity. eapply cond_sim; eauto.
  - inversion H; reflexivity.
Qed.

Fixpoint CondsOK (g : env) (r0 : list (name * name)) (e : stmt) (cs : list jexpr) : Prop :=
  match e with
  | SIf c _ e' => match cs with
                  | jc :: cs' => CondSim g r0 c jc /\ CondsOK g r0 e' cs'
                  | [] => False
                  end
  | _ => True
  end.

Lemma chain_conds_ok : forall e loops g g' st cs st', wf_stmt loops g e = Some g' ->
  chain_conds st e = (cs, st') -> rho_ok st -> CondsOK g (rho st) e cs.
Proof.
  induction e as [ | a IHa b IHb | v t e | v e | v k op e | v k inc | c e1 IHe1 e2 IHe2 | | l init IHinit oc post IHpost body IHbody | l | l | es ];
    intros loops g g' st cs st' W C Hr; cbn [CondsOK]; auto.
  cbn [chain_conds] in C. destruct (cexpr st c) as [jc st1] eqn:Ce. destruct (chain_conds st1 e2) as [r st2] eqn:Cs.
  inversion C; subst; clear C.
  cbn [wf_stmt] in W. destruct (opt_ty_is (wf_expr g c) TB) eqn:Wc; [|discriminate]. apply opt_ty_is_spec in Wc.
  destruct (wf_stmt loops g e1); [|discriminate]. destruct (wf_stmt loops g e2) as [g2|] eqn:W2; [|discriminate].
  destruct (cexpr_mono _ _ _ _ Ce) as [L1 R1].
  split. eapply cond_sim; eauto.
  rewrite <- R1. eapply IHe2; eauto. apply (rho_ok_mono st); auto.
Qed.

(* the enclosing loops, innermost first: label, post statement, environment at the head of the loop *)
Definition pctx := list (option string * stmt * env).
Definition cx_of (p : pctx) : ctx := map (fun x => (fst (fst x), snd (fst x))) p.
Definition loops_of (p : pctx) : list (option string) := map (fun x => fst (fst x)) p.

Fixpoint find_env (p : pctx) (l : option string) : env :=
  match p with
  | [] => []
  | (l', _, gl) :: r => if catches l' l then gl else find_env r l
  end.

Definition ctx_ok (g : env) (p : pctx) : Prop :=
  Forall (fun x => wf_simple (snd x) (snd (fst x)) false = Some (snd x) /\ incl (snd x) g) p.

Lemma ctx_ok_incl : forall g g' p, incl g g' -> ctx_ok g p -> ctx_ok g' p.
Proof.
  unfold ctx_ok. intros g g' p Hi H. induction H; constructor; auto.
  destruct H as [A B]. split; auto. eapply incl_tran; eauto.
Qed.

Lemma ctx_find : forall g p l, ctx_ok g p ->
  wf_simple (find_env p l) (find_post (cx_of p) l) false = Some (find_env p l) /\ incl (find_env p l) g.
Proof.
  unfold ctx_ok. intros g p l H. induction H as [|[[l' po] gl] r Hx Hr IH]; cbn [find_env find_post cx_of map fst snd].
  - split. reflexivity. intros x [].
  - destruct (catches l' l). exact Hx. exact IH.
Qed.
