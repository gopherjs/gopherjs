(* C01 — the result relation [Res]; one round of a loop, the following rounds being a hypothesis *)
From Coq Require Import ZArith List String Bool Lia.
From Verif Require Import Model.C01_GoSem Model.C01_JsSem Model.C01_Compile Model.C01_Wf
  Proofs.C01_Arith Proofs.C01_SimBase Proofs.C01_SimExpr Proofs.C01_SimBin Proofs.C01_SimStatic
  Proofs.C01_SimStmt1 Proofs.C01_SimStmt2.
Import ListNotations.
Local Open Scope Z_scope.

(* how the result of a MiniGo statement and the result of its translation are related.  After `break` or `continue`
   the variables in scope are those at the head of the loop it leaves or continues; a `continue` has already run the
   post statement of that loop on the JavaScript side. *)
Definition Res (pcx : pctx) (g' : env) (r' : list (name * name))
  (rg : sres (store val)) (rj : sres (store jval)) : Prop :=
  match rg with
  | ROk SNormal sg' out => exists sj', rj = ROk SNormal sj' out /\ Inv g' r' sg' sj'
  | ROk (SBrk l) sg' out => exists sj', rj = ROk (SBrk l) sj' out /\ Inv (find_env pcx l) r' sg' sj'
  | ROk (SCont l) sg' out =>
      match exec_simple (find_post (cx_of pcx) l) sg' with
      | ROk SNormal sg'' _ => exists sj', rj = ROk (SCont l) sj' out /\ Inv (find_env pcx l) r' sg'' sj'
      | RPanic _ => rj = RPanic out
      | _ => False
      end
  | RPanic out => rj = RPanic out
  | ROOF => True
  | RStuck => False
  end.

Lemma Res_prepend : forall pcx g' r' rg rj o, Res pcx g' r' rg rj -> Res pcx g' r' (prepend o rg) (prepend o rj).
Proof.
  intros pcx g' r' rg rj o H. destruct rg as [sg0 sg' out|out| |]; cbn [prepend Res] in *; auto.
  - destruct sg0 as [|l|l].
    + destruct H as [sj' [-> HI]]. exists sj'. auto.
    + destruct H as [sj' [-> HI]]. exists sj'. auto.
    + destruct (exec_simple (find_post (cx_of pcx) l) sg') as [[| |] ? ?|?| |]; auto.
      * destruct H as [sj' [-> HI]]. exists sj'. auto.
      * subst. reflexivity.
  - subst. reflexivity.
Qed.

Lemma Res_mono : forall pcx g' r' g0' r'' rg rj,
  incl g0' g' -> rho_ext r' r'' -> Res pcx g' r' rg rj -> Res pcx g0' r'' rg rj.
Proof.
  intros pcx g' r' g0' r'' rg rj I E H. destruct rg as [sg0 sg' out|out| |]; cbn [Res] in *; auto.
  destruct sg0 as [|l|l].
  - destruct H as [sj' [-> HI]]. exists sj'. split; auto. eapply Inv_ext; eauto. eapply Inv_incl; eauto.
  - destruct H as [sj' [-> HI]]. exists sj'. split; auto. eapply Inv_ext; eauto.
  - destruct (exec_simple (find_post (cx_of pcx) l) sg') as [[| |] ? ?|?| |]; auto.
    destruct H as [sj' [-> HI]]. exists sj'. split; auto. eapply Inv_ext; eauto.
Qed.

Lemma find_post_cons : forall l p g pcx t,
  find_post (cx_of ((l, p, g) :: pcx)) t = if catches l t then p else find_post (cx_of pcx) t.
Proof. reflexivity. Qed.
Lemma find_env_cons : forall l p (g : env) pcx t,
  find_env ((l, p, g) :: pcx) t = if catches l t then g else find_env pcx t.
Proof. reflexivity. Qed.

Definition is_normal {S} (r : sres S) : bool := match r with ROk SNormal _ _ => true | _ => false end.

Lemma Res_abrupt : forall pcx g' g'' r' rg rj, is_normal rg = false ->
  Res pcx g' r' rg rj -> Res pcx g'' r' rg rj.
Proof.
  intros pcx g' g'' r' rg rj N H. destruct rg as [[| |] ? ?|?| |]; cbn [Res is_normal] in *; auto; discriminate.
Qed.

Lemma last_skip_exec : forall s f sg, last_stmt s = SSkip -> exec f s sg = ROk SNormal sg [].
Proof.
  induction s as [ | a IHa b IHb | | | | | | | | | | ]; intros f sg H; cbn [last_stmt] in H; try discriminate.
  - apply exec_skip.
  - assert (Lb : last_stmt b = SSkip) by (destruct (last_stmt b); try discriminate; reflexivity).
    rewrite Lb in H. rewrite exec_seq. rewrite (IHa f sg H). rewrite (IHb f sg Lb). reflexivity.
Qed.

Lemma last_branch_not_normal : forall s f sg, is_branch (last_stmt s) = true -> is_normal (exec f s sg) = false.
Proof.
  induction s as [ | a IHa b IHb | | | | | | | | | | ]; intros f sg H; cbn [last_stmt is_branch] in H; try discriminate.
  - rewrite exec_seq.
    destruct (last_stmt b) eqn:Lb; try (cbn [is_branch] in H; discriminate).
    + pose proof (IHa f sg H) as N. destruct (exec f a sg) as [[| |] ? ?|?| |]; cbn in *; auto. discriminate.
    + destruct (exec f a sg) as [[| |] s1' o1|?| |]; try reflexivity.
      pose proof (IHb f s1' eq_refl) as N. destruct (exec f b s1') as [[| |] ? ?|?| |]; cbn in *; auto.
    + destruct (exec f a sg) as [[| |] s1' o1|?| |]; try reflexivity.
      pose proof (IHb f s1' eq_refl) as N. destruct (exec f b s1') as [[| |] ? ?|?| |]; cbn in *; auto.
  - rewrite exec_break. reflexivity.
  - rewrite exec_continue. reflexivity.
Qed.

Lemma exec_simple_out : forall p sg,
  match exec_simple p sg with ROk _ _ o => o = [] | RPanic o => o = [] | _ => True end.
Proof.
  intros p sg. destruct p; cbn [exec_simple]; auto; unfold assign; destruct (eval sg _); auto.
Qed.

Section Loop.
  Variables (l : option string) (oc : option expr) (post body : stmt).
  Variables (pcx : pctx) (g1 gb : env) (r1 r2 r3 : list (name * name)).
  Variables (jc jb jp : list jstmt).
  Let pcx' : pctx := (l, post, g1) :: pcx.
  Let W : jstmt := JSWhile l (jc ++ jb ++ jp).
  Variable fuel : nat.

  Hypothesis Hcond : match oc with
                     | None => jc = []
                     | Some ce => exists je, jc = [JSIf (JUn JNot je) [JSBreak None] JNoElse] /\ CondSim g1 r1 ce je
                     end.
  Hypothesis Hbody : forall sg sj, Inv g1 r1 sg sj ->
    Res pcx' gb r2 (exec fuel body sg) (jexec_list fuel jb sj).
  Hypothesis Hpost_simple : is_simple post = true.
  Hypothesis Hpost : if is_branch (last_stmt body) then jp = []
    else forall sg sj, Inv g1 r2 sg sj -> SimpleRes g1 r3 (exec_simple post sg) (jexec_list fuel jp sj).
  Hypothesis Hgb : incl g1 gb.
  Hypothesis E12 : rho_ext r1 r2.
  Hypothesis E23 : rho_ext r2 r3.
  (* the following rounds run on one unit of fuel less *)
  Hypothesis Hrec : forall f', fuel = S f' -> forall sg sj, Inv g1 r1 sg sj ->
    Res pcx g1 r3 (loop_go f' l oc post body sg) (jexec f' W sj).

  (* the round once the condition has held *)
  Lemma iter_sim : forall sg sj1, Inv g1 r1 sg sj1 ->
    Res pcx g1 r3 (loop_iter fuel l oc post body sg) (while_next fuel l (jc ++ jb ++ jp) (jexec_list fuel (jb ++ jp) sj1)).
  Proof.
    intros sg sj1 HI1. unfold while_next, loop_iter. rewrite jexec_list_app.
    pose proof (Hbody sg sj1 HI1) as B.
    destruct (exec fuel body sg) as [gsig s2 o2|o2| |] eqn:EB; cbn [Res] in B; try contradiction.
    - destruct gsig as [|t|t].
      + (* normal completion of the body *)
        destruct B as [sj2 [-> HI2]].
        destruct (is_branch (last_stmt body)) eqn:LB.
        * pose proof (last_branch_not_normal body fuel sg LB) as N. rewrite EB in N. discriminate.
        * rewrite (exec_simple_eq fuel post s2 Hpost_simple).
          assert (HI2' : Inv g1 r2 s2 sj2) by (eapply Inv_incl; eauto).
          specialize (Hpost s2 sj2 HI2').
          destruct (exec_simple post s2) as [[| |] s3 o3|o3| |]; try contradiction.
          -- destruct Hpost as [-> [sj3 [JP HI3]]]. rewrite JP. cbn [prepend].
             destruct fuel as [|f']. exact Logic.I.
             rewrite exec_for_skip. apply Res_prepend. apply (Hrec f' eq_refl).
             (* r1 names every variable of g1 already, so the invariant under r3 gives back the one at the loop head *)
             exact (Inv_back _ _ _ _ _ _ _ (rho_ext_trans _ _ _ E12 E23) HI1 HI3).
          -- destruct Hpost as [-> JP]. rewrite JP. reflexivity.
      + (* break *)
        destruct B as [sj2 [-> HI2]]. unfold pcx' in HI2. rewrite find_env_cons in HI2.
        destruct (catches l t); cbn [Res]; exists sj2; split; auto; eapply Inv_ext; eauto.
      + (* continue *)
        unfold pcx' in B. rewrite find_post_cons, find_env_cons in B.
        destruct (catches l t) eqn:C; rewrite ?C in B.
        * rewrite (exec_simple_eq fuel post s2 Hpost_simple).
          pose proof (exec_simple_out post s2) as O3.
          destruct (exec_simple post s2) as [[| |] s3 o3|o3| |]; try contradiction.
          -- subst o3. destruct B as [sj3 [-> HI3]]. rewrite C.
             destruct fuel as [|f']. exact Logic.I.
             rewrite exec_for_skip, app_nil_r. apply Res_prepend. apply (Hrec f' eq_refl).
             exact (Inv_back _ _ _ _ _ _ _ E12 HI1 HI3).
          -- subst o3. rewrite B. cbn [prepend]. rewrite app_nil_r. reflexivity.
        * cbn [Res].
          destruct (exec_simple (find_post (cx_of pcx) t) s2) as [[| |] s3 o3|o3| |]; try contradiction.
          -- destruct B as [sj3 [-> HI3]]. rewrite C. exists sj3. split. reflexivity. eapply Inv_ext; eauto.
          -- rewrite B. reflexivity.
    - rewrite B. reflexivity.
    - exact Logic.I.
  Qed.

  Lemma loop_sim : forall sg sj, Inv g1 r1 sg sj ->
    Res pcx g1 r3 (loop_go fuel l oc post body sg) (jexec fuel W sj).
  Proof.
    intros sg sj HI. unfold loop_go, W. rewrite jexec_while, jexec_list_app.
    set (WL := while_next fuel l (jc ++ jb ++ jp)). pose proof (iter_sim sg) as ITER.
    destruct oc as [ce|].
    - destruct Hcond as [je [Ejc CS]]. rewrite Ejc at 1. rewrite jexec_list_single, jexec_if. cbn [jeval].
      specialize (CS sg sj HI). destruct (eval sg ce) as [[z|[|]]| |]; try contradiction.
      + destruct CS as [sj1 [-> HI1]]. cbn [js_un negb exec_else]. rewrite prepend_nil.
        apply ITER. exact HI1.
      + destruct CS as [sj1 [-> HI1]]. cbn [js_un negb]. rewrite jexec_list_single, jexec_break.
        cbn [catches Res]. exists sj1. split. reflexivity. eapply Inv_ext; [|exact HI1]. eapply rho_ext_trans; eauto.
      + rewrite CS. reflexivity.
    - rewrite Hcond at 1. rewrite jexec_list_nil, prepend_nil.
      apply ITER. exact HI.
  Qed.

End Loop.
