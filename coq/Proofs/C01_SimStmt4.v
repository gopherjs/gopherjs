(* C01 — every statement simulates, by one induction on the fuel ([dyn_all]); programs ([compile_agrees]) *)
From Coq Require Import ZArith List String Bool Lia.
From Verif Require Import Base.Lists Model.C01_GoSem Model.C01_JsSem Model.C01_Compile Model.C01_Wf
  Proofs.C01_Arith Proofs.C01_SimBase Proofs.C01_SimExpr Proofs.C01_SimBin Proofs.C01_SimStatic
  Proofs.C01_SimStmt1 Proofs.C01_SimStmt2 Proofs.C01_SimStmt3.
Import ListNotations.
Local Open Scope Z_scope.

Definition Dyn (fuel : nat) (s : stmt) : Prop := forall pcx st js st' g g' sg sj,
  cstmt (cx_of pcx) st s = (js, st') -> wf_stmt (loops_of pcx) g s = Some g' -> ctx_ok g pcx ->
  fresh st (defs s) -> NoDup (defs s) -> rho_ok st -> Inv g (rho st) sg sj ->
  Res pcx g' (rho st') (exec fuel s sg) (jexec_list fuel js sj).

(* the same for the else part [e] of an if chain: the conditions [cs] of the chain were all translated before
   the first body (chain_conds), when the renaming was r0 *)
Definition DynElse (fuel : nat) (e : stmt) : Prop := forall pcx st cs je st' g g2 r0 sg sj,
  else_part (cx_of pcx) st e cs = (je, st') -> wf_stmt (loops_of pcx) g e = Some g2 -> ctx_ok g pcx ->
  CondsOK g r0 e cs -> rho_ext r0 (rho st) ->
  fresh st (defs e) -> NoDup (defs e) -> rho_ok st -> Inv g r0 sg sj ->
  Res pcx g (rho st') (exec fuel e sg) (exec_else fuel je sj).

Lemma is_normal_prepend : forall S o (r : sres S), is_normal (prepend o r) = is_normal r.
Proof. intros S o [[| |] ? ?|?| |]; reflexivity. Qed.

Section Step.
  Variable fuel : nat.
  Hypothesis IHfuel : forall f', (f' < fuel)%nat -> forall s, Dyn f' s.

  Lemma dyn_noelse : Dyn fuel SNoElse.
  Proof.
    intros pcx st js st' g g' sg sj Hc Hwf Hctx Hfr Hnd Hr HI. cbn [cstmt wf_stmt] in *.
    inversion Hc; inversion Hwf; subst. rewrite exec_noelse, jexec_list_nil. cbn [Res]. eauto.
  Qed.

  Lemma dyn_simple : forall s, is_simple s = true -> Dyn fuel s.
  Proof.
    intros s Hs pcx st js st' g g' sg sj Hc Hwf Hctx Hfr Hnd Hr HI.
    assert (Hc' : csimple st s = (js, st')) by (destruct s; try discriminate; exact Hc).
    assert (Hwf' : wf_simple g s true = Some g') by (destruct s; try discriminate; exact Hwf).
    rewrite (exec_simple_eq fuel s sg Hs).
    pose proof (csimple_sim g g' true sg sj st s js st' fuel Hwf' Hc' Hr Hfr HI) as S.
    destruct (exec_simple s sg) as [[| |] sg' o|o| |]; try contradiction; cbn [Res].
    - destruct S as [-> [sj' [J HI']]]. eauto.
    - destruct S as [-> J]. exact J.
  Qed.

  Lemma dyn_break : forall l, Dyn fuel (SBreak l).
  Proof.
    intros l pcx st js st' g g' sg sj Hc Hwf Hctx Hfr Hnd Hr HI. cbn [cstmt] in Hc. inversion Hc; subst.
    rewrite exec_break, jexec_list_single, jexec_break. cbn [Res]. exists sj. split. reflexivity.
    eapply Inv_incl; [apply (ctx_find g pcx l Hctx) | exact HI].
  Qed.

  Lemma dyn_continue : forall l, Dyn fuel (SContinue l).
  Proof.
    intros l pcx st js st' g g' sg sj Hc Hwf Hctx Hfr Hnd Hr HI. cbn [cstmt] in Hc.
    destruct (cpost st (find_post (cx_of pcx) l)) as [jp st1] eqn:Cp. inversion Hc; subst; clear Hc.
    rewrite exec_continue. cbn [Res].
    destruct (ctx_find g pcx l Hctx) as [Wp Ip].
    assert (HIl : Inv (find_env pcx l) (rho st) sg sj) by (eapply Inv_incl; eauto).
    pose proof (cpost_sim _ sg sj st _ jp st' fuel Wp Cp Hr HIl) as S.
    rewrite jexec_list_app.
    destruct (exec_simple (find_post (cx_of pcx) l) sg) as [[| |] sg' o|o| |]; try contradiction.
    - destruct S as [-> [sj' [J HI']]]. rewrite J. rewrite jexec_list_single, jexec_continue. cbn [prepend]. eauto.
    - destruct S as [-> J]. rewrite J. reflexivity.
  Qed.

  Lemma dyn_print : forall es, Dyn fuel (SPrint es).
  Proof.
    intros es pcx st js st' g g' sg sj Hc Hwf Hctx Hfr Hnd Hr HI. cbn [cstmt wf_stmt] in *.
    destruct (cexprs st es) as [jl st1] eqn:Ce. inversion Hc; subst; clear Hc.
    destruct (forallb _ es) eqn:W; [|discriminate]. inversion Hwf; subst; clear Hwf.
    destruct (cexprs_mono _ _ _ _ Ce) as [L1 R1].
    destruct (wf_print_typed _ _ W) as [ts Wt].
    pose proof (cexprs_sim g' sg es ts st jl st' sj Wt Ce Hr HI) as S.
    rewrite exec_print, jexec_list_single, jexec_log.
    destruct (eval_list sg es) as [[vs|]|[?| |]]; try contradiction; cbn [Res].
    - destruct S as [_ [sj' [J F]]]. rewrite J. exists sj'. split. reflexivity.
      rewrite R1. eapply Inv_frame; eauto.
    - rewrite S. reflexivity.
  Qed.

  Lemma dyn_seq : forall a b, Dyn fuel a -> Dyn fuel b -> Dyn fuel (SSeq a b).
  Proof.
    intros a b Da Db pcx st js st' g g' sg sj Hc Hwf Hctx Hfr Hnd Hr HI. cbn [cstmt wf_stmt defs] in *.
    destruct (cstmt (cx_of pcx) st a) as [ja st1] eqn:Ca. destruct (cstmt (cx_of pcx) st1 b) as [jb st2] eqn:Cb.
    inversion Hc; subst; clear Hc.
    destruct (wf_stmt (loops_of pcx) g a) as [g1|] eqn:Wa; [|discriminate].
    pose proof (proj1 (cstmt_static a) _ _ _ _ Ca) as Sa. pose proof (proj1 (cstmt_static b) _ _ _ _ Cb) as Sb.
    destruct (Static_seq _ _ _ _ Sa Hfr Hnd Hr) as [[Fa Na] [[Ea Ra] [Fb1 Nb]]].
    destruct (Static_ext _ _ _ Sb Fb1 Nb Ra) as [Eb Rb].
    pose proof (wf_stmt_incl _ _ _ _ Wa) as Ia.
    specialize (Da pcx st ja st1 g g1 sg sj Ca Wa Hctx Fa Na Hr HI).
    rewrite exec_seq, jexec_list_app.
    destruct (exec fuel a sg) as [[|t|t] sg1 o1|o1| |] eqn:Ea1.
    - cbn [Res] in Da. destruct Da as [sj1 [-> HI1]].
      assert (Hctx1 : ctx_ok g1 pcx) by (eapply ctx_ok_incl; eauto).
      specialize (Db pcx st1 jb st' g1 g' sg1 sj1 Cb Hwf Hctx1 Fb1 Nb Ra HI1).
      apply Res_prepend. exact Db.
    - eapply Res_mono; [apply incl_refl | exact Eb |].
      apply (Res_abrupt pcx g1 g'); [reflexivity|]. cbn [Res] in *. destruct Da as [sj1 [-> HI1]]. eauto.
    - eapply Res_mono; [apply incl_refl | exact Eb |].
      apply (Res_abrupt pcx g1 g'); [reflexivity|]. cbn [Res] in *.
      destruct (exec_simple (find_post (cx_of pcx) t) sg1) as [[| |] ? ?|?| |]; try contradiction.
      + destruct Da as [sj1 [-> HI1]]. eauto.
      + rewrite Da. reflexivity.
    - cbn [Res] in *. rewrite Da. reflexivity.
    - exact Logic.I.
    - exact Da.
  Qed.

  Lemma dynelse_if : forall c t e, Dyn fuel t -> DynElse fuel e -> DynElse fuel (SIf c t e).
  Proof.
    intros c t e Dt De pcx st cs je st' g g2 r0 sg sj Hc Hwf Hctx CO E0 Hfr Hnd Hr HI.
    cbn [CondsOK] in CO. destruct cs as [|jc cs']; [contradiction|]. destruct CO as [CS CO'].
    rewrite else_part_if in Hc. destruct (cstmt (cx_of pcx) st t) as [jt st2] eqn:C2.
    destruct (else_part (cx_of pcx) st2 e cs') as [je' st3] eqn:C3. inversion Hc; subst; clear Hc.
    cbn [wf_stmt defs] in *.
    destruct (opt_ty_is (wf_expr g c) TB) eqn:Wc; [|discriminate].
    destruct (wf_stmt (loops_of pcx) g t) as [gt|] eqn:Wt; [|discriminate].
    destruct (wf_stmt (loops_of pcx) g e) as [ge|] eqn:We; [|discriminate]. inversion Hwf; subst; clear Hwf.
    pose proof (proj1 (cstmt_static t) _ _ _ _ C2) as St. pose proof (proj2 (cstmt_static e) _ _ _ _ _ C3) as Se.
    destruct (Static_seq _ _ _ _ St Hfr Hnd Hr) as [[Ft Nt] [[Et Rt] [Fe2 Ne]]].
    destruct (Static_ext _ _ _ Se Fe2 Ne Rt) as [Ee Re].
    cbn [exec_else]. rewrite exec_if, jexec_if. specialize (CS sg sj HI).
    destruct (eval sg c) as [[z|[|]]| |]; try contradiction.
    - destruct CS as [sj1 [-> HI1]]. assert (HI1' : Inv g2 (rho st) sg sj1) by (eapply Inv_ext; eauto).
      specialize (Dt pcx st jt st2 g2 gt sg sj1 C2 Wt Hctx Ft Nt Hr HI1').
      eapply Res_mono; [exact (wf_stmt_incl _ _ _ _ Wt) | exact Ee | exact Dt].
    - destruct CS as [sj1 [-> HI1]].
      apply (De pcx st2 cs' je' st' g2 ge r0 sg sj1 C3 We Hctx CO'); auto.
      eapply rho_ext_trans; eauto.
    - rewrite CS. reflexivity.
  Qed.

  Lemma dyn_if : forall c t e, DynElse fuel (SIf c t e) -> Dyn fuel (SIf c t e).
  Proof.
    intros c t e De pcx st js st' g g' sg sj Hc Hwf Hctx Hfr Hnd Hr HI.
    rewrite cstmt_if in Hc. destruct (chain_conds st (SIf c t e)) as [cs st1] eqn:C1.
    destruct (else_part (cx_of pcx) st1 (SIf c t e) cs) as [je st3] eqn:C3. inversion Hc; subst; clear Hc.
    destruct (chain_conds_mono _ _ _ _ C1) as [L1 R1].
    pose proof (chain_conds_ok _ _ _ _ _ _ _ Hwf C1 Hr) as CO.
    assert (g' = g) as ->.
    { cbn [wf_stmt] in Hwf. destruct (opt_ty_is _ _); [|discriminate].
      destruct (wf_stmt _ g t); [|discriminate]. destruct (wf_stmt _ g e); [|discriminate]. congruence. }
    assert (R : Res pcx g (rho st') (exec fuel (SIf c t e) sg) (exec_else fuel je sj)).
    { apply (De pcx st1 cs je st' g g (rho st) sg sj C3 Hwf Hctx CO); auto.
      - rewrite R1. apply rho_ext_refl.
      - apply (fresh_same st); assumption.
      - apply (rho_ok_mono st); auto. }
    destruct cs as [|jc cs']; [destruct CO|]. rewrite else_part_if in C3.
    destruct (cstmt _ st1 t), (else_part _ _ e cs'). inversion C3; subst.
    rewrite jexec_list_single. exact R.
  Qed.

  Lemma dynelse_noelse : DynElse fuel SNoElse.
  Proof.
    intros pcx st cs je st' g g2 r0 sg sj Hc Hwf Hctx CO E0 Hfr Hnd Hr HI.
    cbn [else_part] in Hc. inversion Hc; subst. rewrite exec_noelse. cbn [exec_else Res].
    exists sj. split. reflexivity. eapply Inv_ext; eauto.
  Qed.

  Lemma dynelse_block : forall e, block_like e -> Dyn fuel e -> DynElse fuel e.
  Proof.
    intros e Hb D pcx st cs je st' g g2 r0 sg sj Hc Hwf Hctx CO E0 Hfr Hnd Hr HI.
    assert (Hc' : (let '(jb, st'0) := cstmt (cx_of pcx) st e in (JElse jb, st'0)) = (je, st'))
      by (destruct e; try contradiction; exact Hc).
    destruct (cstmt (cx_of pcx) st e) as [jb st1] eqn:C. inversion Hc'; subst; clear Hc'.
    assert (HI' : Inv g (rho st) sg sj) by (eapply Inv_ext; eauto).
    specialize (D pcx st jb st' g g2 sg sj C Hwf Hctx Hfr Hnd Hr HI'). cbn [exec_else].
    eapply Res_mono; [eapply wf_stmt_incl; eauto | apply rho_ext_refl | exact D].
  Qed.

  Lemma dyn_for : forall l init oc post body, Dyn fuel body -> Dyn fuel (SFor l init oc post body).
  Proof.
    intros l init oc post body Db pcx st js st' g g' sg sj Hc Hwf Hctx Hfr Hnd Hr HI.
    rewrite cstmt_for in Hc.
    destruct (csimple st init) as [ji st0] eqn:C0. destruct (ccond st0 oc) as [jc st1] eqn:C1.
    destruct (cstmt ((l, post) :: cx_of pcx) st1 body) as [jb st2] eqn:C2.
    destruct (if is_branch (last_stmt body) then ([], st2) else cpost st2 post) as [jp st3] eqn:C3.
    inversion Hc; subst; clear Hc.
    cbn [wf_stmt defs] in *.
    destruct (wf_simple g init true) as [g1|] eqn:Wi; [|discriminate].
    destruct (wf_simple g1 post false) as [gp|] eqn:Wp; [|discriminate].
    destruct (wf_stmt (l :: loops_of pcx) g1 body) as [gb|] eqn:Wb; [|discriminate].
    destruct (match oc with None => true | Some ce => opt_ty_is (wf_expr g1 ce) TB && negb (is_boollit ce) end &&
              match l with Some _ => negb (existsb (opt_label_eqb l) (loops_of pcx)) | None => true end) eqn:Wc; [|discriminate].
    inversion Hwf; subst; clear Hwf. pose proof Wc as Wcl. apply andb_true_iff in Wc as [Wc _].
    destruct (wf_simple_inv _ _ _ _ Wi) as [Sinit [Ig _]]. destruct (wf_simple_inv _ _ _ _ Wp) as [Spost [_ Ep]].
    rewrite (Ep eq_refl) in *. clear Ep.
    pose proof (Static_csimple _ _ _ _ C0) as Si.
    destruct (Static_seq _ _ _ _ Si Hfr Hnd Hr) as [[Fi Ni] [[Ei Ri] [Fb0 Nb]]].
    destruct (ccond_mono _ _ _ _ C1) as [L01 R01].
    assert (Hr1 : rho_ok st1) by (apply (rho_ok_mono st0); auto).
    assert (Fb1 : fresh st1 (defs body)) by (apply (fresh_same st0); assumption).
    pose proof (proj1 (cstmt_static body) _ _ _ _ C2) as Sb.
    destruct (Static_ext _ _ _ Sb Fb1 Nb Hr1) as [Eb Rb].
    assert (S23 : rho_ext (rho st2) (rho st') /\ rho_ok st').
    { destruct (is_branch (last_stmt body)). inversion C3; subst. split; auto using rho_ext_refl.
      apply (Static_ext _ _ _ (Static_cpost _ _ _ _ C3) (fresh_nil st2) (NoDup_nil _) Rb). }
    destruct S23 as [E23 R3].
    pose proof (wf_stmt_incl _ _ _ _ Wb) as Igb.
    rewrite exec_for, (exec_simple_eq fuel init sg Sinit), jexec_list_app.
    pose proof (csimple_sim g' g1 true sg sj st init ji st0 fuel Wi C0 Hr Fi HI) as SI.
    destruct (exec_simple init sg) as [[| |] sg1 o1|o1| |]; try contradiction; cbn [Res].
    2: { destruct SI as [-> J]. rewrite J. reflexivity. }
    destruct SI as [-> [sj1 [J HI1]]]. rewrite J. rewrite !prepend_nil, jexec_list_single.
    eapply Res_mono; [exact Ig | apply rho_ext_refl |].
    apply (loop_sim l oc post body pcx g1 gb (rho st0) (rho st2) (rho st') jc jb jp fuel); auto.
    - (* condition *) apply (ccond_sim g1 oc st0 jc st1 C1 Ri). destruct oc as [ce|]; [|exact Logic.I].
      apply andb_true_iff in Wc as [Wc _]. apply opt_ty_is_spec in Wc. exact Wc.
    - (* body *) intros sg0 sj0 HI0.
      apply (Db ((l, post, g1) :: pcx) st1 jb st2 g1 gb sg0 sj0); auto.
      + constructor. split; auto using incl_refl. eapply ctx_ok_incl; eauto.
      + rewrite R01. exact HI0.
    - (* post statement *) destruct (is_branch (last_stmt body)). inversion C3; reflexivity.
      intros sg0 sj0 HI0. apply (cpost_sim g1 sg0 sj0 st2 post jp st' fuel); auto.
    - (* the renaming only grows over the body *) rewrite <- R01. exact Eb.
    - (* the following rounds are the same loop without its init statement, translated at st0 *)
      intros f' E sg0 sj0 HI0.
      assert (C : cstmt (cx_of pcx) st0 (SFor l SSkip oc post body) = ([JSWhile l (jc ++ jb ++ jp)], st'))
        by (rewrite cstmt_for; cbn [csimple]; rewrite C1, C2, C3; reflexivity).
      assert (Wf : wf_stmt (loops_of pcx) g1 (SFor l SSkip oc post body) = Some g1)
        by (cbn [wf_stmt wf_simple]; rewrite Wp, Wb, Wcl; reflexivity).
      pose proof (IHfuel f' ltac:(lia) _ pcx st0 _ st' g1 g1 sg0 sj0 C Wf) as R.
      rewrite exec_for_skip, jexec_list_single in R. apply R; auto.
      eapply ctx_ok_incl; eauto.
  Qed.
End Step.

Theorem dyn_all : forall fuel s, Dyn fuel s /\ DynElse fuel s.
Proof.
  induction fuel as [fuel IHfuel] using lt_wf_ind.
  assert (IHf : forall f', (f' < fuel)%nat -> forall s, Dyn f' s) by (intros f' H s; apply (IHfuel f' H s)).
  apply stmt_else_ind.
  - apply dyn_simple.
  - apply dyn_seq.
  - apply dyn_if.
  - apply dynelse_if.
  - apply dyn_noelse.
  - apply dynelse_noelse.
  - intros. apply dyn_for; assumption.
  - apply dyn_break.
  - apply dyn_continue.
  - apply dyn_print.
  - apply dynelse_block.
Qed.

(* unless MiniGo runs out of fuel the two runs agree: a run that ends, and also a break or continue
   that escapes the program (both sides are then stuck) *)
Theorem compile_agrees : forall p, wf_prog p = true ->
  forall fuel, run_go fuel p = OutOfFuel \/ run_js fuel (compile p) = run_go fuel p.
Proof.
  intros p Hwf fuel. unfold wf_prog in Hwf.
  destruct (wf_stmt [] [] p) as [g'|] eqn:W; [|discriminate]. apply (nodupb_NoDup name_eqb name_eqb_eq) in Hwf.
  unfold compile, run_js, run_go. destruct (cstmt [] cstate0 p) as [body st] eqn:C. cbn [jp_body].
  pose proof (proj1 (dyn_all fuel p) [] cstate0 body st [] g' [] [] C W (Forall_nil _)
                (fun v _ => eq_refl) Hwf rho_ok0 (Inv_nil _ _ _)) as R.
  fold (jexec_list fuel body []).
  (* only a MiniGo run out of fuel gives the left disjunct; a stuck MiniGo run is excluded by R *)
  destruct (exec fuel p []) as [[|t|t] sg' o|o| |]; cbn [Res cx_of map find_post exec_simple] in R; try contradiction;
    [right | right | right | right | left; reflexivity].
  1-3: (* normal end, escaping break, escaping continue *) destruct R as [sj' [-> _]]; reflexivity.
  (* panic *) rewrite R. reflexivity.
Qed.
