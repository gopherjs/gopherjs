(* C02 — the blocking propagation of Model/C02_Blocking.v.  The passes only add marks ([ble]), so [propagate] ends
   at a fixed point of [pass]; a fixed point is [closed] under "a callee blocks", hence sound; every mark is
   [justified] by a path to a direct blocker, hence least. *)
From Coq Require Import List Bool Arith Lia.
From Verif Require Import Base.Lists Model.C02_Blocking.
Import ListNotations.

Definition ble (a b : list bool) : Prop := Forall2 (fun x y => x = true -> y = true) a b.

Lemma ble_refl : forall a, ble a a.
Proof. induction a; constructor; auto. Qed.

Lemma ble_trans : forall a b c, ble a b -> ble b c -> ble a c.
Proof.
  intros a b c H; revert c; induction H; intros c Hc; inversion Hc; subst; constructor; auto.
  apply IHForall2; auto.
Qed.

Lemma ble_flag : forall a b i, ble a b -> flag a i = true -> flag b i = true.
Proof.
  unfold flag. intros a b i H; revert i; induction H; intros i Hi; destruct i; simpl in *; auto; discriminate.
Qed.

Lemma set_flag_ble : forall f bl, ble bl (set_flag f bl).
Proof.
  induction f; destruct bl; simpl; try constructor; auto; try apply ble_refl.
  apply IHf.
Qed.

Lemma set_flag_length : forall f bl, length (set_flag f bl) = length bl.
Proof. induction f; destruct bl; simpl; auto. Qed.

Lemma flag_set_flag_same : forall f bl, f < length bl -> flag (set_flag f bl) f = true.
Proof.
  unfold flag. induction f; destruct bl; simpl; intros; try lia; auto. apply IHf. lia.
Qed.

Lemma flag_set_flag_inv : forall f bl i, flag (set_flag f bl) i = true -> i = f \/ flag bl i = true.
Proof.
  unfold flag. induction f; destruct bl; simpl; intros i H; auto.
  - destruct i; auto.
  - destruct i; auto. destruct (IHf bl i H); auto.
Qed.

Lemma visit_ble : forall g f bl, ble bl (visit_caller g f bl).
Proof.
  intros. unfold visit_caller. destruct (nth_error g f); try apply ble_refl.
  destruct (existsb _ _); [apply set_flag_ble | apply ble_refl].
Qed.

Lemma pass_from_ble : forall g k f bl, ble bl (pass_from g k f bl).
Proof.
  induction k; intros; simpl; [apply ble_refl|].
  eapply ble_trans; [apply visit_ble | apply IHk].
Qed.

Lemma pass_ble : forall g bl, ble bl (pass g bl).
Proof. intros; apply pass_from_ble. Qed.

Fixpoint count_false (bl : list bool) : nat :=
  match bl with [] => 0 | b :: t => (if b then 0 else 1) + count_false t end.

(* a larger vector is the same vector or has fewer unmarked entries: what makes the passes terminate *)
Lemma ble_count : forall a b, ble a b -> a = b \/ count_false b < count_false a.
Proof.
  intros a b H; induction H as [|x y a b Hxy _ IH]; simpl; auto.
  destruct x, y; try (specialize (Hxy eq_refl); discriminate); destruct IH as [->|IH]; auto; right; lia.
Qed.

Lemma ble_antisym : forall a b, ble a b -> ble b a -> a = b.
Proof. intros a b H1 H2. destruct (ble_count _ _ H1), (ble_count _ _ H2); auto; lia. Qed.

Lemma list_beq_eq : forall a b, list_beq a b = true <-> a = b.
Proof. exact (list_eqb_eq Bool.eqb eqb_true_iff). Qed.

Lemma iterate_fixpoint : forall k g bl, count_false bl <= k -> pass g (iterate k g bl) = iterate k g bl.
Proof.
  induction k; intros g bl Hk; simpl.
  - (* nothing is left to mark *) destruct (ble_count _ _ (pass_ble g bl)) as [E|Hlt]; [auto | lia].
  - destruct (list_beq (pass g bl) bl) eqn:E; [apply list_beq_eq in E; auto|].
    (* the pass has changed something, so it has marked something *)
    apply IHk. destruct (ble_count _ _ (pass_ble g bl)) as [E'|Hlt]; [|lia].
    rewrite <- E', (proj2 (list_beq_eq bl bl) eq_refl) in E. discriminate.
Qed.

Lemma count_false_le_length : forall bl, count_false bl <= length bl.
Proof. induction bl; simpl; auto. destruct a; simpl; lia. Qed.

Lemma propagate_fixpoint : forall g, pass g (propagate g) = propagate g.
Proof.
  intros. unfold propagate. apply iterate_fixpoint.
  etransitivity; [apply count_false_le_length|]. unfold init_flags. rewrite map_length. auto.
Qed.

Lemma iterate_ble : forall k g bl, ble bl (iterate k g bl).
Proof.
  induction k; intros; simpl; [apply ble_refl|].
  destruct (list_beq _ _); [apply ble_refl|].
  eapply ble_trans; [apply pass_ble | apply IHk].
Qed.

Lemma propagate_length : forall g, length (propagate g) = length g.
Proof.
  intros. unfold propagate. rewrite <- (Forall2_length _ _ _ (iterate_ble _ _ _)).
  unfold init_flags. apply map_length.
Qed.

Lemma pass_from_fix : forall g k f bl,
  pass_from g k f bl = bl -> forall i, i < k -> visit_caller g (f + i) bl = bl.
Proof.
  induction k; intros f bl H i Hi; [lia|].
  simpl in H.
  assert (Hv : visit_caller g f bl = bl).
  { apply ble_antisym; [|apply visit_ble].
    pose proof (pass_from_ble g k (S f) (visit_caller g f bl)) as P. rewrite H in P. exact P. }
  rewrite Hv in H.
  destruct i; [rewrite Nat.add_0_r; auto|].
  replace (f + S i) with (S f + i) by lia. apply IHk; auto. lia.
Qed.

Definition closed (g : graph) (bl : list bool) : Prop :=
  forall f nd, nth_error g f = Some nd -> existsb (flag bl) (callees nd) = true -> flag bl f = true.

Lemma fixpoint_closed : forall g bl, length bl = length g -> pass g bl = bl -> closed g bl.
Proof.
  intros g bl Hl H f nd Hf He.
  assert (Hlt : f < length g) by (apply nth_error_Some; congruence).
  pose proof (pass_from_fix g (length g) 0 bl H f Hlt) as Hv. simpl in Hv.
  unfold visit_caller in Hv. rewrite Hf, He in Hv.
  rewrite <- Hv. apply flag_set_flag_same. lia.
Qed.

Lemma propagate_closed : forall g, closed g (propagate g).
Proof. intros. apply fixpoint_closed; [apply propagate_length | apply propagate_fixpoint]. Qed.

Lemma init_flag_direct : forall g f, flag (init_flags g) f = true <-> is_direct g f.
Proof.
  unfold flag, init_flags, is_direct. induction g; intros f.
  - destruct f; simpl; split; intros H; try discriminate; destruct H as [nd [H _]]; discriminate.
  - destruct f; simpl.
    + split; intros H; [eexists; eauto | destruct H as [nd [H1 H2]]; inversion H1; subst; auto].
    + apply IHg.
Qed.

Lemma closed_reaches : forall g bl, closed g bl -> (forall f, is_direct g f -> flag bl f = true) ->
  forall f f', reaches g f f' -> is_direct g f' -> flag bl f = true.
Proof.
  intros g bl Hc Hd f f' H Hf'. induction H; auto.
  apply (Hc f nd H). apply existsb_exists. exists c; auto.
Qed.

Lemma propagate_sound : forall g f f',
  reaches g f f' -> is_direct g f' -> flag (propagate g) f = true.
Proof.
  intros g. apply closed_reaches; [apply propagate_closed|].
  intros f Hd. eapply ble_flag; [apply iterate_ble | apply init_flag_direct; auto].
Qed.

Definition justified (g : graph) (bl : list bool) : Prop :=
  forall f, flag bl f = true -> exists f', reaches g f f' /\ is_direct g f'.

Lemma visit_justified : forall g f bl, justified g bl -> justified g (visit_caller g f bl).
Proof.
  intros g f bl J. unfold visit_caller.
  destruct (nth_error g f) as [nd|] eqn:Hf; auto.
  destruct (existsb (flag bl) (callees nd)) eqn:He; auto.
  intros i Hi. apply flag_set_flag_inv in Hi as [->|Hi]; auto.
  apply existsb_exists in He as [c [Hc Hfc]].
  destruct (J c Hfc) as [f' [Hr Hd]].
  exists f'; split; auto. econstructor; eauto.
Qed.

Lemma pass_from_justified : forall g k f bl, justified g bl -> justified g (pass_from g k f bl).
Proof. induction k; intros; simpl; auto. apply IHk. apply visit_justified; auto. Qed.

Lemma iterate_justified : forall k g bl, justified g bl -> justified g (iterate k g bl).
Proof.
  induction k; intros; simpl; auto.
  destruct (list_beq _ _); auto. apply IHk. apply pass_from_justified; auto.
Qed.

Lemma passes_used_bound : forall k g bl, passes_used k g bl <= S k.
Proof.
  induction k; intros; simpl; auto.
  destruct (list_beq _ _); [lia|]. specialize (IHk g (pass g bl)). lia.
Qed.
