(* C02 — the translation model produces well-formed flat programs: [wf_prog (compile sp)] for EVERY source
   program whose calls go to existing functions and whose loop post statements are simple statements.
   This is where the blocking analysis is used: a function (statement) left in direct form cannot call a
   blocking function because the propagated flags are closed (Proofs/C02_Blocking.propagate_closed) and the
   marks computed by [annot] cover every ancestor of a blocking call and of a `continue` that leads to a
   blocking post statement ([annot_ok]).  Case labels are unique because caseCounter only grows ([flatten_labels]). *)
From Coq Require Import List ZArith Bool Arith Lia.
From Verif Require Import Base.Lists Model.C02_Blocking Model.C02_Flat Model.C02_Wf Proofs.C02_Blocking Proofs.C02_Flat.
Import ListNotations.

(* Labels are counted: the code of a statement translated at counter [cc] uses each label of [cc, cc') once, and
   no other, where [cc'] is the counter it returns.  This is said of one label [n] at a time, so that the counts
   of the parts add up over [++] and the rest is arithmetic. *)
Definition occ (code : list instr) (n : nat) : nat := count_occ Nat.eq_dec (labels code) n.

Definition lab_ok (n cc : nat) (r : list instr * nat) : Prop :=
  cc <= snd r /\ (occ (fst r) n = 0 \/ cc <= n < snd r /\ occ (fst r) n = 1).

Lemma lab_ok_NoDup : forall cc r, (forall n, lab_ok n cc r) -> NoDup (labels (fst r)).
Proof.
  intros cc r H. apply (NoDup_count_occ Nat.eq_dec). intros n. destruct (H n) as [_ Hn]. unfold occ in Hn. lia.
Qed.

(* the labels written out in the goal are compared with [n]; what is known of the parts is in the context *)
Ltac lab_arith :=
  unfold lab_ok, occ in *; cbn [fst snd] in *;
  repeat progress (cbn [flatten flat_simple labels count_occ app fst snd]; rewrite ?labels_app, ?count_occ_app);
  repeat destruct (Nat.eq_dec _ _); lia.

Lemma flat_simple_labels : forall n s ctx cc, lab_ok n cc (flat_simple s ctx cc).
Proof. intros n s ctx cc. destruct s; try destruct b; lab_arith. Qed.

Lemma flatten_labels : forall n s ctx cc, lab_ok n cc (flatten s ctx cc).
Proof.
  intros n. induction s; intros ctx cc; try lab_arith.
  - (* SCall *) destruct b; lab_arith.
  - (* SSeq *)
    simpl. pose proof (IHs1 ctx cc) as A. destruct (flatten s1 ctx cc) as [ia c1].
    pose proof (IHs2 ctx c1) as B. destruct (flatten s2 ctx c1) as [ib c2]. lab_arith.
  - (* SIf *)
    destruct m; [|lab_arith].
    simpl. pose proof (IHs ctx (cc + 2)) as A. destruct (flatten s ctx (cc + 2)) as [ia c1]. lab_arith.
  - (* SIfElse *)
    destruct m; [|lab_arith].
    simpl. pose proof (IHs1 ctx (cc + 3)) as A. destruct (flatten s1 ctx (cc + 3)) as [ia c1].
    pose proof (IHs2 ctx c1) as B. destruct (flatten s2 ctx c1) as [ib c2]. destruct (ends_with_return s1); lab_arith.
  - (* SFor *)
    destruct m; [|lab_arith].
    simpl. pose proof (IHs1 ctx cc) as I. destruct (flatten s1 ctx cc) as [ii c0].
    set (fl := {| fl_lbl := lbl; fl_begin := c0; fl_end := S c0; fl_post := s2 |}).
    pose proof (IHs3 (fl :: ctx) (c0 + 2)) as B. destruct (flatten s3 (fl :: ctx) (c0 + 2)) as [ib c1].
    pose proof (flat_simple_labels n s2 (fl :: ctx) c1) as Q.
    destruct (is_terminated s3); [|destruct (flat_simple s2 (fl :: ctx) c1) as [ip c2]]; lab_arith.
  - (* SBreak *)
    simpl. destruct (find_flow l ctx); lab_arith.
  - (* SContinue *)
    simpl. destruct (find_flow l ctx); [|lab_arith].
    pose proof (flat_simple_labels n (fl_post f) ctx cc) as Q. destruct (flat_simple (fl_post f) ctx cc) as [ip c1].
    lab_arith.
Qed.

Lemma zip_flatten_nth : forall p bl f, nth_error (zip_flatten bl p) f =
  option_map (fun fn => flatten_fn (flag bl f) (sf_nparams fn) (sf_body fn)) (nth_error p f).
Proof.
  unfold flag. induction p; intros bl f; destruct f; simpl; auto.
  - destruct bl; auto.
  - destruct bl; simpl; [rewrite (IHp [] f); destruct f; auto | apply IHp].
Qed.

(* the marks are irrelevant to everything but [flatten] *)
Fixpoint strip (s : stmt) : stmt :=
  match s with
  | SCall _ d f a => SCall false d f a
  | SSeq a b => SSeq (strip a) (strip b)
  | SIf _ c a => SIf false c (strip a)
  | SIfElse _ c a b => SIfElse false c (strip a) (strip b)
  | SFor _ l i c po bo => SFor false l (strip i) c (strip po) (strip bo)
  | x => x
  end.

Lemma strip_annot : forall bl s ctx, strip (fst (annot bl ctx s)) = strip s.
Proof.
  induction s; intros ctx; simpl; auto.
  - specialize (IHs1 ctx); specialize (IHs2 ctx). destruct (annot bl ctx s1), (annot bl ctx s2). simpl in *. congruence.
  - specialize (IHs ctx). destruct (annot bl ctx s). simpl in *. congruence.
  - specialize (IHs1 ctx); specialize (IHs2 ctx). destruct (annot bl ctx s1), (annot bl ctx s2). simpl in *. congruence.
  - specialize (IHs1 ctx); specialize (IHs2 ctx).
    destruct (annot bl ctx s1) as [i' bi], (annot bl ctx s2) as [po' bp].
    specialize (IHs3 ((lbl, bp) :: ctx)). destruct (annot bl ((lbl, bp) :: ctx) s3). simpl in *. congruence.
Qed.

Lemma calls_in_strip : forall Q s, calls_in Q (strip s) = calls_in Q s.
Proof. induction s; simpl; congruence. Qed.

Lemma has_yield_strip : forall s, has_yield (strip s) = has_yield s.
Proof. induction s; simpl; congruence. Qed.

Lemma calls_in_annot : forall Q bl s ctx, calls_in Q (fst (annot bl ctx s)) = calls_in Q s.
Proof. intros. rewrite <- calls_in_strip, strip_annot. apply calls_in_strip. Qed.

Lemma has_yield_annot : forall bl s ctx, has_yield (fst (annot bl ctx s)) = has_yield s.
Proof. intros. rewrite <- has_yield_strip, strip_annot. apply has_yield_strip. Qed.

Lemma calls_in_callees : forall Q s, calls_in Q s = forallb Q (callees_of s).
Proof.
  induction s; simpl; auto.
  - rewrite andb_true_r; auto.
  - rewrite forallb_app. rewrite IHs1, IHs2. reflexivity.
  - rewrite forallb_app. rewrite IHs1, IHs2. reflexivity.
  - rewrite !forallb_app. rewrite IHs1, IHs2, IHs3. rewrite andb_assoc. reflexivity.
Qed.

(* The code of a marked statement followed by [post], in terms of the code of its parts.  Both the well-formedness
   proof below and the simulation in Proofs/C02_Correct.v walk through a flattened statement along these equations. *)
Definition mkfl (lbl : option label) (c0 : nat) (po : stmt) : flow :=
  {| fl_lbl := lbl; fl_begin := c0; fl_end := S c0; fl_post := po |}.

(* the part of a flattened loop after `case c0: if(!(c)) {...}` *)
Definition loop_tail (lbl : option label) (c0 : nat) (po bo : stmt) (ctx : list flow) (post : list instr) : list instr :=
  let fl := mkfl lbl c0 po in
  fst (flatten bo (fl :: ctx) (c0 + 2)) ++
  (if is_terminated bo then ILbl (S c0) :: post
   else fst (flat_simple po (fl :: ctx) (snd (flatten bo (fl :: ctx) (c0 + 2)))) ++ IGoto c0 :: ILbl (S c0) :: post).

Ltac norm_app := simpl; repeat (rewrite <- app_assoc; simpl); try reflexivity.

Lemma flatten_seq_shape : forall a b ctx cc post,
  fst (flatten (SSeq a b) ctx cc) ++ post =
  fst (flatten a ctx cc) ++ fst (flatten b ctx (snd (flatten a ctx cc))) ++ post.
Proof. intros. simpl. destruct (flatten a ctx cc) as [ia c1]. simpl. destruct (flatten b ctx c1). norm_app. Qed.

Lemma flatten_if_shape : forall c a ctx cc post,
  fst (flatten (SIf true c a) ctx cc) ++ post =
  IIfGoto c cc :: IGoto (cc + 1) :: ILbl cc :: fst (flatten a ctx (cc + 2)) ++ ILbl (cc + 1) :: post.
Proof. intros. simpl. destruct (flatten a ctx (cc + 2)). norm_app. Qed.

Lemma flatten_ifelse_shape : forall c a b ctx cc post,
  fst (flatten (SIfElse true c a b) ctx cc) ++ post =
  IIfGoto c cc :: IGoto (cc + 1) :: ILbl cc :: fst (flatten a ctx (cc + 3)) ++
    (if ends_with_return a then [] else [IGoto (cc + 2)]) ++
    ILbl (cc + 1) :: fst (flatten b ctx (snd (flatten a ctx (cc + 3)))) ++ ILbl (cc + 2) :: post.
Proof.
  intros. simpl. destruct (flatten a ctx (cc + 3)) as [ia c1]. simpl. destruct (flatten b ctx c1).
  destruct (ends_with_return a); norm_app.
Qed.

Lemma flatten_for_shape : forall lbl init c po bo ctx cc post,
  fst (flatten (SFor true lbl init c po bo) ctx cc) ++ post =
  fst (flatten init ctx cc) ++ ILbl (snd (flatten init ctx cc)) :: IIfNotGoto c (S (snd (flatten init ctx cc)))
    :: loop_tail lbl (snd (flatten init ctx cc)) po bo ctx post.
Proof.
  intros. simpl. destruct (flatten init ctx cc) as [ii c0]. simpl.
  unfold loop_tail, mkfl. destruct (flatten bo _ (c0 + 2)) as [ib c1]. simpl.
  destruct (is_terminated bo); simpl; [|destruct (flat_simple po _ c1)]; norm_app.
Qed.

Lemma flatten_continue_shape : forall l ctx cc post,
  fst (flatten (SContinue l) ctx cc) ++ post =
  match find_flow l ctx with
  | Some fl => fst (flat_simple (fl_post fl) ctx cc) ++ IGoto (fl_begin fl) :: post
  | None => IStruct ctx (SContinue l) :: post
  end.
Proof. intros. simpl. destruct (find_flow l ctx); auto. destruct (flat_simple _ ctx cc). norm_app. Qed.

Section Compile.
  Variable sp : sprog.
  Hypothesis SRC : src_ok sp = true.

  Let bl := blocking_flags sp.
  Let P := compile sp.

  Lemma bl_length : length bl = length sp.
  Proof. unfold bl, blocking_flags. rewrite propagate_length. unfold graph_of. apply map_length. Qed.

  Lemma compile_nth : forall f fn, nth_error sp f = Some fn ->
    nth_error P f = Some (flatten_fn (flag bl f) (sf_nparams fn) (fst (annot bl [] (sf_body fn)))).
  Proof.
    intros f fn H. unfold P, compile. fold bl. rewrite zip_flatten_nth, nth_error_map, H. reflexivity.
  Qed.

  Lemma callees_nonblocking : forall f fn g, nth_error sp f = Some fn -> flag bl f = false ->
    In g (callees_of (sf_body fn)) -> flag bl g = false.
  Proof.
    intros f fn g H Hb Hg. destruct (flag bl g) eqn:Eg; auto.
    assert (flag bl f = true); [|congruence].
    apply (propagate_closed (graph_of sp) f {| direct := has_yield (sf_body fn); callees := callees_of (sf_body fn) |}).
    - unfold graph_of. rewrite nth_error_map, H. auto.
    - simpl. apply existsb_exists. exists g; auto.
  Qed.

  Definition ltb_sp (g : nat) : bool := Nat.ltb g (length sp).

  Lemma directb_of : forall g, ltb_sp g = true -> flag bl g = false -> is_directb P g = true.
  Proof.
    intros g Hg Hb. apply Nat.ltb_lt in Hg. unfold is_directb.
    destruct (nth_error sp g) as [fn|] eqn:E; [|apply nth_error_None in E; lia].
    rewrite (compile_nth _ _ E), Hb. auto.
  Qed.

  Lemma dok_intro : forall s, calls_in (is_directb P) s = true -> has_yield s = false -> direct_okb P s = true.
  Proof. intros s H1 H2. unfold direct_okb. rewrite H1, H2. auto. Qed.

  Definition post_shape_ok (po : stmt) : Prop :=
    forall ctx cc, forallb (instr_okb P) (fst (flat_simple po ctx cc)) = true.

  (* what the analysis has to know of a loop's post statement, given its mark [bp] *)
  Definition simple_shape (po' : stmt) (bp : bool) : Prop :=
    (bp = false -> direct_okb P po' = true) /\ post_shape_ok po'.

  (* a label finds the same loop in both contexts *)
  Definition ctx_rel (ctx : list flow) (actx : actx) : Prop :=
    forall l fl, find_flow l ctx = Some fl -> simple_shape (fl_post fl) (find_actx l actx).

  Lemma flat_simple_ok : forall po ctx cc post, post_shape_ok po -> forallb (instr_okb P) post = true ->
    forallb (instr_okb P) (fst (flat_simple po ctx cc) ++ post) = true.
  Proof. intros po ctx cc post H Hpost. rewrite forallb_app, H, Hpost. reflexivity. Qed.

  Lemma esc_conts_not_inner : forall s inner l y, In l (esc_conts inner s) -> In y inner -> targets l y = false.
  Proof.
    induction s; intros inner l0 y H Hx; simpl in H; try contradiction.
    - apply in_app_or in H as [H|H]; eauto.
    - eauto.
    - apply in_app_or in H as [H|H]; eauto.
    - apply in_app_or in H as [H|H]; [eapply IHs1; eauto|]. apply in_app_or in H as [H|H]; [eapply IHs2; eauto|].
      eapply IHs3; eauto. simpl; auto.
    - destruct (existsb (targets l) inner) eqn:E; [contradiction|]. destruct H as [<-|[]].
      destruct (targets l y) eqn:Et; auto.
      assert (existsb (targets l) inner = true) by (apply existsb_exists; exists y; auto). congruence.
  Qed.

  Lemma post_okb_skip : forall fl ctx l, targets l (fl_lbl fl) = false -> post_okb P (fl :: ctx) l = post_okb P ctx l.
  Proof. intros. unfold post_okb. simpl. rewrite H. auto. Qed.

  Lemma istruct_ok : forall ctx s, direct_okb P s = true -> (forall inner, forallb (post_okb P ctx) (esc_conts inner s) = true) ->
    forallb (instr_okb P) [IStruct ctx s] = true.
  Proof. intros ctx s H1 H2. simpl. rewrite H1, H2. auto. Qed.

  (* a statement that may stay in direct form; third part: every continue that leaves it leads to a post statement
     that may, too.  The marks do not matter, so an if / if-else is as good as its branch / as the sequence of its
     branches. *)
  Definition direct_closed (ctx : list flow) (s : stmt) : Prop :=
    calls_in (is_directb P) s = true /\ has_yield s = false /\
    forall inner, forallb (post_okb P ctx) (esc_conts inner s) = true.

  Lemma dc_struct : forall ctx s post, direct_closed ctx s -> forallb (instr_okb P) post = true ->
    forallb (instr_okb P) (IStruct ctx s :: post) = true.
  Proof.
    intros ctx s post (H1 & H2 & H3) Hpost. change (IStruct ctx s :: post) with ([IStruct ctx s] ++ post).
    rewrite forallb_app, Hpost, istruct_ok; auto using dok_intro.
  Qed.

  Lemma dc_seq : forall ctx a b, direct_closed ctx a -> direct_closed ctx b -> direct_closed ctx (SSeq a b).
  Proof.
    intros ctx a b (A1 & A2 & A3) (B1 & B2 & B3).
    repeat split; simpl; [rewrite A1, B1 | rewrite A2, B2 | intros; rewrite forallb_app, A3, B3]; auto.
  Qed.

  (* a continue that leaves the body without meaning this loop does not see this loop's flow data *)
  Lemma dc_for : forall ctx fl m i c po bo,
    direct_closed ctx i -> direct_closed ctx po -> direct_closed (fl :: ctx) bo ->
    direct_closed ctx (SFor m (fl_lbl fl) i c po bo).
  Proof.
    intros ctx fl m i c po bo (I1 & I2 & I3) (P1 & P2 & P3) (B1 & B2 & B3).
    repeat split; simpl; [rewrite I1, P1, B1 | rewrite I2, P2, B2 |]; auto.
    intros inner. rewrite !forallb_app, I3, P3. simpl.
    apply forallb_forall. intros l Hl. specialize (B3 (fl_lbl fl :: inner)). rewrite forallb_forall in B3.
    rewrite <- (B3 l Hl). symmetry. apply post_okb_skip. eapply esc_conts_not_inner; eauto. simpl; auto.
  Qed.

  Lemma simple_annot_shape : forall po actx, simple_stmt po = true -> calls_in ltb_sp po = true ->
    simple_shape (fst (annot bl actx po)) (snd (annot bl actx po)).
  Proof.
    intros po actx Hs Hc. destruct po; simpl in *; try discriminate; unfold simple_shape, post_shape_ok; simpl;
      try (split; intros; try discriminate; reflexivity).
    destruct (flag bl f) eqn:Ef; simpl; [split; [discriminate | reflexivity]|].
    assert (H : direct_okb P (SCall false dst f args) = true) by (apply dok_intro; simpl; auto using directb_of).
    split; [auto | intros; rewrite H; reflexivity].
  Qed.

  (* what [annot] guarantees about a statement and about its translation (in front of any admissible code) *)
  Definition stmt_ok (ctx : list flow) (s' : stmt) (b : bool) : Prop :=
    (forall cc post, forallb (instr_okb P) post = true -> forallb (instr_okb P) (fst (flatten s' ctx cc) ++ post) = true) /\
    (b = false -> direct_closed ctx s').

  Lemma annot_ok : forall s actx ctx, ctx_rel ctx actx ->
    calls_in ltb_sp s = true -> posts_simple s = true ->
    stmt_ok ctx (fst (annot bl actx s)) (snd (annot bl actx s)).
  Proof.
    induction s; intros actx ctx Hrel Hc Hp; unfold stmt_ok; simpl in Hc, Hp; cbn [annot fst snd];
      repeat match goal with h : _ && _ = true |- _ => apply andb_true_iff in h; destruct h end;
      (* statements without sub-statements: both parts hold by computation (a receive is marked, its second part is void) *)
      try (split; [intros cc post Hpost; exact Hpost | first [discriminate | intros _; repeat split; intros; reflexivity]]).
    - (* SCall *)
      destruct (flag bl f) eqn:Ef; [split; [intros cc post Hpost; exact Hpost | discriminate]|].
      assert (Hd : direct_closed ctx (SCall false dst f args)) by (repeat split; simpl; auto using directb_of).
      split; [intros; apply dc_struct; auto | auto].
    - (* SSeq: H1, H2 are the halves of Hc, and H, H0 those of Hp *)
      destruct (IHs1 actx ctx Hrel H1 H) as [A1 A2]. destruct (IHs2 actx ctx Hrel H2 H0) as [B1 B2].
      destruct (annot bl actx s1) as [a' ba], (annot bl actx s2) as [b' bb]. cbn [fst snd] in *. split.
      + intros cc post Hpost. rewrite flatten_seq_shape. apply A1, B1, Hpost.
      + intros Hb. apply orb_false_iff in Hb as [-> ->]. apply dc_seq; auto.
    - (* SIf *)
      destruct (IHs actx ctx Hrel Hc Hp) as [A1 A2].
      destruct (annot bl actx s) as [a' ba]. cbn [fst snd] in *. split; [|exact A2].
      intros cc post Hpost. destruct ba; [|apply dc_struct; auto].
      rewrite flatten_if_shape. simpl. apply A1. exact Hpost.
    - (* SIfElse: H1, H2, H, H0 as for SSeq *)
      destruct (IHs1 actx ctx Hrel H1 H) as [A1 A2]. destruct (IHs2 actx ctx Hrel H2 H0) as [B1 B2].
      destruct (annot bl actx s1) as [a' ba], (annot bl actx s2) as [b' bb]. cbn [fst snd] in *.
      assert (Hd : ba || bb = false -> direct_closed ctx (SSeq a' b')).
      { intros Hb. apply orb_false_iff in Hb as [-> ->]. apply dc_seq; auto. }
      split; [|exact Hd].
      intros cc post Hpost. destruct (ba || bb); [|apply (dc_struct ctx (SIfElse false c a' b')); auto].
      rewrite flatten_ifelse_shape. simpl. apply A1. destruct (ends_with_return a'); apply B1; exact Hpost.
    - (* SFor *)
      rename H2 into Hci, H4 into Hcp, H3 into Hcb, H0 into Hpb, H into Hpi, H1 into Hsimple.
      destruct (IHs1 actx ctx Hrel Hci Hpi) as [I1 I2].
      destruct (simple_annot_shape s2 actx Hsimple Hcp) as [S1 S2].
      assert (Hpp : posts_simple s2 = true) by (destruct s2; simpl in *; auto; discriminate).
      destruct (IHs2 actx ctx Hrel Hcp Hpp) as [_ Po2].
      destruct (annot bl actx s1) as [i' bi], (annot bl actx s2) as [po' bp]. cbn [fst snd] in *.
      assert (Hbody : forall c0, stmt_ok (mkfl lbl c0 po' :: ctx)
                        (fst (annot bl ((lbl, bp) :: actx) s3)) (snd (annot bl ((lbl, bp) :: actx) s3))).
      { intros. apply IHs3; auto. intros l fl. simpl. destruct (targets l lbl); [|apply Hrel].
        intros E. inversion E. exact (conj S1 S2). }
      destruct (annot bl ((lbl, bp) :: actx) s3) as [bo' bb]. cbn [fst snd] in *.
      assert (Hd : forall m', bi || bp || bb = false -> direct_closed ctx (SFor m' lbl i' c po' bo')).
      { intros m' Em. apply orb_false_iff in Em as [Em ->]. apply orb_false_iff in Em as [-> ->].
        apply (dc_for ctx (mkfl lbl 0 po')); auto. apply (Hbody 0); auto. }
      split; [|apply Hd].
      intros cc post Hpost. destruct (bi || bp || bb); [|apply dc_struct; auto].
      rewrite flatten_for_shape. apply I1. unfold loop_tail. simpl. apply Hbody.
      destruct (is_terminated bo'); [|apply flat_simple_ok; auto]; exact Hpost.
    - (* SBreak *)
      split; [|intros _; repeat split; intros; reflexivity].
      intros cc post Hpost. simpl. destruct (find_flow l ctx); exact Hpost.
    - (* SContinue *)
      split.
      + intros cc post Hpost. rewrite flatten_continue_shape. destruct (find_flow l ctx) as [fl|] eqn:Ef.
        * apply flat_simple_ok; [exact (proj2 (Hrel _ _ Ef)) | exact Hpost].
        * simpl. unfold post_okb. rewrite Ef. exact Hpost.
      + intros Hf. repeat split; auto. intros inner. simpl. destruct (existsb (targets l) inner); simpl; auto.
        unfold post_okb. destruct (find_flow l ctx) as [fl|] eqn:Ef; auto.
        rewrite (proj1 (Hrel _ _ Ef) Hf). auto.
  Qed.

  Lemma nonblocking_no_yield : forall f fn, nth_error sp f = Some fn -> flag bl f = false -> has_yield (sf_body fn) = false.
  Proof.
    intros f fn H Hb. destruct (has_yield (sf_body fn)) eqn:E; auto.
    assert (flag bl f = true); [|congruence].
    apply (propagate_sound (graph_of sp) f f (reach_refl _ _)).
    eexists. split; [unfold graph_of; rewrite nth_error_map, H; reflexivity | simpl; auto].
  Qed.

  Theorem compile_wf : wf_prog (compile sp).
  Proof.
    unfold wf_prog, wf_progb. fold P. apply forallb_forall. intros x Hx.
    unfold P, compile in Hx. fold bl in Hx.
    apply In_nth_error in Hx as [f Hn]. rewrite zip_flatten_nth, nth_error_map in Hn.
    destruct (nth_error sp f) as [fn|] eqn:Ef; [|discriminate]. inversion Hn; subst x. simpl.
    unfold src_ok in SRC. rewrite forallb_forall in SRC.
    specialize (SRC fn (nth_error_In _ _ Ef)). apply andb_true_iff in SRC as [Hc Hp].
    fold ltb_sp in Hc.
    destruct (flag bl f) eqn:Eb; unfold flatten_fn.
    - (* resumable form *)
      set (body' := fst (annot bl [] (sf_body fn))).
      set (ret := if ends_with_return body' then [] else [IRet (EConst 0)]).
      assert (forallb (instr_okb P) ret = true /\ labels ret = []) as [R1 R2]
        by (unfold ret; destruct (ends_with_return body'); auto).
      pose proof (proj1 (annot_ok (sf_body fn) [] [] (fun _ _ E => ltac:(discriminate E)) Hc Hp) 1 ret R1) as A.
      pose proof (lab_ok_NoDup _ _ (fun n => flatten_labels n body' [] 1)) as L.
      fold body' in A. destruct (flatten body' [] 1) as [code c1]. simpl in *.
      rewrite A, labels_app, R2, app_nil_r. apply (nodupb_NoDup Nat.eqb Nat.eqb_eq); auto.
    - (* direct form: every callee is non-blocking and exists, and there is no receive *)
      simpl. apply dok_intro; [|rewrite has_yield_annot; eapply nonblocking_no_yield; eauto].
      rewrite calls_in_annot. rewrite calls_in_callees. apply forallb_forall. intros g Hg.
      rewrite calls_in_callees in Hc. rewrite forallb_forall in Hc.
      apply directb_of; eauto using callees_nonblocking.
  Qed.
End Compile.
