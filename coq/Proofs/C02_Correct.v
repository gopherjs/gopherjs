(* C02 — the resumable form computes what the direct semantics computes: whatever [call_direct sp] (the source
   program run structurally) returns, the flat code of [compile sp] [Returns] (Proofs/C02_Sem.v).
   The flat code is followed statement by statement: [FC_all] for [flatten s] at any position of the code, with what
   has to happen afterwards given by outcome ([Kont]); the rounds of a flattened loop after the first are the
   statement [SFor true lbl SSkip c po bo] at the counter of the loop's `case`. *)
From Coq Require Import List ZArith Bool Arith Lia.
From Verif Require Import Model.C02_Blocking Model.C02_Flat Model.C02_Wf.
From Verif Require Import Proofs.C02_Blocking Proofs.C02_Flat Proofs.C02_Sem Proofs.C02_Compile.
Import ListNotations.

(* the marks never matter to [exec], and strictness only at a receive *)
Lemma exec_unmarked : forall callf st st' k s loc w, st = st' \/ has_yield s = false ->
  exec callf st k (strip s) loc w = exec callf st' k s loc w.
Proof.
  intros callf st st'. induction k; intros s loc w Hy; auto.
  assert (Sub : forall a b : bool,
                st = st' \/ a || b = false <-> (st = st' \/ a = false) /\ (st = st' \/ b = false)).
  { intros [] []; simpl; intuition discriminate. }
  destruct s; simpl strip; simpl in Hy; try reflexivity.
  - (* SYield *) destruct Hy as [->|]; [reflexivity | discriminate].
  - (* SSeq *) apply Sub in Hy as [Ha Hb]. rewrite !exec_seq_eq, IHk by auto.
    destruct (exec callf st' k s1 loc w) as [[[[] l] w1]|]; auto.
  - (* SIf *) simpl. destruct (truthy _); auto.
  - (* SIfElse *) apply Sub in Hy as [Ha Hb]. simpl. destruct (truthy _); auto.
  - (* SFor *) apply Sub in Hy as [Hy Hbo]. apply Sub in Hy as [Hi Hpo].
    rewrite !exec_for_eq, IHk by auto. destruct (exec callf st' k s1 loc w) as [[[[] l1] w1]|]; simpl; auto.
    destruct (truthy _); auto. rewrite IHk by auto.
    destruct (exec callf st' k s3 l1 w1) as [[[o2 l2] w2]|]; auto. f_equal. rewrite IHk by auto.
    destruct (exec callf st' k s2 l2 w2) as [[[[] l3] w3]|]; simpl; auto.
    apply (IHk (SFor m lbl SSkip c s2 s3)). apply Sub. split; [exact Hpo | exact Hbo].
Qed.

Lemma exec_annot : forall callf st k bl ctx s loc w,
  exec callf st k (fst (annot bl ctx s)) loc w = exec callf st k s loc w.
Proof. intros. rewrite <- (exec_unmarked callf st st), strip_annot by auto. apply exec_unmarked; auto. Qed.

Lemma exec_strict_eq : forall callf k s loc w, has_yield s = false ->
  exec callf true k s loc w = exec callf false k s loc w.
Proof. intros. rewrite <- (exec_unmarked callf true true) by auto. apply exec_unmarked; auto. Qed.

Lemma exec_terminated : forall callf st k s loc w l w',
  is_terminated s = true -> exec callf st k s loc w = Some (ONormal, l, w') -> False.
Proof.
  intros callf st. induction k; intros s loc w l w' Ht H; [discriminate|].
  destruct s; simpl in *; try discriminate.
  - destruct (exec callf st k s1 loc w) as [[[o l1] w1]|]; [|discriminate].
    destruct o; try discriminate. unfold is_terminated in Ht. simpl in Ht. eapply IHk; eauto.
Qed.

Lemma ends_with_return_terminated : forall s, ends_with_return s = true -> is_terminated s = true.
Proof. unfold ends_with_return, is_terminated. intros s. destruct (last_stmt s); auto; discriminate. Qed.

(* an instruction that only moves the position *)
Ltac step := eapply G_step; [reflexivity|].

Section Correct.
  Variable sp : sprog.
  Hypothesis SRC : src_ok sp = true.

  Let bl := blocking_flags sp.
  Let P := compile sp.

  (* code left in direct form is the source code up to marks, and the machine runs it as the direct semantics does,
     with the same fuel *)
  Definition direct_at (n : nat) : Prop := forall g a w v w', is_directb P g = true ->
    call_direct sp n g a w = Some (v, w') -> call P never n (Fresh (CFn g) a) w = Some (Done v, w').

  Lemma direct_exec : forall n, direct_at n -> forall k s loc w x, direct_okb P s = true ->
    exec (call_direct sp n) false k s loc w = Some x -> exec (callf_nb (call P never n)) true k s loc w = Some x.
  Proof.
    intros n IHn k s loc w x Hd H. apply direct_okb_elim in Hd as [Hc Hy]. rewrite exec_strict_eq by exact Hy.
    refine (exec_mono_on (is_directb P) _ _ false _ k k s loc w x Hc H (le_n _)).
    intros g a w0 [v w'] Hg Hr. unfold callf_nb. rewrite (IHn _ _ _ _ _ Hg Hr). reflexivity.
  Qed.

  Lemma direct_agree : forall n, direct_at n.
  Proof.
    induction n; intros g a w v w' Hd H; [discriminate|].
    simpl in *. destruct (nth_error sp g) as [fn|] eqn:Eg; [|discriminate].
    pose proof (compile_nth sp g fn Eg) as Hp. fold bl in Hp. fold P in Hp. unfold is_directb in Hd. rewrite Hp in Hd |- *.
    pose proof (wf_fn_ok P g _ (compile_wf sp SRC) Hp) as Hok.
    destruct (flag bl g); simpl in Hd, Hok |- *; [destruct (flatten _ _ _); discriminate|].
    rewrite <- (exec_annot _ _ _ bl []) in H.
    destruct (exec (call_direct sp n) false n _ a w) as [x|] eqn:E; [|discriminate].
    rewrite (direct_exec n IHn _ _ _ _ _ Hok E), H. reflexivity.
  Qed.

  Definition sim_at (n : nat) : Prop :=
    forall g a w v w', call_direct sp n g a w = Some (v, w') -> Returns P (Fresh (CFn g) a) w v w'.

  Section AtN.
    Variable n : nat.
    Hypothesis IHn : sim_at n.

    Lemma Does_direct : forall k s loc w r,
      exec (call_direct sp n) false k s loc w = Some r -> direct_okb P s = true -> Does P s loc w r.
    Proof. intros k s loc w r H Hd. exists never, n, k. exact (direct_exec n (direct_agree n) _ _ _ _ _ Hd H). Qed.

    Section InFn.
      Variable fid np : nat.
      Variable code : list instr.
      Hypothesis Hcode : nth_error P fid = Some (FFlat np code).

      Lemma code_nodup : NoDup (labels code).
      Proof. exact (proj2 (wf_fn_ok P fid _ (compile_wf sp SRC) Hcode)). Qed.

      (* what the whole activation returns *)
      Variable vf : Z.
      Variable wf : world.

      Definition Ends (cur : list instr) (loc : list Z) (w : world) : Prop := Goes P code cur loc w vf wf.

      Lemma lbl_at : forall n0 rest loc w,
        suffix (ILbl n0 :: rest) code -> Ends rest loc w -> Ends (target code n0) loc w.
      Proof. intros n0 rest loc w Hs HR. rewrite (target_lbl _ _ _ code_nodup Hs). exact HR. Qed.

      Definition Kont (ctx : list flow) (post : list instr) (o : outcome) (l' : list Z) (w' : world)
                 : Prop :=
        match o with
        | ONormal => Ends post l' w'
        | OBreak l => exists fl, find_flow l ctx = Some fl /\ Ends (target code (fl_end fl)) l' w'
        | OContinue l => exists fl kp l'' w'',
            find_flow l ctx = Some fl /\
            exec (call_direct sp n) false kp (fl_post fl) l' w' = Some (ONormal, l'', w'') /\
            Ends (target code (fl_begin fl)) l'' w''
        | OReturn v => vf = v /\ wf = w'
        end.

      Lemma Ends_struct : forall ctx s rest k loc w o l' w',
        suffix (IStruct ctx s :: rest) code ->
        exec (call_direct sp n) false k s loc w = Some (o, l', w') ->
        Kont ctx rest o l' w' -> Ends (IStruct ctx s :: rest) loc w.
      Proof.
        intros ctx s rest k loc w o l' w' Hc He HK.
        destruct (struct_ok _ _ _ _ _ _ _ (compile_wf sp SRC) Hcode Hc) as [Hd Hpo].
        pose proof (Does_direct _ _ _ _ _ He Hd) as HD. destruct o.
        - eapply G_struct; eauto.
        - destruct HK as (fl & Hf & HL). eapply G_break; eauto.
        - destruct HK as (fl & kp & l'' & w'' & Hf & Hp & HL).
          eapply G_continue; eauto using Does_direct.
        - destruct HK as [Hv Hw]. unfold Ends. rewrite Hv, Hw. eapply G_return; eauto.
      Qed.

      (* a statement translated by flat_simple: the simple statements, as [flatten] translates them too, and loop
         post statements *)
      Lemma Ends_simple : forall po ctx cc rest kp loc w o l' w',
        suffix (fst (flat_simple po ctx cc) ++ rest) code ->
        exec (call_direct sp n) false kp po loc w = Some (o, l', w') ->
        Kont ctx rest o l' w' -> Ends (fst (flat_simple po ctx cc) ++ rest) loc w.
      Proof.
        intros po ctx cc rest kp loc w o l' w' Hc He HK.
        destruct kp; [discriminate|].
        destruct po; simpl in Hc |- *;
          try (eapply Ends_struct; [exact Hc | exact He | exact HK]; fail).
        - (* SSkip *) inversion He; subst. exact HK.
        - (* SYield *) inversion He; subst. eapply G_call; [apply Ret_prim | exact HK].
        - (* SCall *) destruct b; simpl in Hc |- *; [|eapply Ends_struct; [exact Hc | exact He | exact HK]].
          simpl in He. destruct (call_direct sp n f _ w) as [[v w1]|] eqn:E; [|discriminate].
          inversion He; subst. eapply G_call; [apply (IHn _ _ _ _ _ E) | exact HK].
      Qed.

      Lemma flatten_loop_shape : forall lbl c po bo ctx c0 post,
        fst (flatten (SFor true lbl SSkip c po bo) ctx c0) ++ post =
        ILbl c0 :: IIfNotGoto c (S c0) :: loop_tail lbl c0 po bo ctx post.
      Proof. intros. rewrite flatten_for_shape. reflexivity. Qed.

      Lemma Ends_lbl_inv : forall n0 rest loc w, Ends (ILbl n0 :: rest) loc w -> Ends rest loc w.
      Proof. intros n0 rest loc w H. inversion H as [ | | ? ? ? cur ? ? ? ? E HG | | | | | ]; subst. inversion E; subst. exact HG. Qed.

      Lemma FC_all : forall k s ctx cc post loc w o l' w',
        suffix (fst (flatten s ctx cc) ++ post) code ->
        exec (call_direct sp n) false k s loc w = Some (o, l', w') ->
        Kont ctx post o l' w' ->
        Ends (fst (flatten s ctx cc) ++ post) loc w.
      Proof.
        induction k as [|k HFC]; intros s ctx cc post loc w o l' w' Hc He HK; [discriminate|].
        assert (Simple : fst (flatten s ctx cc) = fst (flat_simple s ctx cc) ->
                         Ends (fst (flatten s ctx cc) ++ post) loc w).
        { intros E. rewrite E in Hc |- *. eapply Ends_simple; eauto. }
        (* not marked: left in direct form *)
        assert (Struct : fst (flatten s ctx cc) = [IStruct ctx s] -> Ends (fst (flatten s ctx cc) ++ post) loc w).
        { intros E. rewrite E in Hc |- *. eapply Ends_struct; eauto. }
        destruct s as [ | x e | g e | e | | b dst f args | s1 s2 | [] c s1 | [] c s1 s2 | [] lbl init c po bo | l | l | e ];
          try (apply Simple; reflexivity); try (apply Struct; reflexivity); clear Simple.
        - (* SSeq *)
          rewrite flatten_seq_shape in Hc |- *. simpl in He.
          destruct (exec (call_direct sp n) false k s1 loc w) as [[[oa la] wa]|] eqn:Ea; [|discriminate].
          eapply HFC; [exact Hc | exact Ea |].
          destruct oa; try (inversion He; subst; exact HK).
          eapply HFC; [exact (suffix_app _ _ _ Hc) | exact He | exact HK].
        - (* SIf *)
          rewrite flatten_if_shape in Hc |- *. simpl in He.
          pose proof (suffix_cons _ _ _ (suffix_cons _ _ _ Hc)) as Hb.
          pose proof (suffix_app _ _ _ (suffix_cons _ _ _ Hb)) as Hend.
          step. destruct (truthy (eval c loc w)).
          + eapply lbl_at; [exact Hb|]. eapply HFC; [exact (suffix_cons _ _ _ Hb) | exact He |].
            destruct o; try exact HK. step. exact HK.
          + inversion He; subst. step. eapply lbl_at; [exact Hend | exact HK].
        - (* SIfElse *)
          rewrite flatten_ifelse_shape in Hc |- *. simpl in He.
          pose proof (suffix_cons _ _ _ (suffix_cons _ _ _ Hc)) as Hb.
          pose proof (suffix_app _ _ _ (suffix_app _ _ _ (suffix_cons _ _ _ Hb))) as Hdef.
          pose proof (suffix_app _ _ _ (suffix_cons _ _ _ Hdef)) as Hend.
          step. destruct (truthy (eval c loc w)).
          + eapply lbl_at; [exact Hb|]. eapply HFC; [exact (suffix_cons _ _ _ Hb) | exact He |].
            destruct o; try exact HK. simpl. destruct (ends_with_return s1) eqn:Er.
            * exfalso. eapply exec_terminated; [apply ends_with_return_terminated; exact Er | exact He].
            * step. eapply lbl_at; [exact Hend | exact HK].
          + step. eapply lbl_at; [exact Hdef|]. eapply HFC; [exact (suffix_cons _ _ _ Hdef) | exact He |].
            destruct o; try exact HK. step. exact HK.
        - (* SFor: the init statement, then one round *)
          rewrite flatten_for_shape in Hc |- *.
          rewrite exec_for_eq in He. apply after_normal_some in He as (l1 & w1 & Hi & He).
          eapply HFC; [exact Hc | exact Hi |]. apply suffix_app in Hc. clear Struct.
          set (c0 := snd (flatten init ctx cc)) in *.
          pose proof (suffix_cons _ _ _ (suffix_cons _ _ _ Hc)) as Hb. unfold loop_tail in Hb |- *.
          set (fl := mkfl lbl c0 po) in *.
          assert (Hend : forall l w, Ends post l w -> Ends (target code (S c0)) l w).
          { intros l w0. apply lbl_at. apply suffix_app in Hb.
            destruct (is_terminated bo); [exact Hb | exact (suffix_cons _ _ _ (suffix_app _ _ _ Hb))]. }
          simpl. step. step. destruct (truthy (eval c l1 w1)).
          2:{ inversion He; subst. apply Hend. exact HK. }
          destruct (exec (call_direct sp n) false k bo l1 w1) as [[[ob l2] w2]|] eqn:Ebo; [|discriminate].
          eapply HFC; [exact Hb | exact Ebo |].
          (* what `again` gives: the post statement runs, then the loop is re-entered at case c0 *)
          assert (Again : after_normal (exec (call_direct sp n) false k po l2 w2)
                            (exec (call_direct sp n) false k (SFor true lbl SSkip c po bo)) = Some (o, l', w') ->
                          exists l3 w3, exec (call_direct sp n) false k po l2 w2 = Some (ONormal, l3, w3) /\
                                        Ends (target code c0) l3 w3).
          { intros Hy. apply after_normal_some in Hy as (l3 & w3 & Ep & Hy). exists l3, w3. split; auto.
            eapply lbl_at; [exact Hc|]. apply (Ends_lbl_inv c0). rewrite <- flatten_loop_shape in Hc |- *.
            eapply HFC; eauto. }
          destruct ob as [|t|t|v]; simpl in He |- *; try destruct (targets t lbl) eqn:Etg.
          + (* the body completed: post statement, then `$s = c0; continue` *)
            destruct (Again He) as (l3 & w3 & Ep & HL).
            assert (Hnt : is_terminated bo = false).
            { destruct (is_terminated bo) eqn:E; auto. exfalso. eapply exec_terminated; eauto. }
            rewrite Hnt in *. eapply Ends_simple; [exact (suffix_app _ _ _ Hb) | exact Ep | step; exact HL].
          + (* break out of this loop *) inversion He; subst. exists fl. auto.
          + (* break out of an enclosing loop *) inversion He; subst. exact HK.
          + (* continue of this loop *) destruct (Again He) as (l3 & w3 & Ep & HL). exists fl, k, l3, w3. auto.
          + (* continue of an enclosing loop *) inversion He; subst. exact HK.
          + (* return *) inversion He; subst. exact HK.
        - (* SBreak *)
          simpl in Struct, Hc |- *. destruct (find_flow l ctx) as [fl|] eqn:Ef; [|auto].
          inversion He; subst. destruct HK as (fl' & Hf' & HL). rewrite Ef in Hf'. inversion Hf'; subst.
          step. exact HL.
        - (* SContinue *)
          simpl in Struct. rewrite flatten_continue_shape in Hc |- *.
          destruct (find_flow l ctx) as [fl|] eqn:Ef; [|auto].
          inversion He; subst.
          destruct HK as (fl' & kp & l'' & w'' & Hf' & Hp & HL). rewrite Ef in Hf'. inversion Hf'; subst fl'.
          eapply Ends_simple; [exact Hc | exact Hp | step; exact HL].
        - (* SReturn *)
          inversion He; subst. destruct HK as [Hv Hw]. unfold Ends. rewrite Hv, Hw. apply G_ret.
      Qed.
    End InFn.
  End AtN.

  Lemma nonblocking_direct : forall f fn, nth_error sp f = Some fn -> flag bl f = false ->
    nth_error P f = Some (FDirect (sf_nparams fn) (fst (annot bl [] (sf_body fn)))).
  Proof. intros f fn H Hb. unfold P, bl. rewrite (compile_nth sp f fn H). fold bl. rewrite Hb. auto. Qed.

  Theorem compile_direct_correct : forall n, sim_at n.
  Proof.
    induction n; intros g a w v w' H; [discriminate|].
    destruct (is_directb P g) eqn:Hd; [exact (Ret_direct P never _ _ _ _ _ _ Hd (direct_agree _ _ _ _ _ _ Hd H))|].
    (* resumable form *)
    simpl in H. destruct (nth_error sp g) as [fn|] eqn:Eg; [|discriminate].
    pose proof (compile_nth sp g fn Eg) as Hp. fold bl in Hp. fold P in Hp.
    unfold is_directb in Hd. rewrite Hp in Hd. destruct (flag bl g); [|discriminate]. unfold flatten_fn in Hp.
    rewrite <- (exec_annot _ _ _ bl []) in H.
    set (body' := fst (annot bl [] (sf_body fn))) in *.
    destruct (exec (call_direct sp n) false n body' a w) as [[[o l'] w1]|] eqn:He; [|discriminate].
    destruct (flatten body' [] 1) as [code0 c1] eqn:Ef.
    eapply Ret_flat; [exact Hp|].
    pose proof (FC_all n IHn g _ _ Hp v w' n body' [] 1 (if ends_with_return body' then [] else [IRet (EConst 0)]) a w o l' w1) as A.
    rewrite Ef in A. apply (A (suffix_refl _) He). destruct o; try discriminate; inversion H; subst; simpl; auto.
    destruct (ends_with_return body'); [apply G_nil | apply (G_ret P _ (EConst 0))].
  Qed.
End Correct.

Theorem flat_suspend_invariant : forall sp sched nglob fuel main args o,
  src_ok sp = true ->
  run_direct sp nglob fuel main args = Some o ->
  exists fuel', run_flat (compile sp) sched nglob fuel' main args = Some o.
Proof.
  intros sp sched nglob fuel main args o SRC H. unfold run_direct in H. unfold run_flat.
  destruct (call_direct sp fuel main args (w0 nglob)) as [[v w']|] eqn:E; [|discriminate].
  destruct (sem_run_machine _ sched (compile_wf sp SRC) _ _ _ _ _ (compile_direct_correct sp SRC _ _ _ _ _ _ E))
    as [N Hf].
  exists N. rewrite Hf by auto. exact H.
Qed.
