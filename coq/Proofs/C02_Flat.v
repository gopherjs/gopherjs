(* C02 — facts about [exec] and about positions in flat code (Model/C02_Flat.v) on which Proofs/C02_Sem.v builds
   schedule independence. *)
From Coq Require Import List ZArith Bool Arith Lia.
From Verif Require Import Base.Lists Model.C02_Blocking Model.C02_Flat Model.C02_Wf.
Import ListNotations.

Definition after_normal (r : option (outcome * list Z * world))
    (k : list Z -> world -> option (outcome * list Z * world)) : option (outcome * list Z * world) :=
  match r with Some (ONormal, l, w) => k l w | _ => None end.

(* what a loop does with the outcome [o] of its body; [again] is the post statement followed by the next round *)
Definition loop_out (lbl : option label) (o : outcome) (l : list Z) (w : world)
    (again : option (outcome * list Z * world)) : option (outcome * list Z * world) :=
  match o with
  | ONormal => again
  | OContinue t => if targets t lbl then again else Some (o, l, w)
  | OBreak t => if targets t lbl then Some (ONormal, l, w) else Some (o, l, w)
  | OReturn _ => Some (o, l, w)
  end.

Arguments after_normal !r k.
Arguments loop_out lbl !o l w again.

Lemma exec_seq_eq : forall callf st n a b loc w,
  exec callf st (S n) (SSeq a b) loc w =
  match exec callf st n a loc w with
  | Some (ONormal, loc', w') => exec callf st n b loc' w'
  | r => r
  end.
Proof. reflexivity. Qed.

Lemma exec_for_eq : forall callf st n m lbl init c post body loc w,
  exec callf st (S n) (SFor m lbl init c post body) loc w =
  after_normal (exec callf st n init loc w) (fun l1 w1 =>
    if truthy (eval c l1 w1) then
      match exec callf st n body l1 w1 with
      | Some (o, l2, w2) =>
          loop_out lbl o l2 w2
            (after_normal (exec callf st n post l2 w2) (exec callf st n (SFor m lbl SSkip c post body)))
      | None => None
      end
    else Some (ONormal, l1, w1)).
Proof. reflexivity. Qed.

Lemma after_normal_some : forall r k x,
  after_normal r k = Some x -> exists l w, r = Some (ONormal, l, w) /\ k l w = Some x.
Proof. intros [[[[] l0] w0]|] k x H; try discriminate. eauto. Qed.

Lemma loop_out_cases : forall lbl o l w,
  (forall a, loop_out lbl o l w a = a) \/ (exists x, forall a, loop_out lbl o l w a = Some x).
Proof. intros lbl [|t|t|v] l w; simpl; eauto; destruct (targets t lbl); eauto. Qed.

Lemma exec_mono_on : forall (P : fname -> bool) c1 c2 strict,
  (forall f a w r, P f = true -> c1 f a w = Some r -> c2 f a w = Some r) ->
  forall n m s loc w x, calls_in P s = true -> exec c1 strict n s loc w = Some x -> n <= m ->
  exec c2 strict m s loc w = Some x.
Proof.
  intros P c1 c2 st Hle. induction n; intros m s loc w x Hc H Hm; [discriminate|].
  destruct m as [|m]; [lia|]. apply le_S_n in Hm.
  destruct s; try rewrite exec_for_eq in H |- *; simpl in Hc, H |- *; try exact H.
  - (* SCall *) destruct (c1 f _ w) as [[v w']|] eqn:E; [|discriminate]. rewrite (Hle _ _ _ _ Hc E). exact H.
  - (* SSeq *) apply andb_true_iff in Hc as [Ha Hb].
    destruct (exec c1 st n s1 loc w) as [[[o l] w1]|] eqn:E; [|discriminate].
    rewrite (IHn m _ _ _ _ Ha E Hm). destruct o; eauto.
  - (* SIf *) destruct (truthy _); eauto.
  - (* SIfElse *) apply andb_true_iff in Hc as [Ha Hb]. destruct (truthy _); eauto.
  - (* SFor *) apply andb_true_iff in Hc as [Hc Hbo]. apply andb_true_iff in Hc as [Hi Hpo].
    apply after_normal_some in H as (l1 & w1 & E1 & H). rewrite (IHn m _ _ _ _ Hi E1 Hm). simpl.
    destruct (truthy _); [|exact H].
    destruct (exec c1 st n s3 l1 w1) as [[[o2 l2] w2]|] eqn:E2; [|discriminate]. rewrite (IHn m _ _ _ _ Hbo E2 Hm).
    destruct (loop_out_cases lbl o2 l2 w2) as [Hgo | [y Hend]]; [|rewrite Hend in *; exact H].
    rewrite Hgo in *. apply after_normal_some in H as (l3 & w3 & E3 & H). rewrite (IHn m _ _ _ _ Hpo E3 Hm). simpl.
    apply (IHn m (SFor m0 lbl SSkip c s2 s3)); auto. simpl. rewrite Hpo, Hbo. auto.
Qed.

Lemma exec_continue_label : forall callf strict n s loc w l loc' w',
  exec callf strict n s loc w = Some (OContinue l, loc', w') ->
  forall inner, existsb (targets l) inner = false -> In l (esc_conts inner s).
Proof.
  induction n; intros s loc w l loc' w' H inner Hin; [discriminate|].
  destruct s; try rewrite exec_for_eq in H; simpl in *; try discriminate.
  - destruct strict; discriminate.
  - destruct (callf f _ w) as [[v w1]|]; discriminate.
  - apply in_or_app. destruct (exec callf strict n s1 loc w) as [[[o l1] w1]|] eqn:E; [|discriminate].
    destruct o; try (inversion H; subst; left; eapply IHn; eauto; fail).
    right; eapply IHn; eauto.
  - destruct (truthy _); [eapply IHn; eauto | discriminate].
  - apply in_or_app. destruct (truthy _); [left | right]; eapply IHn; eauto.
  - apply after_normal_some in H as (l1 & w1 & _ & H).
    destruct (truthy _); [|discriminate].
    destruct (exec callf strict n s3 l1 w1) as [[[o2 l2] w2]|] eqn:E2; [|discriminate].
    apply in_or_app; right; apply in_or_app.
    assert (A : after_normal (exec callf strict n s2 l2 w2) (exec callf strict n (SFor m lbl SSkip c s2 s3))
                = Some (OContinue l, loc', w') ->
                In l (esc_conts inner s2) \/ In l (esc_conts (lbl :: inner) s3)).
    { intros Hy. apply after_normal_some in Hy as (l3 & w3 & _ & Hy).
      apply (IHn _ _ _ _ _ _) with (inner := inner) in Hy; auto.
      simpl in Hy. apply in_app_or in Hy. auto. }
    destruct o2 as [|t|t|v]; simpl in H; try destruct (targets t lbl) eqn:Et; auto; try discriminate.
    inversion H; subst. right. eapply IHn; [exact E2|]. simpl. rewrite Et. auto.
  - inversion H; subst. rewrite Hin. left; auto.
Qed.

Lemma callf_nb_on : forall (Q : fname -> bool) c1 c2,
  (forall f a w x, Q f = true -> c1 (Fresh (CFn f) a) w = Some x -> c2 (Fresh (CFn f) a) w = Some x) ->
  forall f a w r, Q f = true -> callf_nb c1 f a w = Some r -> callf_nb c2 f a w = Some r.
Proof.
  intros Q c1 c2 H f a w r Hq. unfold callf_nb.
  destruct (c1 (Fresh (CFn f) a) w) as [[res w']|] eqn:E; [|discriminate]. rewrite (H _ _ _ _ Hq E). auto.
Qed.

Lemma drive_done : forall p sc n k v w, drive p sc n k (Done v) w = Some (v, w).
Proof. intros. destruct k; reflexivity. Qed.

Definition fn_ok (p : fprog) (f : ffn) : Prop :=
  match f with
  | FDirect _ s => direct_okb p s = true
  | FFlat _ code => forallb (instr_okb p) code = true /\ NoDup (labels code)
  end.

Definition wf_prog (p : fprog) : Prop := wf_progb p = true.

Lemma wf_fn_ok : forall p f fn, wf_prog p -> nth_error p f = Some fn -> fn_ok p fn.
Proof.
  intros p f fn WF H. unfold wf_prog, wf_progb in WF. rewrite forallb_forall in WF.
  specialize (WF fn (nth_error_In _ _ H)). destruct fn; simpl in *; auto.
  apply andb_true_iff in WF as [H1 H2]. split; auto. apply (nodupb_NoDup Nat.eqb Nat.eqb_eq); auto.
Qed.

Lemma direct_okb_elim : forall p s, direct_okb p s = true -> calls_in (is_directb p) s = true /\ has_yield s = false.
Proof. intros p s H. unfold direct_okb in H. apply andb_true_iff in H as [H1 H2]. apply negb_true_iff in H2. auto. Qed.

Definition suffix (cur code : list instr) : Prop := exists pre, code = pre ++ cur.

Lemma suffix_refl : forall code, suffix code code.
Proof. intros; exists []; auto. Qed.

Lemma suffix_app : forall a b code, suffix (a ++ b) code -> suffix b code.
Proof. intros a b code [pre ->]. exists (pre ++ a). apply app_assoc. Qed.

Lemma suffix_cons : forall i cur code, suffix (i :: cur) code -> suffix cur code.
Proof. intros i cur. apply (suffix_app [i]). Qed.

Lemma suffix_forallb : forall f i rest code, suffix (i :: rest) code -> forallb f code = true -> f i = true.
Proof.
  intros f i rest code [pre ->] H. rewrite forallb_app in H. apply andb_true_iff in H as [_ H].
  simpl in H. apply andb_true_iff in H as [H _]. auto.
Qed.

(* where [find_case] lands: a position of the code, or the inside of a call pattern, `case n:` standing in front of
   what follows the call.  Of a position that begins with that `case` only what follows it is looked at. *)
Definition suffix_like (cur code : list instr) : Prop :=
  suffix (match cur with IResume _ _ :: rest => rest | _ => cur end) code.

Lemma suffix_is_like : forall cur code, suffix cur code -> suffix_like cur code.
Proof. intros [|[] cur] code H; try exact H. exact (suffix_cons _ _ _ H). Qed.

Lemma suffix_like_cons : forall i cur code, suffix_like (i :: cur) code -> suffix_like cur code.
Proof. intros i cur code H. apply suffix_is_like. destruct i; try exact (suffix_cons _ _ _ H). exact H. Qed.

Lemma struct_ok : forall p fid np code ctx s rest,
  wf_prog p -> nth_error p fid = Some (FFlat np code) -> suffix (IStruct ctx s :: rest) code ->
  direct_okb p s = true /\
  forall callf st n loc w l loc' w' fl, exec callf st n s loc w = Some (OContinue l, loc', w') ->
    find_flow l ctx = Some fl -> direct_okb p (fl_post fl) = true.
Proof.
  intros p fid np code ctx s rest WF Hf Hs.
  destruct (wf_fn_ok _ _ _ WF Hf) as [Hok _]. pose proof (suffix_forallb _ _ _ _ Hs Hok) as Hi. simpl in Hi.
  apply andb_true_iff in Hi as [Hd Hpo]. split; auto.
  intros callf st n loc w l loc' w' fl He Hfl. rewrite forallb_forall in Hpo.
  specialize (Hpo l (exec_continue_label _ _ _ _ _ _ _ _ _ He [] eq_refl)).
  unfold post_okb in Hpo. rewrite Hfl in Hpo. auto.
Qed.

Lemma suffix_like_under : forall i cur code, suffix_like cur code -> suffix_like cur (i :: code).
Proof. intros i cur code [pre H]. exists (i :: pre). simpl. rewrite H. reflexivity. Qed.

Lemma find_case_suffix : forall n code cur, find_case n code = Some cur -> suffix_like cur code.
Proof.
  induction code; intros cur H; simpl in H; [discriminate|].
  destruct a; try (apply suffix_like_under; auto; fail); destruct (Nat.eqb n0 n);
    try (apply suffix_like_under; auto; fail); inversion H; subst.
  - apply suffix_is_like. exists [ILbl n0]. reflexivity.
  - exists [ICall dst ce args n0]. reflexivity.
Qed.

Lemma labels_app : forall a b, labels (a ++ b) = labels a ++ labels b.
Proof. induction a; intros; simpl; auto. destruct a; simpl; rewrite ?IHa; auto. Qed.

Lemma find_case_skip : forall n pre rest, ~ In n (labels pre) -> find_case n (pre ++ rest) = find_case n rest.
Proof.
  induction pre; intros rest H; simpl; auto.
  destruct a; simpl in H; auto; destruct (Nat.eqb_spec n0 n); auto; subst; exfalso; auto.
Qed.

(* where `$s = n; continue` goes on: behind `case n:`, or out of the switch, where the function returns *)
Definition target (code : list instr) (n : nat) : list instr :=
  match find_case n code with Some cur => cur | None => [] end.

Lemma target_suffix : forall code n, suffix_like (target code n) code.
Proof.
  intros code n. unfold target. destruct (find_case n code) eqn:E; [exact (find_case_suffix _ _ _ E)|].
  exists code. symmetry. apply app_nil_r.
Qed.

Lemma target_at : forall code n i rest, NoDup (labels code) -> suffix (i :: rest) code -> labels [i] = [n] ->
  target code n = target (i :: rest) n.
Proof.
  intros code n i rest Hnd [pre ->] Hi. unfold target. rewrite find_case_skip; [reflexivity|].
  change (i :: rest) with ([i] ++ rest) in Hnd. rewrite !labels_app, Hi in Hnd.
  apply NoDup_remove_2 in Hnd. intro Hin. apply Hnd. apply in_or_app; auto.
Qed.

Lemma target_lbl : forall code n rest, NoDup (labels code) -> suffix (ILbl n :: rest) code -> target code n = rest.
Proof.
  intros code n rest Hnd Hs. rewrite (target_at _ n _ _ Hnd Hs eq_refl). unfold target. simpl. rewrite Nat.eqb_refl. reflexivity.
Qed.

Lemma target_call : forall code dst ce args n rest, NoDup (labels code) ->
  suffix (ICall dst ce args n :: rest) code -> target code n = IResume dst n :: rest.
Proof.
  intros code dst ce args n rest Hnd Hs.
  rewrite (target_at _ n _ _ Hnd Hs eq_refl). unfold target. simpl. rewrite Nat.eqb_refl. reflexivity.
Qed.

Lemma target_cons : forall code n i rest, target code n = i :: rest -> find_case n code = Some (i :: rest).
Proof. intros code n i rest H. unfold target in H. destruct (find_case n code); [subst; auto | discriminate]. Qed.

(* the instructions that only move the position: where the code goes on after [i], which stands in front of [rest] *)
Definition next (code : list instr) (i : instr) (rest : list instr) (loc : list Z) (w : world) : option (list instr) :=
  match i with
  | ILbl _ | IResume _ _ => Some rest     (* the resume point of a call pattern, reached with `$c` clear, is a plain label *)
  | IGoto n => Some (target code n)
  | IIfGoto e n => Some (if truthy (eval e loc w) then target code n else rest)
  | IIfNotGoto e n => Some (if truthy (eval e loc w) then rest else target code n)
  | _ => None
  end.

Lemma next_suffix : forall code i rest loc w cur, next code i rest loc w = Some cur ->
  suffix_like (i :: rest) code -> suffix_like cur code.
Proof.
  intros code i rest loc w cur E Hs. pose proof (suffix_like_cons _ _ _ Hs) as Hr.
  destruct i; inversion E; subst; try destruct (truthy _); auto using target_suffix.
Qed.

(* `$s = n; continue` *)
Lemma jump_target : forall cf code fid k n loc c r w x,
  run_code cf code fid k (target code n) loc c r w = Some x ->
  match find_case n code with
  | Some cur => run_code cf code fid k cur loc c r w
  | None => Some (Done 0%Z, w)
  end = Some x.
Proof.
  intros cf code fid k n loc c r w x H. unfold target in H. destruct (find_case n code); [exact H|].
  destruct k; [discriminate | exact H].
Qed.

(* `case m:` inside the call pattern, reached with `$c` set: the saved callee frame is re-entered first *)
Lemma run_code_resume : forall cf code fid k dst m rest loc r w,
  run_code cf code fid (S k) (IResume dst m :: rest) loc true r w =
  match cf (Resume r) w with
  | Some (Done v, w') => run_code cf code fid k rest (set_dst dst v loc) false FLeaf w'
  | Some (Blocked f, w') => Some (Blocked (FFrame fid m loc f), w')
  | None => None
  end.
Proof. reflexivity. Qed.

Lemma direct_indep : forall p sc1 sc2, wf_prog p ->
  forall n m f args w x, n <= m -> is_directb p f = true ->
  call p sc1 n (Fresh (CFn f) args) w = Some x -> call p sc2 m (Fresh (CFn f) args) w = Some x.
Proof.
  intros p sc1 sc2 WF. induction n; intros m f args w x Hm Hd H; [discriminate|].
  destruct m as [|m]; [lia|]. apply le_S_n in Hm.
  simpl in *. unfold is_directb in Hd.
  destruct (nth_error p f) as [[np s|np code]|] eqn:Hf; try discriminate.
  pose proof (wf_fn_ok _ _ _ WF Hf) as Hok. apply direct_okb_elim in Hok as [Hok _].
  destruct (exec (callf_nb (call p sc1 n)) true n s args w) as [[[o l] w1]|] eqn:E; [|discriminate].
  erewrite (exec_mono_on (is_directb p) (callf_nb (call p sc1 n)) (callf_nb (call p sc2 m))); eauto.
  apply callf_nb_on. intros. eapply IHn; eauto.
Qed.

(* the schedule under which no receive suspends *)
Definition never : nat -> bool := fun _ => false.
