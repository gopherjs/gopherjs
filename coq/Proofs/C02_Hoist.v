(* C02 — proofs about the hoisting model (Model/C02_Hoist.v): call arguments keep Go's order (the `_arg`
   temporaries of translateArgs), expressions keep it on the [ordered] class (ordered_sound); the two recorded
   defects are exhibited by evaluation in Props/C02.v. *)
From Coq Require Import List Bool.
From Verif Require Import Model.C02_Hoist.
Import ListNotations.

Section HInd.
  Variable Q : hexpr -> Prop.
  Hypothesis Hleaf : Q HLeaf.
  Hypothesis Hbin : forall a b, Q a -> Q b -> Q (HBin a b).
  Hypothesis Hcall : forall blk id args, Forall Q args -> Q (HCall blk id args).
  Fixpoint hexpr_ind' (e : hexpr) : Q e :=
    match e with
    | HLeaf => Hleaf
    | HBin a b => Hbin a b (hexpr_ind' a) (hexpr_ind' b)
    | HCall blk id args =>
        Hcall blk id args
          ((fix go (l : list hexpr) : Forall Q l :=
              match l with
              | [] => Forall_nil Q
              | x :: r => Forall_cons x (hexpr_ind' x) (go r)
              end) args)
    end.
End HInd.

Definition seq_ok (e : hexpr) : Prop := fst (tr e) ++ snd (tr e) = go_order e.

Lemma tl_unmarked : forall l, existsb marked l = false -> existsb marked (tl l) = false.
Proof. destruct l; simpl; auto. intros H. apply orb_false_iff in H. tauto. Qed.

Lemma unmarked_no_prelude : forall e, marked e = false -> fst (tr e) = [].
Proof.
  induction e using hexpr_ind'; simpl; intros Hm; auto.
  - apply orb_false_iff in Hm as [Ha Hb]. specialize (IHe1 Ha). specialize (IHe2 Hb).
    destruct (tr e1), (tr e2). simpl in *. subst. auto.
  - apply orb_false_iff in Hm as [-> Hargs]. rewrite Hargs, (tl_unmarked _ Hargs). simpl.
    induction H as [|a l Ha _ IH]; simpl in *; auto.
    apply orb_false_iff in Hargs as [Hx Hl]. rewrite (Ha Hx), IH; auto.
Qed.

Lemma unmarked_args : forall l, Forall seq_ok l -> existsb marked l = false ->
  concat (map fst (map tr l)) = [] /\ concat (map snd (map tr l)) = concat (map go_order l).
Proof.
  induction 1 as [|a l Ha _ IH]; simpl; intros Hm; auto.
  apply orb_false_iff in Hm as [Hx Hl]. destruct (IH Hl) as [-> ->].
  unfold seq_ok in Ha. rewrite (unmarked_no_prelude _ Hx) in *. simpl in Ha. rewrite Ha. auto.
Qed.

(* translateArgs, as `defer f(args)` and `go f(args)` use it *)
Lemma delegated_order_preserved : forall args,
  Forall seq_ok args -> trace_delegated args = go_delegated args.
Proof.
  intros args H. unfold trace_delegated, go_delegated, tr_args, seq_ok in *.
  destruct (existsb marked (tl args)) eqn:Ep.
  - (* some later argument blocks: every argument goes through an _arg temporary *)
    rewrite app_nil_r. clear Ep. induction H as [|a l Ha _ IH]; simpl; [|rewrite Ha, IH]; auto.
  - (* only the first argument can contain hoisted calls *)
    destruct H as [|a l Ha Hl]; simpl in *; auto.
    destruct (unmarked_args l Hl Ep) as [-> ->]. rewrite app_nil_r, app_assoc, Ha. auto.
Qed.

Lemma args_order_preserved : forall blk id args,
  Forall seq_ok args -> seq_ok (HCall blk id args).
Proof.
  intros blk id args H. pose proof (delegated_order_preserved args H) as A.
  unfold seq_ok, trace_delegated, go_delegated in *. simpl.
  destruct (tr_args (map tr args) (existsb marked (tl args))) as [p i]. rewrite <- A.
  destruct (blk || existsb marked args); simpl; rewrite ?app_nil_r, ?app_assoc; auto.
Qed.

Lemma ordered_sound : forall e, ordered e = true -> seq_ok e.
Proof.
  induction e using hexpr_ind'; intros Ho.
  - reflexivity.
  - simpl in Ho. apply andb_true_iff in Ho as [Ho Hc]. apply andb_true_iff in Ho as [Ha Hb].
    specialize (IHe1 Ha). specialize (IHe2 Hb). unfold seq_ok in *. simpl.
    destruct (tr e1) as [pa ia] eqn:E1. destruct (tr e2) as [pb ib] eqn:E2. simpl in *.
    rewrite <- IHe1, <- IHe2.
    apply orb_true_iff in Hc as [Hc|Hc].
    + destruct ia; [|discriminate]. rewrite ?app_nil_r; simpl; repeat rewrite <- app_assoc; reflexivity.
    + apply negb_true_iff in Hc. pose proof (unmarked_no_prelude _ Hc) as Hp. rewrite E2 in Hp. simpl in Hp. subst.
      rewrite ?app_nil_r; simpl; repeat rewrite <- app_assoc; reflexivity.
  - apply args_order_preserved. simpl in Ho. rewrite forallb_forall in Ho.
    rewrite Forall_forall in *. intros x Hx. apply H; auto.
Qed.

Lemma index_assign_preserved : forall idx rhs,
  ordered idx = true -> ordered rhs = true ->
  marked rhs = false \/ go_order idx = [] ->
  trace_index_assign idx rhs = go_index_assign idx rhs.
Proof.
  intros idx rhs Hi Hr Hc. pose proof (ordered_sound _ Hi) as Si. pose proof (ordered_sound _ Hr) as Sr.
  unfold seq_ok, trace_index_assign, go_index_assign in *.
  destruct (tr rhs) as [pr ir] eqn:Er. destruct (tr idx) as [pi ii] eqn:Ei. simpl in *.
  destruct Hc as [Hc|Hc].
  - pose proof (unmarked_no_prelude _ Hc) as Hp. rewrite Er in Hp. simpl in Hp. subst. simpl.
    simpl in Sr. rewrite <- Si, <- Sr. repeat rewrite <- app_assoc. reflexivity.
  - rewrite Hc in *. apply app_eq_nil in Si as [-> ->]. simpl. rewrite Sr. auto.
Qed.
