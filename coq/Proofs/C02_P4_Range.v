(* C02 — `for k = range s` (Model/C02_P4_Range.v): the direct semantics of the language with range is the direct
   semantics of the translator's reduction to translateLoopingStmt ([rexec_desugar_ext], [run_rdirect_desugar]); with
   Proofs/C02_Correct.v this gives Props/C02.v its theorems about programs with range loops. *)
From Coq Require Import List ZArith Bool Arith Lia Wf_nat.
From Verif Require Import Model.C02_Blocking Model.C02_Flat Model.C02_Wf Model.C02_P4_Range.
From Verif Require Import Proofs.C02_Flat.
Import ListNotations.
Local Open Scope Z_scope.

Lemma truthy_b2z : forall b, truthy (b2z b) = b.
Proof. destruct b; reflexivity. Qed.

Lemma rexec_range_eq : forall callf n1 started lbl key ref iv len body loc w,
  rexec callf (S (S n1)) (RRange started lbl key ref iv len body) loc w =
  match (if started then Some loc
         else match n1 with O => None | S _ => Some (upd iv 0 (upd ref (eval len loc w) loc)) end) with
  | None => None
  | Some l1 =>
      if lookup iv l1 <? lookup ref l1 then
        match n1 with
        | O => None
        | S _ =>
          match rexec callf n1 body (set_dst key (lookup iv l1) l1) w with
          | Some (o, l2, w2) =>
              loop_out lbl o l2 w2
                (rexec callf (S n1) (RRange true lbl key ref iv len body) (upd iv (lookup iv l2 + 1) l2) w2)
          | None => None
          end
        end
      else Some (ONormal, l1, w)
  end.
Proof. reflexivity. Qed.

(* the two oracles only have to agree: the callees are programs of the two languages, equal by induction
   ([rcall_direct_desugar]) *)
Lemma rexec_desugar_ext : forall callf c2, (forall g a w, callf g a w = c2 g a w) ->
  forall n s loc w, rexec callf n s loc w = exec c2 false n (desugar s) loc w.
Proof.
  intros callf c2 Hc n. induction n as [n IH] using lt_wf_ind. intros s loc w.
  destruct n as [|n]; [reflexivity|].
  assert (IHn : forall s loc w, rexec callf n s loc w = exec c2 false n (desugar s) loc w) by (apply IH; auto with arith).
  destruct s; try reflexivity.
  - (* RCall *)
    simpl. rewrite Hc. reflexivity.
  - (* RSeq *)
    simpl. rewrite IHn. destruct (exec c2 false n (desugar s1) loc w) as [[[[] l1] w1]|]; auto.
  - (* RIf *)
    simpl. destruct (truthy (eval c loc w)); auto.
  - (* RIfElse *)
    simpl. destruct (truthy (eval c loc w)); auto.
  - (* RFor *)
    cbn [desugar]. rewrite exec_for_eq. simpl. rewrite IHn.
    destruct (exec c2 false n (desugar s1) loc w) as [[[[] l1] w1]|]; auto. simpl.
    destruct (truthy (eval c l1 w1)); auto.
    rewrite IHn. destruct (exec c2 false n (desugar s3) l1 w1) as [[[o l2] w2]|]; auto.
    destruct o as [|t|t|v]; simpl; try destruct (targets t lbl); auto; rewrite IHn;
      destruct (exec c2 false n (desugar s2) l2 w2) as [[[[] l3] w3]|]; simpl; auto;
      apply (IHn (RFor lbl RSkip c s2 s3)).
  - (* RRange: entering, the test, the key and the counter are computed by the reduction as [rexec] does *)
    destruct n as [|n1]; [reflexivity|].
    assert (IHn1 : forall s loc w, rexec callf n1 s loc w = exec c2 false n1 (desugar s) loc w) by (apply IH; auto with arith).
    cbn [desugar]. rewrite rexec_range_eq, exec_for_eq.
    replace (exec c2 false (S n1) (if started then SSkip else SSeq (SAssign ref len) (SAssign iv (EConst 0))) loc w)
      with (match (if started then Some loc
                   else match n1 with O => None | S _ => Some (upd iv 0 (upd ref (eval len loc w) loc)) end) with
            | Some l1 => Some (ONormal, l1, w) | None => None end)
      by (destruct started, n1; reflexivity).
    destruct (if started then Some loc else _) as [l1|]; [|reflexivity]. unfold after_normal at 1. cbv beta iota.
    replace (truthy (eval (range_cond ref iv) l1 w)) with (lookup iv l1 <? lookup ref l1) by (symmetry; exact (truthy_b2z _)).
    destruct (lookup iv l1 <? lookup ref l1); [|reflexivity].
    destruct n1 as [|n2]; [reflexivity|]. rewrite exec_seq_eq.
    replace (exec c2 false (S n2) (range_key key iv) l1 w) with (Some (ONormal, set_dst key (lookup iv l1) l1, w))
      by (destruct key; reflexivity).
    rewrite IHn1. destruct (exec c2 false (S n2) (desugar s) _ w) as [[[o l2] w2]|]; [|reflexivity].
    f_equal. apply (IHn (RRange true lbl key ref iv len s)).
Qed.

Lemma rcall_direct_desugar : forall p n f a w,
  rcall_direct p n f a w = call_direct (rdesugar p) n f a w.
Proof.
  intros p. induction n; intros f a w; [reflexivity|].
  simpl. unfold rdesugar. rewrite nth_error_map. destruct (nth_error p f) as [fn|]; [|reflexivity].
  simpl. rewrite (rexec_desugar_ext _ _ IHn). reflexivity.
Qed.

Theorem run_rdirect_desugar : forall p nglob fuel main args,
  run_rdirect p nglob fuel main args = run_direct (rdesugar p) nglob fuel main args.
Proof. intros. unfold run_rdirect, run_direct. rewrite rcall_direct_desugar. reflexivity. Qed.
