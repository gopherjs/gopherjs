(* C02 — why the schedule cannot be observed.  [Returns]/[Goes] say what flat code computes, with no schedule,
   fuel, `$c` or saved frame in sight, and the machine of Model/C02_Flat.v under ANY schedule computes exactly that:
   every run of it yields what [Returns] says, and under every schedule all large amounts of fuel get there. *)
From Coq Require Import List ZArith Bool Arith Lia.
From Verif Require Import Model.C02_Blocking Model.C02_Flat Model.C02_Wf Proofs.C02_Flat.
Import ListNotations.

(* [Returns]: a call returns; [Goes]: the code from [cur] on takes the activation to its return. *)
Section Sem.
  Variable p : fprog.

  (* Direct-form code is run by the machine itself, under some schedule and with some fuel: which ones does not
     matter in a well-formed program (direct_indep), so no reading of its own is needed.  The same for a call of a
     function in direct form, [Ret_direct]. *)
  Definition Does (s : stmt) (loc : list Z) (w : world) (x : outcome * list Z * world) : Prop :=
    exists sc n k, exec (callf_nb (call p sc n)) true k s loc w = Some x.

  Inductive Returns : entry -> world -> Z -> world -> Prop :=
  | Ret_prim : forall args w, Returns (Fresh CPrim args) w 0%Z (w_ticked w)
  | Ret_direct : forall sc n f args w v w',
      is_directb p f = true -> call p sc n (Fresh (CFn f) args) w = Some (Done v, w') ->
      Returns (Fresh (CFn f) args) w v w'
  | Ret_flat : forall f np code args w v w',
      nth_error p f = Some (FFlat np code) -> Goes code code args w v w' ->
      Returns (Fresh (CFn f) args) w v w'
  with Goes : list instr -> list instr -> list Z -> world -> Z -> world -> Prop :=
  | G_nil : forall code loc w, Goes code [] loc w 0%Z w
  | G_ret : forall code e rest loc w, Goes code (IRet e :: rest) loc w (eval e loc w) w
  | G_step : forall code i rest cur loc w v w',
      next code i rest loc w = Some cur -> Goes code cur loc w v w' -> Goes code (i :: rest) loc w v w'
  | G_struct : forall code ctx s rest loc w l1 w1 v w',
      Does s loc w (ONormal, l1, w1) -> Goes code rest l1 w1 v w' ->
      Goes code (IStruct ctx s :: rest) loc w v w'
  | G_break : forall code ctx s rest loc w l l1 w1 fl v w',
      Does s loc w (OBreak l, l1, w1) -> find_flow l ctx = Some fl ->
      Goes code (target code (fl_end fl)) l1 w1 v w' ->
      Goes code (IStruct ctx s :: rest) loc w v w'
  | G_continue : forall code ctx s rest loc w l l1 w1 fl l2 w2 v w',
      Does s loc w (OContinue l, l1, w1) -> find_flow l ctx = Some fl ->
      Does (fl_post fl) l1 w1 (ONormal, l2, w2) ->
      Goes code (target code (fl_begin fl)) l2 w2 v w' ->
      Goes code (IStruct ctx s :: rest) loc w v w'
  | G_return : forall code ctx s rest loc w v l1 w1,
      Does s loc w (OReturn v, l1, w1) -> Goes code (IStruct ctx s :: rest) loc w v w1
  | G_call : forall code dst ce args n rest loc w v1 w1 v w',
      Returns (Fresh ce (map (fun a => eval a loc w) args)) w v1 w1 ->
      Goes code rest (set_dst dst v1 loc) w1 v w' ->
      Goes code (ICall dst ce args n :: rest) loc w v w'.

  Scheme Returns_mind := Minimality for Returns Sort Prop
    with Goes_mind := Minimality for Goes Sort Prop.
  Combined Scheme sem_ind from Returns_mind, Goes_mind.

  Section Sched.
    Variable sc : nat -> bool.
    Hypothesis WF : wf_prog p.

    (* A result of the machine is read as what the goroutine loop will make of it: [A] holds of the value it
       finally comes to.  For a saved frame that is: the callee's frame first, then the code behind the call site.
       The machine only ever saves frames at call sites; of a frame made by hand that is not one [Frame] is false,
       so nothing is claimed ([wf_prog] does not exclude a literal [IResume], and a frame saved there is re-entered
       elsewhere) *)
    Fixpoint Frame (f : frame) (w : world) (A : Z -> world -> Prop) : Prop :=
      match f with
      | FLeaf => A 0%Z w
      | FFrame fid s loc r => exists np code dst rest,
          nth_error p fid = Some (FFlat np code) /\ target code s = IResume dst s :: rest /\
          Frame r w (fun v1 w1 => forall v w', Goes code rest (set_dst dst v1 loc) w1 v w' -> A v w')
      end.

    Definition Means (res : result) (w : world) (A : Z -> world -> Prop) : Prop :=
      match res with Done v => A v w | Blocked f => Frame f w A end.

    Definition Expect (en : entry) (w : world) (A : Z -> world -> Prop) : Prop :=
      match en with Fresh _ _ => forall v w', Returns en w v w' -> A v w' | Resume f => Frame f w A end.

    Lemma Frame_via : forall f w (A B : Z -> world -> Prop),
      (forall v w', A v w' -> B v w') -> Frame f w A -> Frame f w B.
    Proof.
      induction f as [|fid s loc r IH]; intros w A B HAB; simpl; [apply HAB|].
      intros (np & code & dst & rest & Hf & Ht & H). exists np, code, dst, rest. split; [exact Hf|]. split; [exact Ht|].
      eapply IH; [|exact H]. intros v1 w1 HA v w' HG. exact (HAB _ _ (HA _ _ HG)).
    Qed.

    Lemma Means_via : forall res w (A B : Z -> world -> Prop),
      (forall v w', A v w' -> B v w') -> Means res w A -> Means res w B.
    Proof. intros [v|f] w A B HAB; simpl; [apply HAB | apply Frame_via, HAB]. Qed.

    Definition call_sem_at (n : nat) : Prop :=
      forall en w res w1 A, call p sc n en w = Some (res, w1) -> Expect en w A -> Means res w1 A.

    Lemma run_code_sem : forall n, call_sem_at n ->
      forall np code fid, nth_error p fid = Some (FFlat np code) ->
      forall k cur loc r w res w1, suffix_like cur code ->
      run_code (call p sc n) code fid k cur loc false r w = Some (res, w1) ->
      Means res w1 (Goes code cur loc w).
    Proof.
      intros n IHc np code fid Hf. pose proof (wf_fn_ok _ _ _ WF Hf) as [_ Hnd].
      induction k; intros cur loc r w res w1 Hsuf H; [discriminate|].
      simpl in H. destruct cur as [|i rest].
      { inversion H; subst. apply G_nil. }
      pose proof (suffix_like_cons _ _ _ Hsuf) as Hrest.
      assert (Hjump : forall m l wj,
                match find_case m code with
                | Some cur' => run_code (call p sc n) code fid k cur' l false r wj
                | None => Some (Done 0%Z, wj) end = Some (res, w1) ->
                Means res w1 (Goes code (target code m) l wj)).
      { intros m l wj Hj. unfold target. destruct (find_case m code) as [cur'|] eqn:Hfc.
        - exact (IHk _ _ _ _ _ _ (find_case_suffix _ _ _ Hfc) Hj).
        - inversion Hj; subst. apply G_nil. }
      destruct i.
      - (* ILbl *) eapply Means_via; [intros v w'; apply G_step; reflexivity|].
        exact (IHk _ _ _ _ _ _ Hrest H).
      - (* IGoto *) eapply Means_via; [intros v w'; apply G_step; reflexivity|]. exact (Hjump _ _ _ H).
      - (* IIfGoto *) eapply Means_via; [intros v w'; apply G_step; reflexivity|].
        destruct (truthy (eval c loc w)); [exact (Hjump _ _ _ H) | exact (IHk _ _ _ _ _ _ Hrest H)].
      - (* IIfNotGoto *) eapply Means_via; [intros v w'; apply G_step; reflexivity|].
        destruct (truthy (eval c loc w)); [exact (IHk _ _ _ _ _ _ Hrest H) | exact (Hjump _ _ _ H)].
      - (* IStruct *)
        destruct (exec (callf_nb (call p sc n)) true k s loc w) as [[[o l] wa]|] eqn:E; [|discriminate].
        assert (HD : Does s loc w (o, l, wa)) by (exists sc, n, k; exact E). destruct o.
        + eapply Means_via; [|exact (IHk _ _ _ _ _ _ Hrest H)]. intros v w'. apply G_struct; auto.
        + destruct (find_flow l0 ctx) as [fl|] eqn:Efl; [|discriminate].
          eapply Means_via; [|exact (Hjump _ _ _ H)]. intros v w'. eapply G_break; eauto.
        + destruct (find_flow l0 ctx) as [fl|] eqn:Efl; [|discriminate].
          destruct (exec (callf_nb (call p sc n)) true k (fl_post fl) l wa) as [[[[] l2] w2]|] eqn:E2; try discriminate.
          eapply Means_via; [|exact (Hjump _ _ _ H)]. intros v w'. eapply G_continue; eauto. exists sc, n, k; exact E2.
        + inversion H; subst. eapply G_return; eauto.
      - (* ICall *)
        destruct (call p sc n (Fresh ce (map (fun a => eval a loc w) args)) w) as [[[v1|f] wa]|] eqn:Ec; try discriminate;
          pose proof (IHc _ _ _ _ (Returns _ w) Ec (fun _ _ HR => HR)) as HC; simpl in HC.
        + eapply Means_via; [|exact (IHk _ _ _ _ _ _ Hrest H)]. intros v w'. apply G_call; auto.
        + (* suspended in the callee: this frame is saved around the callee's *)
          inversion H; subst res w1. exists np, code, dst, rest.
          split; [exact Hf|]. split; [exact (target_call _ _ _ _ _ _ Hnd Hsuf)|].
          eapply Frame_via; [|exact HC]. intros v1 w2 HR v w'. apply G_call, HR.
      - (* IResume, `$c` not set *)
        eapply Means_via; [intros v w'; apply G_step; reflexivity|]. exact (IHk _ _ _ _ _ _ Hrest H).
      - (* IRet *) inversion H; subst. apply G_ret.
    Qed.

    Lemma call_sem : forall n, call_sem_at n.
    Proof.
      induction n; intros en w res w1 A H HE; [discriminate|].
      simpl in H. destruct en as [[|f] args | [|fid s loc r]]; simpl in HE.
      - (* the blocking primitive *) destruct (sc (w_tick w)); inversion H; subst; apply HE, Ret_prim.
      - destruct (nth_error p f) as [[np s|np code]|] eqn:Hf; try discriminate.
        + (* direct form: the run itself *)
          destruct (body_result _) as [[v0 w2]|] eqn:Hb in H; [|discriminate]. inversion H; subst. apply HE.
          apply (Ret_direct sc (S n)); [unfold is_directb; rewrite Hf; reflexivity|]. simpl. rewrite Hf, Hb. reflexivity.
        + eapply Means_via; [|exact (run_code_sem n IHn _ _ _ Hf _ _ _ _ _ _ _ (suffix_is_like _ _ (suffix_refl _)) H)].
          intros v w' HG. apply HE. exact (Ret_flat _ _ _ _ _ _ _ Hf HG).
      - inversion H; subst. exact HE.
      - (* a saved frame is re-entered: the callee's frame first; if that suspends again, this frame is saved around
           the new one, which is again what was expected *)
        destruct HE as (np & code & dst & rest & Hf & Ht & HE). rewrite Hf in H.
        pose proof (target_cons _ _ _ _ Ht) as Hfc. rewrite Hfc in H. destruct n as [|k]; [discriminate|].
        rewrite run_code_resume in H.
        destruct (call p sc (S k) (Resume r) w) as [[[v1|f] wa]|] eqn:Ec; try discriminate;
          pose proof (IHn _ _ _ _ _ Ec HE) as HC; simpl in HC.
        + eapply Means_via; [exact HC|]. exact (run_code_sem _ IHn _ _ _ Hf _ _ _ _ _ _ _ (suffix_like_cons _ _ _ (find_case_suffix _ _ _ Hfc)) H).
        + inversion H; subst res w1. exists np, code, dst, rest. auto.
    Qed.

    Lemma drive_sem : forall n k res w v w', drive p sc n k res w = Some (v, w') ->
      forall A : Z -> world -> Prop, Means res w A -> A v w'.
    Proof.
      induction k; intros res w v w' H A HM; destruct res as [v0|f]; simpl in H; try discriminate;
        try (inversion H; subst; exact HM).
      destruct (call p sc n (Resume f) w) as [[r' w1]|] eqn:Ec; [|discriminate].
      exact (IHk _ _ _ _ H _ (call_sem _ _ _ _ _ _ Ec HM)).
    Qed.

    Theorem run_machine_sem : forall fuel main args w v w',
      run_machine p sc fuel main args w = Some (v, w') -> Returns (Fresh (CFn main) args) w v w'.
    Proof.
      intros fuel main args w v w' H. unfold run_machine in H.
      destruct (call p sc fuel (Fresh (CFn main) args) w) as [[r w1]|] eqn:Ec; [|discriminate].
      exact (drive_sem _ _ _ _ _ _ H _ (call_sem _ _ _ _ _ (Returns _ w) Ec (fun _ _ HR => HR))).
    Qed.

    (* "the machine gets there" is said of all sufficiently large fuel: for a call, a statement in direct form, a
       stretch of code (with `$c` clear) *)
    Definition Calls (en : entry) (w : world) (r : result) (w' : world) : Prop :=
      exists N, forall m, N <= m -> call p sc m en w = Some (r, w').
    Definition Execs (s : stmt) (loc : list Z) (w : world) (x : outcome * list Z * world) : Prop :=
      exists N, forall m k, N <= m -> N <= k -> exec (callf_nb (call p sc m)) true k s loc w = Some x.
    Definition Runs (code : list instr) (fid : fname) (cur : list instr) (loc : list Z) (r : frame) (w : world)
               (res : result) (w' : world) : Prop :=
      exists N, forall m k, N <= m -> N <= k -> run_code (call p sc m) code fid k cur loc false r w = Some (res, w').
    (* the goroutine loop: a suspended result is re-entered until a value comes out *)
    Inductive Settles : result -> world -> Z -> world -> Prop :=
    | Settles_done : forall v w, Settles (Done v) w v w
    | Settles_step : forall f w r' w1 v w',
        Calls (Resume f) w r' w1 -> Settles r' w1 v w' -> Settles (Blocked f) w v w'.

    Lemma Settles_drive : forall r w v w', Settles r w v w' ->
      exists N, forall m k, N <= m -> N <= k -> drive p sc m k r w = Some (v, w').
    Proof.
      induction 1 as [v w | f w r' w1 v w' [N1 H1] _ [N2 H2]].
      - exists 0. intros. apply drive_done.
      - exists (S (N1 + N2)). intros m k Hm Hk. destruct k; [lia|]. simpl. rewrite H1 by lia. apply H2; lia.
    Qed.

    Lemma Runs_unfold : forall code fid N cur loc r w res w',
      (forall m k, N <= m -> N <= k -> run_code (call p sc m) code fid (S k) cur loc false r w = Some (res, w')) ->
      Runs code fid cur loc r w res w'.
    Proof. intros code fid N cur loc r w res w' H. exists (S N). intros m [|k] Hm Hk; [lia|]. apply H; lia. Qed.

    Definition Finishes (A : result -> world -> Prop) (v : Z) (w' : world) : Prop :=
      exists res w1, A res w1 /\ Settles res w1 v w'.

    Lemma Finishes_done : forall (A : result -> world -> Prop) v w', A (Done v) w' -> Finishes A v w'.
    Proof. intros A v w' H. exists (Done v), w'. split; [exact H | apply Settles_done]. Qed.

    (* re-entering a saved caller frame: `case m:` lies inside the call pattern and `$c` is set, so the saved callee
       frame is re-entered first; the callee chain is driven to completion, then the caller goes on *)
    Lemma resume_frame : forall np code fid m dst rest loc,
      nth_error p fid = Some (FFlat np code) ->
      find_case m code = Some (IResume dst m :: rest) ->
      forall r wa v1 w1, Settles r wa v1 w1 -> forall f v w', r = Blocked f ->
      Finishes (Runs code fid rest (set_dst dst v1 loc) FLeaf w1) v w' ->
      Settles (Blocked (FFrame fid m loc f)) wa v w'.
    Proof.
      intros np code fid m dst rest loc Hf Hfc.
      induction 1 as [|f0 wa r' wb v1 w1 [N1 H1] Hd IH]; intros f v2 w2 E HF; inversion E; subst f0.
      destruct r' as [v1'|f'].
      - (* the callee chain is finished: the caller continues after the call site *)
        inversion Hd; subst. destruct HF as (res & w3 & [N2 H2] & HS).
        eapply Settles_step; [|exact HS]. exists (S (S (N1 + N2))). intros [|m'] Hm; [lia|]. simpl. rewrite Hf, Hfc.
        destruct m' as [|k]; [lia|]. rewrite run_code_resume, H1 by lia. apply H2; lia.
      - (* suspended again further down: the caller saves its frame again with the new callee frame *)
        eapply Settles_step; [|exact (IH _ _ _ eq_refl HF)]. exists (S (S N1)). intros [|m'] Hm; [lia|]. simpl. rewrite Hf, Hfc.
        destruct m' as [|k]; [lia|]. rewrite run_code_resume, H1 by lia. reflexivity.
    Qed.

    Lemma Does_execs : forall s loc w x, Does s loc w x -> direct_okb p s = true -> Execs s loc w x.
    Proof.
      intros s loc w x (sc0 & n & k & E) Hd. apply direct_okb_elim in Hd as [Hc _]. exists (n + k). intros m k' Hm Hk.
      refine (exec_mono_on (is_directb p) _ _ true _ k k' s loc w x Hc E ltac:(lia)).
      apply callf_nb_on. intros f a w0 y. apply (direct_indep p sc0 sc WF). lia.
    Qed.

    Theorem sem_runs :
      (forall en w v w', Returns en w v w' -> Finishes (Calls en w) v w') /\
      (forall code cur loc w v w', Goes code cur loc w v w' ->
         forall fid np, nth_error p fid = Some (FFlat np code) -> suffix_like cur code ->
         forall r, Finishes (Runs code fid cur loc r w) v w').
    Proof.
      apply sem_ind.
      - (* the blocking primitive: a value, or the empty frame, whose re-entry returns at once *) intros args w.
        exists (if sc (w_tick w) then Blocked FLeaf else Done 0%Z), (w_ticked w). split.
        + exists 1. intros [|m] Hm; [lia|]. simpl. destruct (sc _); auto.
        + destruct (sc (w_tick w)); [|apply Settles_done].
          eapply Settles_step; [|apply Settles_done]. exists 1. intros [|m] Hm; [lia | reflexivity].
      - (* direct form *) intros sc0 n f args w v w' Hd H. apply Finishes_done.
        exists n. intros m Hm. exact (direct_indep p sc0 sc WF _ _ _ _ _ _ Hm Hd H).
      - (* resumable form *) intros f np code args w v w' Hf _ IH.
        destruct (IH _ _ Hf (suffix_is_like _ _ (suffix_refl _)) FLeaf) as (res & w1 & [N H] & HS). exists res, w1. split; [|exact HS].
        exists (S N). intros [|m] Hm; [lia|]. simpl. rewrite Hf. apply H; lia.
      - (* G_nil *) intros code loc w fid np Hf Hs r. apply Finishes_done. apply (Runs_unfold _ _ 0). auto.
      - (* G_ret *) intros code e rest loc w fid np Hf Hs r. apply Finishes_done. apply (Runs_unfold _ _ 0). auto.
      - (* the position moves *) intros code i rest cur loc w v w' E _ IH fid np Hf Hs r.
        destruct (IH _ _ Hf (next_suffix _ _ _ _ _ _ E Hs) r) as (res & w1 & [N H] & HS). exists res, w1. split; [|exact HS].
        apply (Runs_unfold _ _ N). intros m k Hm Hk. specialize (H m k Hm Hk).
        destruct i; inversion E; subst; clear E; simpl; try destruct (truthy (eval c loc w)); auto using jump_target.
      - (* IStruct, completing normally *) intros code ctx s rest loc w l1 w1 v w' HD _ IHg fid np Hf Hs r.
        destruct (Does_execs _ _ _ _ HD (proj1 (struct_ok _ _ _ _ _ _ _ WF Hf Hs))) as [N1 E1].
        destruct (IHg _ _ Hf (suffix_like_cons _ _ _ Hs) r) as (res & w2 & [N2 H2] & HS). exists res, w2. split; [|exact HS].
        apply (Runs_unfold _ _ (N1 + N2)); intros; simpl. rewrite E1 by lia. apply H2; lia.
      - (* IStruct, break *) intros code ctx s rest loc w l l1 w1 fl v w' HD Hfl _ IHg fid np Hf Hs r.
        destruct (Does_execs _ _ _ _ HD (proj1 (struct_ok _ _ _ _ _ _ _ WF Hf Hs))) as [N1 E1].
        destruct (IHg _ _ Hf (target_suffix _ _) r) as (res & w2 & [N2 H2] & HS). exists res, w2. split; [|exact HS].
        apply (Runs_unfold _ _ (N1 + N2)); intros; simpl. rewrite E1 by lia. rewrite Hfl. apply jump_target, H2; lia.
      - (* IStruct, continue: the post statement runs in direct form as well *)
        intros code ctx s rest loc w l l1 w1 fl l2 w2 v w' HD Hfl HP _ IHg fid np Hf Hs r.
        destruct (struct_ok _ _ _ _ _ _ _ WF Hf Hs) as [Hd Hpo]. pose proof HD as (sc0 & n0 & k0 & E).
        destruct (Does_execs _ _ _ _ HD Hd) as [N1 E1]. destruct (Does_execs _ _ _ _ HP (Hpo _ _ _ _ _ _ _ _ _ E Hfl)) as [N3 E3].
        destruct (IHg _ _ Hf (target_suffix _ _) r) as (res & w3 & [N2 H2] & HS). exists res, w3. split; [|exact HS].
        apply (Runs_unfold _ _ (N1 + N2 + N3)); intros; simpl. rewrite E1 by lia. rewrite Hfl, E3 by lia. apply jump_target, H2; lia.
      - (* IStruct, return *) intros code ctx s rest loc w v l1 w1 HD fid np Hf Hs r.
        destruct (Does_execs _ _ _ _ HD (proj1 (struct_ok _ _ _ _ _ _ _ WF Hf Hs))) as [N1 E1]. apply Finishes_done.
        apply (Runs_unfold _ _ N1); intros; simpl. rewrite E1 by lia. auto.
      - (* ICall: the callee finishes; if that took a suspension, this frame was saved around the callee's and is re-entered *)
        intros code dst ce args n rest loc w v1 w1 v w' _ (r1 & wa & [N1 H1] & HS) _ IHg fid np Hf Hs r.
        pose proof (IHg _ _ Hf (suffix_like_cons _ _ _ Hs)) as Hrest. destruct r1 as [v0|f].
        + inversion HS; subst. destruct (Hrest r) as (res & w2 & [N2 H2] & HS2). exists res, w2. split; [|exact HS2].
          apply (Runs_unfold _ _ (N1 + N2)); intros; simpl. rewrite H1 by lia. apply H2; lia.
        + exists (Blocked (FFrame fid n loc f)), wa. split.
          * apply (Runs_unfold _ _ N1); intros; simpl. rewrite H1 by lia. auto.
          * destruct (wf_fn_ok _ _ _ WF Hf) as [_ Hnd].
            exact (resume_frame _ _ _ _ _ _ _ Hf (target_cons _ _ _ _ (target_call _ _ _ _ _ _ Hnd Hs)) _ _ _ _ HS _ _ _ eq_refl (Hrest FLeaf)).
    Qed.

    Theorem sem_run_machine : forall main args w v w', Returns (Fresh (CFn main) args) w v w' ->
      exists N, forall fuel, N <= fuel -> run_machine p sc fuel main args w = Some (v, w').
    Proof.
      intros main args w v w' H. destruct (proj1 sem_runs _ _ _ _ H) as (res & w1 & [N1 H1] & HS).
      destruct (Settles_drive _ _ _ _ HS) as [N2 H2].
      exists (N1 + N2). intros fuel Hf. unfold run_machine. rewrite H1 by lia. apply H2; lia.
    Qed.
  End Sched.
End Sem.

Theorem schedule_irrelevant : forall p sc1 sc2 fuel main args w x,
  wf_prog p ->
  run_machine p sc1 fuel main args w = Some x ->
  exists N, forall fuel', N <= fuel' -> run_machine p sc2 fuel' main args w = Some x.
Proof.
  intros p sc1 sc2 fuel main args w [v w'] WF H.
  exact (sem_run_machine p sc2 WF _ _ _ _ _ (run_machine_sem p sc1 WF _ _ _ _ _ _ H)).
Qed.

Corollary flat_schedule_independent : forall p sc1 sc2 nglob fuel main args o,
  wf_prog p ->
  run_flat p sc1 nglob fuel main args = Some o ->
  exists fuel', run_flat p sc2 nglob fuel' main args = Some o.
Proof.
  intros p sc1 sc2 nglob fuel main args o WF H. unfold run_flat in *.
  destruct (run_machine p sc1 fuel main args (w0 nglob)) as [x|] eqn:E; [|discriminate].
  destruct (schedule_irrelevant p sc1 sc2 _ _ _ _ _ WF E) as [N A]. exists N. rewrite (A N (le_n N)). exact H.
Qed.

(* two runs can only differ by one of them not terminating within its fuel: under a third schedule, with enough
   fuel, either is reproduced *)
Theorem schedules_agree : forall p sc1 sc2 f1 f2 main args w x1 x2,
  wf_prog p ->
  run_machine p sc1 f1 main args w = Some x1 ->
  run_machine p sc2 f2 main args w = Some x2 ->
  x1 = x2.
Proof.
  intros p sc1 sc2 f1 f2 main args w x1 x2 WF H1 H2.
  destruct (schedule_irrelevant p sc1 never _ _ _ _ _ WF H1) as [N1 A1].
  destruct (schedule_irrelevant p sc2 never _ _ _ _ _ WF H2) as [N2 A2].
  pose proof (A1 (N1 + N2) (Nat.le_add_r _ _)) as B1. rewrite (A2 (N1 + N2)) in B1 by lia. congruence.
Qed.

Corollary flat_schedules_agree : forall p sc1 sc2 nglob f1 f2 main args o1 o2,
  wf_prog p ->
  run_flat p sc1 nglob f1 main args = Some o1 ->
  run_flat p sc2 nglob f2 main args = Some o2 ->
  o1 = o2.
Proof.
  intros p sc1 sc2 nglob f1 f2 main args o1 o2 WF H1 H2. unfold run_flat in *.
  destruct (run_machine p sc1 f1 main args (w0 nglob)) as [x1|] eqn:E1; [|discriminate].
  destruct (run_machine p sc2 f2 main args (w0 nglob)) as [x2|] eqn:E2; [|discriminate].
  rewrite (schedules_agree _ _ _ _ _ _ _ _ _ _ WF E1 E2) in H1. congruence.
Qed.
