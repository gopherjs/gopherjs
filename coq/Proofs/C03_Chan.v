(* C03 — the channel queues of Model/C03_Chan.v: the invariants of a channel ([chan_ok]) and the registration of sleeping
   goroutines in the queues ([reg_ok]) hold in every reachable state of the repaired code; hence no wake-up is lost.
   Both are carried through a step by the rules [step_rules] ([reachable_rules]), as is the scheduler invariant of
   Proofs/C03_P4_Entries.v, which also reads the frames defined here.  The same statements are refuted on the code as
   it was. *)
From Coq Require Import List NArith ZArith Bool Arith Lia.
From RecordUpdate Require Import RecordSet.
From Verif Require Import Model.C03_Chan Model.C03_Spec Model.C03_Abs.
Import ListNotations RecordSetNotations.

(* F7 witness: main starts g1, yields; g1 sleeps in select { case c <- 5: }; main closes c. *)
Definition f7_prog : program :=
  {| p_caps := [0]; p_scripts := [[Go 1; Gosched; Close 1; Print 9%N]; [Select [CSend 1 5%N]; Print 3%N]] |}.
(* F6 witness: close of the nil channel *)
Definition f6_prog : program := {| p_caps := [0]; p_scripts := [[Close 0; Print 1%N]] |}.

Definition events_of (fx : variant) (p : program) : list (gid * event) :=
  rev (trace (run fx p 200 (init_state p [] []))).

Definition sowner (e : sentry) : gid := match e with SPlain g _ | SSel g _ _ => g end.
Definition rowner (e : rentry) : gid := match e with RPlain g | RSel g _ => g end.

Record chan_ok (ch : chanst) : Prop := {
  ok_buf : length (c_buf ch) <= c_cap ch;
  ok_recvq : c_recvq ch <> [] -> c_buf ch = [];
  ok_sendq : c_sendq ch <> [] -> length (c_buf ch) = c_cap ch;
  ok_closed : c_closed ch = true -> c_sendq ch = [] /\ c_recvq ch = [];
  ok_cross : forall se re, In se (c_sendq ch) -> In re (c_recvq ch) -> sowner se = rowner re;
  ok_nil : c_nil ch = true -> c_sendq ch = [] /\ c_recvq ch = [] /\ c_buf ch = [] /\ c_cap ch = 0;
  ok_ghost : c_acc ch = c_rcv ch ++ c_buf ch }.

Definition chans_ok (st : state) : Prop := Forall chan_ok (chans st).

(* ch' is ch with entries taken out of its queues; the lengths are what the fuel of $close's two loops is measured against,
   the last two clauses what Proofs/C03_P4_Entries.v reads *)
Record shrinks (ch ch' : chanst) : Prop := {
  sh_nil : c_nil ch' = c_nil ch; sh_cap : c_cap ch' = c_cap ch; sh_buf : c_buf ch' = c_buf ch;
  sh_closed : c_closed ch' = c_closed ch; sh_acc : c_acc ch' = c_acc ch; sh_rcv : c_rcv ch' = c_rcv ch;
  sh_sq : incl (c_sendq ch') (c_sendq ch); sh_rq : incl (c_recvq ch') (c_recvq ch);
  sh_sl : length (c_sendq ch') <= length (c_sendq ch); sh_rl : length (c_recvq ch') <= length (c_recvq ch);
  sh_snd : NoDup (c_sendq ch) -> NoDup (c_sendq ch'); sh_rnd : NoDup (c_recvq ch) -> NoDup (c_recvq ch') }.

Lemma incl_nonempty {A} (l l' : list A) : incl l' l -> l' <> [] -> l <> [].
Proof. intros H N E. subst. apply N. now apply incl_l_nil. Qed.

Lemma shrinks_refl ch : shrinks ch ch.
Proof. constructor; auto using incl_refl. Qed.

Lemma shrinks_trans a b c : shrinks a b -> shrinks b c -> shrinks a c.
Proof.
  intros [] []. constructor; try congruence; eauto using incl_tran; lia.
Qed.

Lemma shrinks_ok ch ch' : chan_ok ch -> shrinks ch ch' -> chan_ok ch'.
Proof.
  intros [] []. constructor.
  - congruence.
  - intros N. rewrite sh_buf0. apply ok_recvq0. eapply incl_nonempty; eauto.
  - intros N. rewrite sh_buf0, sh_cap0. apply ok_sendq0. eapply incl_nonempty; eauto.
  - intros C. rewrite sh_closed0 in C. destruct (ok_closed0 C) as [E1 E2]. rewrite E1 in sh_sq0. rewrite E2 in sh_rq0.
    split; now apply incl_l_nil.
  - intros se re Hs Hr. apply ok_cross0; auto.
  - intros C. rewrite sh_nil0 in C. destruct (ok_nil0 C) as (E1 & E2 & E3 & E4). rewrite E1 in sh_sq0. rewrite E2 in sh_rq0.
    repeat split; try congruence; now apply incl_l_nil.
  - congruence.
Qed.

Lemma pop_sendq_shrinks ch e q : c_sendq ch = e :: q -> shrinks ch (ch <| c_sendq := q |>).
Proof. intros E. constructor; simpl; rewrite ?E; simpl; auto using incl_refl, incl_tl. intros N. now apply NoDup_cons_iff in N. Qed.
Lemma pop_recvq_shrinks ch e q : c_recvq ch = e :: q -> shrinks ch (ch <| c_recvq := q |>).
Proof. intros E. constructor; simpl; rewrite ?E; simpl; auto using incl_refl, incl_tl. intros N. now apply NoDup_cons_iff in N. Qed.

Lemma buf_push_ok ch v : chan_ok ch -> c_recvq ch = [] -> length (c_buf ch) < c_cap ch ->
  chan_ok (ch <| c_buf := c_buf ch ++ [v] |> <| c_acc := c_acc ch ++ [v] |>).
Proof.
  intros [Hb Hr Hs Hc Hx Hn Hg] Er L. constructor; simpl; auto.
  - rewrite app_length. simpl. lia.
  - congruence.
  - intros Q. apply Hs in Q. lia.
  - intros Q. destruct (Hn Q) as (_ & _ & _ & Z). lia.
  - now rewrite Hg, app_assoc.
Qed.

Lemma buf_pop_ok ch x b : chan_ok ch -> c_sendq ch = [] -> c_buf ch = x :: b ->
  chan_ok (ch <| c_buf := b |> <| c_rcv := c_rcv ch ++ [x] |>).
Proof.
  intros [Hb Hr Hs Hc Hx Hn Hg] Es Eb. rewrite Eb in *. constructor; simpl in *; auto.
  - lia.
  - intros Q. apply Hr in Q. discriminate.
  - congruence.
  - intros Q. destruct (Hn Q) as (_ & _ & D & _). discriminate.
  - now rewrite Hg, <- app_assoc.
Qed.

Lemma pass_ok ch v : chan_ok ch -> c_buf ch = [] -> chan_ok (ch <| c_acc := c_acc ch ++ [v] |> <| c_rcv := c_rcv ch ++ [v] |>).
Proof. intros [Hb Hr Hs Hc Hx Hn Hg] B. constructor; simpl; auto. now rewrite Hg, B, !app_nil_r. Qed.

(* a receive meets a waiting sender, so the buffer is full: the sender's value goes to its tail, its head is received *)
Lemma rotate_ok ch v x b : chan_ok ch -> c_closed ch = false -> c_nil ch = false -> length (c_buf ch) = c_cap ch ->
  c_buf ch ++ [v] = x :: b ->
  chan_ok (ch <| c_buf := b |> <| c_acc := c_acc ch ++ [v] |> <| c_rcv := c_rcv ch ++ [x] |>).
Proof.
  intros [Hb Hr Hs Hc Hx Hn Hg] C N Full Eb.
  assert (L : length b = c_cap ch).
  { apply (f_equal (@length _)) in Eb. rewrite app_length in Eb. simpl in Eb. lia. }
  constructor; simpl.
  - lia.
  - intros Q. apply Hr in Q. rewrite Q in Full. rewrite <- Full in L. now destruct b.
  - auto.
  - congruence.
  - exact Hx.
  - congruence.
  - now rewrite Hg, <- !app_assoc, Eb.
Qed.

Lemma closed_ok ch ch' : chan_ok ch -> shrinks (ch <| c_closed := true |>) ch' -> c_sendq ch' = [] -> c_recvq ch' = [] ->
  chan_ok ch'.
Proof.
  intros [Hb Hr Hs Hc Hx Hn Hg] [Sn Sc Sb _ Sa Sr _ _ _ _] Es Er. simpl in *.
  constructor; rewrite ?Es, ?Er; auto; try congruence.
  - intros se re [].
  - intros Q. rewrite Sn in Q. destruct (Hn Q) as (_ & _ & B & Z). rewrite Sb, Sc. auto.
Qed.

Lemma upd_length {A} (l : list A) n x : length (upd l n x) = length l.
Proof. revert n; induction l; destruct n; simpl; auto. Qed.

Lemma nth_upd {A} (l : list A) n m x d : nth m (upd l n x) d = if Nat.eqb n m && Nat.ltb n (length l) then x else nth m l d.
Proof.
  revert n m; induction l as [|a l IH]; intros n m.
  - destruct n; simpl; rewrite ?andb_false_r; reflexivity.
  - destruct n, m; simpl; auto. rewrite IH. reflexivity.
Qed.

Lemma upd_upd {A} (l : list A) n a b : upd (upd l n a) n b = upd l n b.
Proof. revert n; induction l; intros [|n]; simpl; auto. now rewrite IHl. Qed.

Lemma map_upd {A B} (f : A -> B) l n x : map f (upd l n x) = upd (map f l) n (f x).
Proof. revert n; induction l; intros [|n]; simpl; auto. now rewrite IHl. Qed.

Lemma upd_same {A} (l : list A) n d : upd l n (nth n l d) = l.
Proof. revert n; induction l; intros [|n]; simpl; auto. now rewrite IHl. Qed.

Lemma upd_overflow {A} (l : list A) n x : length l <= n -> upd l n x = l.
Proof. revert n; induction l; intros [|n] L; simpl in *; auto; try lia. rewrite IHl; auto; lia. Qed.

Lemma nth_snoc {A} (l : list A) y h d : nth h (l ++ [y]) d = if Nat.eqb (length l) h then y else nth h l d.
Proof.
  destruct (Nat.eqb_spec (length l) h) as [<-|N]. { rewrite app_nth2, Nat.sub_diag; auto. }
  destruct (Nat.lt_ge_cases h (length l)). { now apply app_nth1. }
  rewrite !nth_overflow; auto. rewrite app_length. simpl. lia.
Qed.

Lemma Forall_upd {A} (P : A -> Prop) l n x : Forall P l -> P x -> Forall P (upd l n x).
Proof. intros H; revert n; induction H; intros [|n] Px; simpl; auto. Qed.

Lemma remove_first_incl {A} eqb (x : A) l : incl (remove_first eqb x l) l.
Proof. induction l; simpl. apply incl_refl. destruct (eqb x a). apply incl_tl, incl_refl. apply incl_cons. now left. now apply incl_tl. Qed.

Lemma remove_first_length {A} eqb (x : A) l : length (remove_first eqb x l) <= length l.
Proof. induction l; simpl; auto. destruct (eqb x a); simpl; lia. Qed.

Lemma sentry_eqb_eq a b : sentry_eqb a b = true -> a = b.
Proof. destruct a, b; simpl; try discriminate; rewrite ?andb_true_iff, ?Nat.eqb_eq, ?N.eqb_eq; intuition congruence. Qed.
Lemma rentry_eqb_eq a b : rentry_eqb a b = true -> a = b.
Proof. destruct a, b; simpl; try discriminate; rewrite ?andb_true_iff, ?Nat.eqb_eq; intuition congruence. Qed.

Lemma in_remove_first {A} eqb (x e : A) l : (forall a b, eqb a b = true -> a = b) -> In x l -> x <> e -> In x (remove_first eqb e l).
Proof.
  intros S. induction l; simpl; auto. intros [->|H] N.
  - destruct (eqb e x) eqn:E. apply S in E. congruence. now left.
  - destruct (eqb e a); auto. right. auto.
Qed.

Lemma rf_notin {A} eqb (x : A) l :
  (forall a b, eqb a b = true -> a = b) -> (forall a, eqb a a = true) -> NoDup l -> ~ In x (remove_first eqb x l).
Proof.
  intros S Rf. induction l as [|y t IH]; simpl; auto. intros ND. inversion ND; subst.
  destruct (eqb x y) eqn:E.
  - apply S in E. subst. assumption.
  - simpl. intros [->|H].
    + rewrite Rf in E. discriminate.
    + now apply IH.
Qed.

Lemma rf_nodup {A} eqb (x : A) l : NoDup l -> NoDup (remove_first eqb x l).
Proof.
  induction l as [|y t IH]; simpl; auto. intros ND. apply NoDup_cons_iff in ND as [Ny NDt]. destruct (eqb x y); auto.
  constructor; auto. intros H. apply Ny. eapply remove_first_incl; eauto.
Qed.

Lemma sentry_eqb_refl a : sentry_eqb a a = true.
Proof. destruct a; simpl; rewrite ?Nat.eqb_refl, ?N.eqb_refl; reflexivity. Qed.
Lemma rentry_eqb_refl a : rentry_eqb a a = true.
Proof. destruct a; simpl; rewrite ?Nat.eqb_refl; reflexivity. Qed.

Lemma nil_chan_ok : chan_ok nil_chan.
Proof. constructor; simpl; auto; try tauto; intros; try contradiction; try congruence. Qed.

Lemma get_chan_ok st c : chans_ok st -> chan_ok (get_chan st c).
Proof.
  unfold chans_ok, get_chan. intros H. destruct (Nat.lt_ge_cases c (length (chans st))).
  - eapply Forall_forall; eauto. now apply nth_In.
  - rewrite nth_overflow; auto using nil_chan_ok.
Qed.

Lemma chans_ok_pointwise st : chans_ok st <-> (forall c, chan_ok (get_chan st c)).
Proof.
  split. - intros H c. now apply get_chan_ok.
  - intros H. unfold chans_ok. apply Forall_forall. intros x Hx.
    destruct (In_nth _ _ nil_chan Hx) as (n & _ & E). rewrite <- E. apply H.
Qed.

Lemma set_chan_ok st c ch : chans_ok st -> chan_ok ch -> chans_ok (set_chan st c ch).
Proof. unfold chans_ok, set_chan. simpl. intros. now apply Forall_upd. Qed.

Lemma get_set_chan st c ch c' :
  get_chan (set_chan st c ch) c' = if Nat.eqb c c' && Nat.ltb c (length (chans st)) then ch else get_chan st c'.
Proof. unfold get_chan, set_chan. simpl. apply nth_upd. Qed.

Lemma set_chan_twice st c a b : set_chan (set_chan st c a) c b = set_chan st c b.
Proof. unfold set_chan. simpl. now rewrite upd_upd. Qed.

Lemma get_set_chan_same st c ch : c < length (chans st) -> get_chan (set_chan st c ch) c = ch.
Proof. intros L. rewrite get_set_chan, Nat.eqb_refl. apply Nat.ltb_lt in L. now rewrite L. Qed.

Lemma get_chan_overflow st c : length (chans st) <= c -> get_chan st c = nil_chan.
Proof. apply nth_overflow. Qed.

Lemma chans_schedule g st : chans (schedule g st) = chans st.
Proof. unfold schedule. destruct (g_asleep (get_g st g)); reflexivity. Qed.

Lemma ok_of_chans st st' : chans st' = chans st -> chans_ok st -> chans_ok st'.
Proof. unfold chans_ok. congruence. Qed.

Definition shrunk (st st' : state) : Prop :=
  length (chans st') = length (chans st) /\ forall c, shrinks (get_chan st c) (get_chan st' c).

Lemma shrunk_refl st : shrunk st st.
Proof. split; auto using shrinks_refl. Qed.

Lemma shrunk_trans a b c : shrunk a b -> shrunk b c -> shrunk a c.
Proof. intros [L1 S1] [L2 S2]. split; [congruence|eauto using shrinks_trans]. Qed.

Lemma shrunk_ok st st' : chans_ok st -> shrunk st st' -> chans_ok st'.
Proof. intros H [_ S]. apply chans_ok_pointwise. intros c. eapply shrinks_ok; [apply get_chan_ok|apply S]; auto. Qed.

Lemma set_chan_shrunk st c ch : shrinks (get_chan st c) ch -> shrunk st (set_chan st c ch).
Proof.
  intros H. split. { apply upd_length. }
  intros c'. rewrite get_set_chan. destruct (Nat.eqb_spec c c') as [<-|]; simpl; auto using shrinks_refl.
  destruct (_ <? _); auto using shrinks_refl.
Qed.

(* removeFromQueues is a sequence of single removals from single queues *)
Lemma remove_from_queues_ind (R : state -> state -> Prop) g :
  (forall st, R st st) -> (forall a b c, R a b -> R b c -> R a c) ->
  (forall st c i, R st (set_chan st c (get_chan st c <| c_recvq := remove_first rentry_eqb (RSel g i) (c_recvq (get_chan st c)) |>))) ->
  (forall st c i v, R st (set_chan st c (get_chan st c <| c_sendq := remove_first sentry_eqb (SSel g i v) (c_sendq (get_chan st c)) |>))) ->
  (forall cs i st, R st (remove_entries g cs i st)) /\ (forall st, R st (remove_from_queues g st)).
Proof.
  intros Rf Tr Hr Hs.
  assert (K : forall cs i st, R st (remove_entries g cs i st)).
  { induction cs as [|[|c|c v] r IH]; intros i st; simpl; eauto. }
  split; auto. intros st. unfold remove_from_queues. destruct (g_blocked (get_g st g)) as [[]|]; auto.
Qed.

(* st' differs from st in its channels, and in what no assertion inside a statement reads (oracles, log, timer ids,
   $totalGoroutines, $mainFinished) *)
Record fr (st st' : state) : Prop := {
  fr_gors : gors st' = gors st; fr_sch : scheduled st' = scheduled st; fr_tm : timers st' = timers st;
  fr_md : md st' = md st; fr_halt : halted st' = halted st; fr_aw : awake st' = awake st }.
Lemma fr_refl st : fr st st. Proof. now constructor. Qed.
Lemma fr_trans a b c : fr a b -> fr b c -> fr a c.
Proof. intros [] []. constructor; congruence. Qed.
Lemma fr_set_chan st c ch : fr st (set_chan st c ch).
Proof. now constructor. Qed.

Lemma remove_from_queues_fr g st : fr st (remove_from_queues g st).
Proof. apply remove_from_queues_ind; eauto using fr_refl, fr_trans, fr_set_chan. Qed.

Lemma remove_from_queues_shrunk g :
  (forall cs i st, shrunk st (remove_entries g cs i st)) /\ (forall st, shrunk st (remove_from_queues g st)).
Proof.
  apply remove_from_queues_ind; eauto using shrunk_refl, shrunk_trans; intros; apply set_chan_shrunk;
    constructor; simpl; auto using incl_refl, remove_first_incl, remove_first_length, rf_nodup.
Qed.

Lemma wake_up_shrunk g w st : shrunk st (wake_up g w st).
Proof.
  unfold wake_up, shrunk, get_chan. rewrite chans_schedule. apply (proj2 (remove_from_queues_shrunk g) st).
Qed.

(* a queue entry that fires wakes its owner: what it leaves for the owner's $blk, and the value a send entry hands over *)
Definition send_wake (e : sentry) (closed : bool) : wake :=
  match e with SPlain _ _ => WSend closed | SSel _ i _ => WSelSend i closed end.
Definition recv_wake (e : rentry) (v : val) (ok : bool) : wake :=
  match e with RPlain _ => WRecv v ok | RSel _ i => WSelRecv i v ok end.
Definition sval (e : sentry) : val := match e with SPlain _ v | SSel _ _ v => v end.

Lemma invoke_recv_entry_eq st e v ok : invoke_recv_entry st e v ok = wake_up (rowner e) (recv_wake e v ok) st.
Proof. now destruct e. Qed.

Lemma invoke_send_entry_eq fx st c e closed : fix_select_send fx = true ->
  invoke_send_entry fx st c e closed = SOk (wake_up (sowner e) (send_wake e closed) st) (sval e).
Proof. intros F. destruct e; simpl; now rewrite ?F. Qed.

Definition opres_state (r : opres) : state := match r with Done s | Blocked s | Panicked s _ => s end.

Lemma in_range_of_sendq st c : c_sendq (get_chan st c) <> [] -> c < length (chans st).
Proof. intros N. apply Nat.nle_gt. intros L. now rewrite get_chan_overflow in N. Qed.
Lemma in_range_of_recvq st c : c_recvq (get_chan st c) <> [] -> c < length (chans st).
Proof. intros N. apply Nat.nle_gt. intros L. now rewrite get_chan_overflow in N. Qed.

Lemma pop_wake_shrunk st c ch1 g w : c < length (chans st) -> shrinks (get_chan st c) ch1 ->
  shrunk st (wake_up g w (set_chan st c ch1)) /\ shrinks ch1 (get_chan (wake_up g w (set_chan st c ch1)) c).
Proof.
  intros R S1. pose proof (wake_up_shrunk g w (set_chan st c ch1)) as Sh. split.
  - eapply shrunk_trans; [apply set_chan_shrunk, S1|exact Sh].
  - rewrite <- (get_set_chan_same st c ch1 R) at 1. apply Sh.
Qed.

Lemma push_sendq_ok st c e : chans_ok st ->
  c_closed (get_chan st c) = false -> c_cap (get_chan st c) <= length (c_buf (get_chan st c)) ->
  (forall re, In re (c_recvq (get_chan st c)) -> sowner e = rowner re) -> chans_ok (push_sendq st c e).
Proof.
  intros H C L O. unfold push_sendq. destruct (c_nil (get_chan st c)) eqn:N; auto. apply set_chan_ok; auto.
  destruct (get_chan_ok st c H) as [Hb Hr Hs Hc Hx Hn Hg]. constructor; simpl; auto; try congruence.
  - intros _. lia.
  - intros se re Is Ir. apply in_app_or in Is. destruct Is as [Is|[<-|[]]]; auto.
Qed.

Lemma push_recvq_ok st c e : chans_ok st ->
  c_closed (get_chan st c) = false -> c_buf (get_chan st c) = [] ->
  (forall se, In se (c_sendq (get_chan st c)) -> sowner se = rowner e) -> chans_ok (push_recvq st c e).
Proof.
  intros H C B O. unfold push_recvq. destruct (c_nil (get_chan st c)) eqn:N; auto. apply set_chan_ok; auto.
  destruct (get_chan_ok st c H) as [Hb Hr Hs Hc Hx Hn Hg]. constructor; simpl; auto; try congruence.
  intros se re Is Ir. apply in_app_or in Ir. destruct Ir as [Ir|[<-|[]]]; auto.
Qed.

Lemma do_send_ok st g c v : chans_ok st -> chans_ok (opres_state (do_send st g c v)).
Proof.
  intros H. unfold do_send. pose proof (get_chan_ok st c H) as Hc. set (ch := get_chan st c) in *.
  destruct (c_closed ch) eqn:Ecl; simpl; auto.
  destruct (c_recvq ch) as [|e q] eqn:Erq.
  - destruct (Nat.ltb_spec (length (c_buf ch)) (c_cap ch)); simpl.
    + apply set_chan_ok; auto. now apply buf_push_ok.
    + apply push_sendq_ok; auto. fold ch. rewrite Erq. intros re [].
  - rewrite invoke_recv_entry_eq. eapply shrunk_ok; [|apply wake_up_shrunk]. apply set_chan_ok; auto.
    refine (pass_ok (ch <| c_recvq := q |>) v (shrinks_ok _ _ Hc (pop_recvq_shrinks ch e q Erq)) _).
    apply (ok_recvq _ Hc). rewrite Erq. discriminate.
Qed.

Definition rnow_state (r : rnow) : state := match r with RNow s _ _ | RWait s | RThrow s _ => s end.

(* $recv with a sender waiting: the sender is woken, then the buffer rotates as in [rotate_ok] *)
Lemma recv_now_sender fx st c e q st2 : fix_select_send fx = true -> c_sendq (get_chan st c) = e :: q ->
  st2 = wake_up (sowner e) (send_wake e false) (set_chan st c (get_chan st c <| c_sendq := q |>)) ->
  let ch2 := get_chan st2 c in
  exists x b, c_buf ch2 ++ [sval e] = x :: b /\
    recv_now fx st c
    = RNow (set_chan st2 c (ch2 <| c_buf := b |> <| c_acc := c_acc ch2 ++ [sval e] |> <| c_rcv := c_rcv ch2 ++ [x] |>)) x true.
Proof.
  intros F Esq E2 ch2.
  assert (R2 : c < length (chans st2)).
  { rewrite E2, (proj1 (wake_up_shrunk _ _ _)). unfold set_chan. simpl. rewrite upd_length.
    apply in_range_of_sendq. rewrite Esq. discriminate. }
  unfold recv_now. rewrite Esq, (invoke_send_entry_eq fx _ c e false F), <- E2. clear E2.
  rewrite get_set_chan_same by exact R2. fold ch2. simpl.
  destruct (c_buf ch2 ++ [sval e]) as [|x b] eqn:Eb. { now destruct (c_buf ch2). }
  exists x, b. split; [reflexivity|]. now rewrite set_chan_twice.
Qed.

Lemma recv_now_ok fx st c : fix_select_send fx = true -> chans_ok st -> chans_ok (rnow_state (recv_now fx st c)).
Proof.
  intros F H. pose proof (get_chan_ok st c H) as Hc.
  destruct (c_sendq (get_chan st c)) as [|e q] eqn:Esq.
  - unfold recv_now. rewrite Esq. destruct (c_buf (get_chan st c)) as [|x b] eqn:Eb.
    + destruct (c_closed (get_chan st c)); [destruct (c_nil (get_chan st c))|]; simpl; auto.
    + simpl. apply set_chan_ok; auto. now apply buf_pop_ok.
  - assert (Q : c_sendq (get_chan st c) <> []) by (rewrite Esq; discriminate).
    destruct (pop_wake_shrunk st c _ (sowner e) (send_wake e false) (in_range_of_sendq st c Q) (pop_sendq_shrinks _ e q Esq))
      as (Sh & [Sn Sc Sb Scl _ _ _ _ _ _]).
    destruct (recv_now_sender fx st c e q _ F Esq eq_refl) as (x & b & Eb & ->). simpl in *.
    pose proof (shrunk_ok _ _ H Sh) as K. apply set_chan_ok; auto.
    destruct Hc as [_ _ Hs Hcl _ Hn _]. refine (rotate_ok _ (sval e) x b (get_chan_ok _ c K) _ _ _ Eb).
    + rewrite Scl. destruct (c_closed (get_chan st c)); auto. now destruct Hcl.
    + rewrite Sn. destruct (c_nil (get_chan st c)); auto. now destruct Hn.
    + rewrite Sb, Sc. auto.
Qed.

Lemma recv_now_wait fx st c st1 : fix_select_send fx = true ->
  recv_now fx st c = RWait st1 ->
  st1 = st /\ c_sendq (get_chan st c) = [] /\ c_buf (get_chan st c) = [] /\ c_closed (get_chan st c) = false.
Proof.
  intros F. destruct (c_sendq (get_chan st c)) as [|e q] eqn:Esq.
  - unfold recv_now. rewrite Esq. destruct (c_buf (get_chan st c)); [|discriminate].
    destruct (c_closed (get_chan st c)); [destruct (c_nil (get_chan st c)); discriminate|].
    intros E. inversion E. auto.
  - destruct (recv_now_sender fx st c e q _ F Esq eq_refl) as (x & b & _ & ->). discriminate.
Qed.

Lemma close_senders_spec fx fuel st c : fix_select_send fx = true ->
  exists st' v, close_senders fx fuel st c = SOk st' v /\ shrunk st st' /\
                length (c_sendq (get_chan st' c)) <= length (c_sendq (get_chan st c)) - fuel.
Proof.
  intros F. revert st. induction fuel as [|f IH]; intros st; simpl.
  - exists st, 0%N. split; [reflexivity|]. split; [apply shrunk_refl|lia].
  - destruct (c_sendq (get_chan st c)) as [|e q] eqn:Esq.
    + exists st, 0%N. split; [reflexivity|]. split; [apply shrunk_refl|]. rewrite Esq. simpl. lia.
    + assert (R : c < length (chans st)) by (apply in_range_of_sendq; rewrite Esq; discriminate).
      rewrite (invoke_send_entry_eq fx _ c e true F).
      destruct (pop_wake_shrunk st c _ (sowner e) (send_wake e true) R (pop_sendq_shrinks _ e q Esq)) as (Sh & S2).
      destruct (IH (wake_up (sowner e) (send_wake e true) (set_chan st c (get_chan st c <| c_sendq := q |>))))
        as (st3 & v3 & E3 & Sh3 & L3).
      exists st3, v3. split; auto. split. { eauto using shrunk_trans. }
      simpl. etransitivity; [exact L3|]. apply Nat.sub_le_mono_r, (sh_sl _ _ S2).
Qed.

Lemma close_receivers_spec fuel st c :
  shrunk st (close_receivers fuel st c) /\
  length (c_recvq (get_chan (close_receivers fuel st c) c)) <= length (c_recvq (get_chan st c)) - fuel.
Proof.
  revert st. induction fuel as [|f IH]; intros st; simpl.
  - split; auto using shrunk_refl. lia.
  - destruct (c_recvq (get_chan st c)) as [|e q] eqn:Erq.
    + split; auto using shrunk_refl. rewrite ?Erq. simpl. lia.
    + assert (R : c < length (chans st)) by (apply in_range_of_recvq; rewrite Erq; discriminate).
      rewrite invoke_recv_entry_eq.
      destruct (pop_wake_shrunk st c _ (rowner e) (recv_wake e 0%N false) R (pop_recvq_shrinks _ e q Erq)) as (Sh & S2).
      destruct (IH (wake_up (rowner e) (recv_wake e 0%N false) (set_chan st c (get_chan st c <| c_recvq := q |>)))) as (Sh3 & L3).
      split. { eauto using shrunk_trans. }
      simpl. etransitivity; [exact L3|]. apply Nat.sub_le_mono_r, (sh_rl _ _ S2).
Qed.

Lemma do_close_ok fx st c : fix_select_send fx = true -> chans_ok st -> chans_ok (opres_state (do_close fx st c)).
Proof.
  intros F H. unfold do_close. pose proof (get_chan_ok st c H) as Hc. set (ch := get_chan st c) in *.
  destruct (fix_close_nil fx && c_nil ch); simpl; auto.
  destruct (c_closed ch) eqn:Ecl; simpl; auto.
  set (st1 := set_chan st c (ch <| c_closed := true |>)).
  destruct (close_senders_spec fx (length (c_sendq ch)) st1 c F) as (st2 & v2 & E2 & Sh2 & L2). rewrite E2. simpl.
  destruct (close_receivers_spec (length (c_recvq (get_chan st2 c))) st2 c) as (Sh3 & L3).
  set (st3 := close_receivers _ st2 c) in *.
  assert (Sh : shrunk st1 st3) by eauto using shrunk_trans.
  apply (proj2 (chans_ok_pointwise _)). intros c'.
  pose proof (proj2 Sh c') as S'. unfold st1 in S' at 1. rewrite get_set_chan in S'.
  (* another channel, or c out of range (so that nothing was set): its queues have only shrunk *)
  destruct (Nat.eqb_spec c c') as [Ec|N]; simpl in S'; [subst c'|].
  2:{ eapply shrinks_ok; [|exact S']. now apply get_chan_ok. }
  destruct (Nat.ltb_spec c (length (chans st))) as [R|R].
  2:{ eapply shrinks_ok; [|exact S']. now apply get_chan_ok. }
  (* the closed channel itself: the fuel given to either loop is the length of the queue, so both queues are empty *)
  assert (Q2 : c_sendq (get_chan st2 c) = []).
  { apply length_zero_iff_nil. unfold st1 in L2. rewrite get_set_chan_same in L2 by auto. simpl in L2. lia. }
  apply (closed_ok ch _ Hc S').
  - apply incl_l_nil. rewrite <- Q2. apply (proj2 Sh3 c).
  - apply length_zero_iff_nil. lia.
Qed.

Definition not_ready (st : state) (cm : comm) : Prop :=
  match cm with
  | CDefault => True
  | CRecv c => let ch := get_chan st c in c_sendq ch = [] /\ c_buf ch = [] /\ c_closed ch = false
  | CSend c v => let ch := get_chan st c in c_closed ch = false /\ c_recvq ch = [] /\ c_cap ch <= length (c_buf ch)
  end.

Lemma length_eqb0 {A} (l : list A) : negb (Nat.eqb (length l) 0) = false -> l = [].
Proof. destruct l; simpl; auto; discriminate. Qed.

Lemma sel_scan_none_ready st cs i sel ready s' :
  sel_scan st cs i sel ready = Some (s', []) -> ready = [] /\ Forall (not_ready st) cs.
Proof.
  revert i sel ready. induction cs as [|[|c|c v] r IH]; intros i sel ready; simpl.
  - intros E. inversion E. auto.
  - (* default *) intros E. apply IH in E. destruct E. split; auto. constructor; simpl; auto.
  - (* receive case: had it been ready, the ready list would not have ended empty *) destruct (_ || _ || _) eqn:B.
    + intros E. apply IH in E. destruct E as [E _]. now destruct ready.
    + intros E. apply IH in E. destruct E. split; auto. constructor; auto.
      apply orb_false_elim in B. destruct B as [B B3]. apply orb_false_elim in B. destruct B as [B1 B2].
      simpl. auto using length_eqb0.
  - (* send case *) destruct (c_closed (get_chan st c)) eqn:Ec; [discriminate|].
    destruct (_ || _) eqn:B.
    + intros E. apply IH in E. destruct E as [E _]. now destruct ready.
    + intros E. apply IH in E. destruct E. split; auto. constructor; auto.
      apply orb_false_elim in B. destruct B as [B1 B2]. simpl. repeat split; auto using length_eqb0.
      apply Nat.ltb_ge in B2. exact B2.
Qed.

(* a channel while a select of g registers: b is a with entries owned by g appended to its queues *)
Record grown (g : gid) (a b : chanst) : Prop := {
  gr_cap : c_cap b = c_cap a; gr_buf : c_buf b = c_buf a; gr_closed : c_closed b = c_closed a;
  gr_sq : exists l, c_sendq b = c_sendq a ++ l /\ Forall (fun e => sowner e = g) l;
  gr_rq : exists l, c_recvq b = c_recvq a ++ l /\ Forall (fun e => rowner e = g) l }.

Lemma grown_refl g a : grown g a a.
Proof. constructor; auto; exists []; rewrite app_nil_r; auto. Qed.

Lemma sel_register_ok g cs : forall i st0 st,
  Forall (not_ready st0) cs -> (forall c, grown g (get_chan st0 c) (get_chan st c)) -> chans_ok st ->
  chans_ok (sel_register g cs i st).
Proof.
  induction cs as [|[|c|c v] r IH]; intros i st0 st NR G K; simpl; auto.
  - (* default *) inversion NR; subst. eauto.
  - (* receive case: the send queue was empty before registration began, so every sender now queued is g itself *)
    inversion NR as [|? ? Hn NR']; subst. cbv zeta beta delta [not_ready] in Hn. destruct Hn as (Hs & Hb & Hc). apply IH with (st0 := st0); auto.
    + intros c'. unfold push_recvq. destruct (c_nil (get_chan st c)) eqn:En; auto.
      rewrite get_set_chan. destruct (Nat.eqb_spec c c') as [Ec|Ne]; simpl; auto.
      destruct (Nat.ltb_spec c (length (chans st))); auto. subst c'.
      destruct (G c). constructor; simpl; auto.
      destruct gr_rq0 as (l & E & F). exists (l ++ [RSel g i]). rewrite E, app_assoc. split; auto.
      apply Forall_app. split; auto.
    + destruct (G c) as [_ Gb Gc (l & E & Fl) _]. rewrite Hs in E. apply push_recvq_ok; [exact K|congruence|congruence|].
      intros se Hse. rewrite E in Hse. rewrite Forall_forall in Fl. simpl. auto.
  - (* send case, likewise *)
    inversion NR as [|? ? Hn NR']; subst. cbv zeta beta delta [not_ready] in Hn. destruct Hn as (Hc & Hr & Hb). apply IH with (st0 := st0); auto.
    + intros c'. unfold push_sendq. destruct (c_nil (get_chan st c)) eqn:En; auto.
      rewrite get_set_chan. destruct (Nat.eqb_spec c c') as [Ec|Ne]; simpl; auto.
      destruct (Nat.ltb_spec c (length (chans st))); auto. subst c'.
      destruct (G c). constructor; simpl; auto.
      destruct gr_sq0 as (l & E & F). exists (l ++ [SSel g i v]). rewrite E, app_assoc. split; auto.
      apply Forall_app. split; auto.
    + destruct (G c) as [Gcap Gb Gc _ (l & E & Fl)]. rewrite Hr in E. apply push_sendq_ok; [exact K|congruence|now rewrite Gb, Gcap|].
      intros re Hre. rewrite E in Hre. rewrite Forall_forall in Fl. simpl. symmetry. auto.
Qed.

(* a send that [sel_scan] found ready does not block *)
Definition send_ready (st : state) (cm : comm) : Prop :=
  match cm with
  | CSend c v => c_closed (get_chan st c) = false /\
                 (c_recvq (get_chan st c) <> [] \/ length (c_buf (get_chan st c)) < c_cap (get_chan st c))
  | _ => True
  end.

(* scanning the suffix cs (from position i) of cs0: the selection stays a default case of cs0, the ready list stays
   positions of cs0 whose send cases do not block *)
Lemma sel_scan_ready st cs0 : forall cs i sel ready s' r',
  (forall j, nth j cs CDefault = nth (i + j) cs0 CDefault) ->
  sel_scan st cs i sel ready = Some (s', r') ->
  (forall k, sel = Some k -> nth k cs0 CDefault = CDefault) -> Forall (fun j => send_ready st (nth j cs0 CDefault)) ready ->
  (forall k, s' = Some k -> nth k cs0 CDefault = CDefault) /\ Forall (fun j => send_ready st (nth j cs0 CDefault)) r'.
Proof.
  induction cs as [|cm r IH]; intros i sel ready s' r' Hn H Hs Hr; simpl in H. { inversion H; subst; auto. }
  assert (Hn' : forall j, nth j r CDefault = nth (S i + j) cs0 CDefault).
  { intros j. replace (S i + j) with (i + S j) by lia. apply (Hn (S j)). }
  pose proof (Hn 0) as Hi. rewrite Nat.add_0_r in Hi. simpl in Hi.
  assert (Ext : send_ready st cm -> Forall (fun j => send_ready st (nth j cs0 CDefault)) (ready ++ [i])).
  { intros Sr. apply Forall_app. split; auto. constructor; auto. now rewrite <- Hi. }
  destruct cm as [|c|c v].
  - eapply IH; eauto. intros k E. inversion E; subst. now rewrite <- Hi.
  - destruct (_ || _ || _) in H; eapply IH; eauto. now apply Ext.
  - destruct (c_closed (get_chan st c)) eqn:Ec; [discriminate|].
    destruct (_ || _) eqn:Er in H; eapply IH; eauto. apply Ext. split; auto.
    apply orb_true_iff in Er. destruct Er as [Er|Er].
    + left. intros E0. rewrite E0 in Er. discriminate.
    + right. now apply Nat.ltb_lt.
Qed.

(* pick_index k n = floor (r * n) for r = (2 * (k mod 60) + 1) / 120 < 1 *)
Lemma pick_index_lt k n : 0 < n -> pick_index k n < n.
Proof.
  intros. unfold pick_index. apply Nat.div_lt_upper_bound. lia. pose proof (Nat.mod_upper_bound k 60). nia.
Qed.

Lemma do_send_ready st g c v : send_ready st (CSend c v) -> forall s, do_send st g c v <> Blocked s.
Proof.
  intros (C & R) s. unfold do_send. rewrite C. destruct (c_recvq (get_chan st c)); [|discriminate].
  destruct R as [R|R]; [congruence|]. apply Nat.ltb_lt in R. rewrite R. discriminate.
Qed.

Lemma init_state_ok prog pk bk : chans_ok (init_state prog pk bk).
Proof.
  unfold init_state, chans_ok. simpl.
  constructor. apply nil_chan_ok. apply Forall_forall. intros x Hx. apply in_map_iff in Hx. destruct Hx as (cap & <- & _).
  constructor; simpl; auto; try tauto; try lia; intros; try contradiction; try congruence.
Qed.

Inductive reachable (fx : variant) (prog : program) : state -> Prop :=
| reach_init pk bk : reachable fx prog (init_state prog pk bk)
| reach_step st : reachable fx prog st -> reachable fx prog (impl_step fx prog st).

Lemma run_reachable fx prog fuel st : reachable fx prog st -> reachable fx prog (run fx prog fuel st).
Proof. revert st; induction fuel; intros st R; simpl; auto. destruct (final st); auto. apply IHfuel. now constructor. Qed.

(* short of blocking, the channel operations are made of three moves: a channel is replaced by one with the same
   queues; the head of the send queue, or of the receive queue, is shifted off and fired *)
Record moves (R : state -> state -> Prop) : Prop := {
  mv_refl : forall s, R s s;
  mv_trans : forall a b d, R a b -> R b d -> R a d;
  mv_set : forall s c ch, c_nil ch = c_nil (get_chan s c) -> c_sendq ch = c_sendq (get_chan s c) ->
           c_recvq ch = c_recvq (get_chan s c) -> R s (set_chan s c ch);
  mv_send : forall s c e q w, c_sendq (get_chan s c) = e :: q ->
            R s (wake_up (sowner e) w (set_chan s c (get_chan s c <| c_sendq := q |>)));
  mv_recv : forall s c e q w, c_recvq (get_chan s c) = e :: q ->
            R s (wake_up (rowner e) w (set_chan s c (get_chan s c <| c_recvq := q |>))) }.

Section Moves.
Variable R : state -> state -> Prop.
Hypothesis M : moves R.

Lemma do_send_moves st g c v :
  match do_send st g c v with
  | Done s | Panicked s _ => R st s
  | Blocked s => s = block g (BSend c v) (push_sendq st c (SPlain g v))
  end.
Proof.
  unfold do_send. destruct (c_closed (get_chan st c)). { apply M. }
  destruct (c_recvq (get_chan st c)) as [|e q] eqn:E.
  - destruct (_ <? _); [apply (mv_set _ M)|]; reflexivity.
  - (* $send writes the ghost fields and shifts the receiver off in one assignment: taken apart, the value first (the queues
       stay), then the shift alone, which is what [mv_recv] speaks of *)
    rewrite invoke_recv_entry_eq. set (ch := get_chan st c) in *.
    set (st0 := set_chan st c (ch <| c_acc := c_acc ch ++ [v] |> <| c_rcv := c_rcv ch ++ [v] |>)).
    assert (G : get_chan st0 c = ch <| c_acc := c_acc ch ++ [v] |> <| c_rcv := c_rcv ch ++ [v] |>).
    { apply get_set_chan_same, in_range_of_recvq. fold ch. rewrite E. discriminate. }
    replace (set_chan st c _) with (set_chan st0 c (get_chan st0 c <| c_recvq := q |>)).
    + apply (mv_trans _ M) with st0; [now apply (mv_set _ M)|]. apply (mv_recv _ M). now rewrite G.
    + rewrite G. unfold st0. now rewrite set_chan_twice.
Qed.

Lemma recv_now_moves fx st c : fix_select_send fx = true -> R st (rnow_state (recv_now fx st c)).
Proof.
  intros F. destruct (c_sendq (get_chan st c)) as [|e q] eqn:Esq.
  - unfold recv_now. rewrite Esq. destruct (c_buf (get_chan st c)) as [|x b].
    + destruct (c_closed (get_chan st c)); [destruct (c_nil (get_chan st c))|]; apply M.
    + now apply (mv_set _ M).
  - destruct (recv_now_sender fx st c e q _ F Esq eq_refl) as (x & b & _ & ->). simpl.
    eapply (mv_trans _ M); [|now apply (mv_set _ M)]. now apply (mv_send _ M).
Qed.

Lemma do_close_moves fx st c : fix_select_send fx = true -> R st (opres_state (do_close fx st c)).
Proof.
  intros F. destruct M as [Rf Tr St Sn Rc].
  assert (Ls : forall fuel s, R s (match close_senders fx fuel s c with SOk s' _ | SThrow s' _ => s' end)).
  { induction fuel as [|f IH]; intros s; simpl; auto.
    destruct (c_sendq (get_chan s c)) as [|e q] eqn:E; simpl; auto. rewrite (invoke_send_entry_eq fx _ c e true F).
    eapply Tr; [|apply IH]. now apply Sn. }
  assert (Lr : forall fuel s, R s (close_receivers fuel s c)).
  { induction fuel as [|f IH]; intros s; simpl; auto.
    destruct (c_recvq (get_chan s c)) as [|e q] eqn:E; simpl; auto. rewrite invoke_recv_entry_eq.
    eapply Tr; [|apply IH]. now apply Rc. }
  unfold do_close. destruct (_ && _); simpl; auto. destruct (c_closed (get_chan st c)); simpl; auto.
  pose proof (Ls (length (c_sendq (get_chan st c))) (set_chan st c (get_chan st c <| c_closed := true |>))) as K.
  assert (K0 : R st (set_chan st c (get_chan st c <| c_closed := true |>))) by now apply St.
  destruct (close_senders fx _ _ c); simpl in *; eauto.
Qed.

End Moves.

(* what the invariants read of a goroutine: neither its code nor the result left for its $blk *)
Definition vis (x : gor) : bool * bool * option blocked := (g_asleep x, g_exit x, g_blocked x).

(* st' is st after bookkeeping that no assertion inside a statement reads (log, code pointer, the consumed wake-up result,
   the pick oracle) *)
Record quiet (st st' : state) : Prop := {
  q_chans : chans st' = chans st; q_gors : map vis (gors st') = map vis (gors st);
  q_sch : scheduled st' = scheduled st; q_tm : timers st' = timers st; q_md : md st' = md st;
  q_halt : halted st' = halted st; q_aw : awake st' = awake st }.

Lemma quiet_set_g st g x : vis x = vis (get_g st g) -> quiet st (set_g st g x).
Proof.
  intros E. constructor; try reflexivity. simpl. rewrite map_upd, E. unfold get_g. rewrite <- (map_nth vis). apply upd_same.
Qed.

Lemma quiet_set_code g s st : quiet st (set_code g s st).
Proof. apply quiet_set_g. reflexivity. Qed.
Lemma quiet_log g e st : quiet st (log g e st).
Proof. now constructor. Qed.

Lemma quiet_vis st st' : map vis (gors st') = map vis (gors st) -> forall g, vis (get_g st' g) = vis (get_g st g).
Proof. intros G g. unfold get_g. now rewrite <- !(map_nth vis), G. Qed.

Lemma step_resume fx prog g st o rest w : g_code (get_g st g) = o :: rest -> g_wake (get_g st g) = Some w ->
  step_goroutine fx prog g st
  = set_code g (after_obs o rest (wake_event o w)) (log g (wake_event o w) (clear_wake g st)).
Proof.
  intros C Wk. unfold step_goroutine. rewrite C, Wk.
  destruct o, w; try reflexivity; try (destruct closed; reflexivity); try (destruct ok; reflexivity).
Qed.

(* What a step does, as rules for two assertions: [P] holds between steps, [Q a g] while control is inside a statement of
   goroutine g ([a]: g has put itself to sleep and is about to return to $goroutine).  An invariant of the model is proved
   by proving the rules: [reachable_rules].  The channel operations appear whole ([sr_send], [sr_recv], [sr_close]); [moves]
   breaks them down further for the invariants that do not read the buffers. *)
Section Rules.
Variables (fx : variant) (prog : program) (P : state -> Prop) (Q : bool -> gid -> state -> Prop).

Record step_rules : Prop := {
  sr_init : forall pk bk, P (init_state prog pk bk);
  sr_idle : forall s, P s -> halted s = None -> md s = MIdle -> P (fire_timer s);
  sr_pass : forall s, P s -> halted s = None -> md s = MPass ->
            P (match scheduled s with [] => end_pass s | g :: q => s <| scheduled := q |> <| md := MRun g |> end);
  sr_inside : forall g s, P s -> halted s = None -> md s = MRun g -> Q false g s;
  sr_leave : forall g s, Q false g s -> P s;
  sr_quiet : forall a g s s', quiet s s' -> Q a g s -> Q a g s';
  sr_send : forall g s c v, Q false g s ->
            match do_send s g c v with Done s' | Panicked s' _ => Q false g s' | Blocked s' => Q true g s' end;
  sr_recv : forall g s c, Q false g s -> Q false g (rnow_state (recv_now fx s c));
  sr_wait : forall g s c, Q false g s -> not_ready s (CRecv c) -> Q true g (block g (BRecv c) (push_recvq s c (RPlain g)));
  sr_close : forall g s c, Q false g s -> Q false g (opres_state (do_close fx s c));
  sr_register : forall g s cs, Q false g s -> Forall (not_ready s) cs -> Q true g (block g (BSel cs) (sel_register g cs 0 s));
  sr_spawn : forall g s k, Q false g s -> Q false g (spawn prog k s);
  sr_gosched : forall g s, Q false g s ->
               Q true g (block g BTimer (s <| awake := (awake s + 1)%Z |> <| timers := timers s ++ [TWake g] |>));
  sr_yield : forall g s, Q true g s -> P (yield g s);
  (* the goroutine sets its exit flag (its function returns, or Goexit) and goes to the finally block of $goroutine *)
  sr_exit : forall g s s', Q false g s -> fr (set_g s g (get_g s g <| g_exit := true |>)) s' -> chans s' = chans s ->
            P (yield g s') }.

Hypotheses (F : fix_select_send fx = true) (R : step_rules).

Lemma do_recv_rules g s c : Q false g s ->
  match do_recv fx s g c with RDone s' _ _ | RPanicked s' _ => Q false g s' | RBlocked s' => Q true g s' end.
Proof.
  intros H. unfold do_recv. pose proof (sr_recv R g s c H) as K.
  destruct (recv_now fx s c) as [s1 v ok|s1|s1 k] eqn:E; simpl in K; auto.
  destruct (recv_now_wait fx s c s1 F E) as (-> & NR). now apply (sr_wait R).
Qed.

(* $select throws at a send case on a closed channel; or it registers with every case and blocks, when no case is ready
   and there is no default; or it runs one case at once: the default, or a case found ready *)
Lemma do_select_rules g s cs : Q false g s ->
  match do_select fx s g cs with SelDone s' _ _ | SelPanicked s' _ | SelOdd s' => Q false g s' | SelBlocked s' => Q true g s' end.
Proof.
  intros H. unfold do_select. destruct (sel_scan s cs 0 None []) as [[selection ready]|] eqn:Sc; auto.
  destruct (sel_scan_ready s cs cs 0 None [] selection ready (fun j => eq_refl) Sc) as (Rs & Rd); [discriminate|constructor|].
  destruct ready as [|x ready].
  - destruct selection as [i|].
    + rewrite (Rs i eq_refl). exact H.
    + apply sel_scan_none_ready in Sc. now apply (sr_register R).
  - set (i := nth _ (x :: ready) 0). assert (Sr : send_ready s (nth i cs CDefault)).
    { apply (proj1 (Forall_forall _ _) Rd), nth_In, pick_index_lt. simpl; lia. }
    set (s1 := s <| picks := tl (picks s) |>).
    assert (H1 : Q false g s1) by (apply (sr_quiet R false g s); [now constructor|exact H]).
    destruct (nth i cs CDefault) as [|c|c v]; auto.
    + pose proof (sr_recv R g s1 c H1) as K. destruct (recv_now fx s1 c); exact K.
    + pose proof (sr_send R g s1 c v H1) as K. destruct (do_send s1 g c v) eqn:Ed; auto.
      exfalso. exact (do_send_ready s1 g c v Sr _ Ed).
Qed.

Lemma step_goroutine_rules g st : Q false g st -> P (step_goroutine fx prog g st).
Proof.
  intros H.
  assert (Fin : forall s c e, Q false g s -> P (set_code g c (log g e s))).
  { intros s c e Hs. apply (sr_leave R g). eauto using (sr_quiet R), quiet_set_code, quiet_log. }
  assert (Pan : forall s k, Q false g s -> P (panic_g g k s)) by (intros; now apply Fin).
  destruct (g_code (get_g st g)) as [|o rest] eqn:C.
  { unfold step_goroutine. rewrite C. apply (sr_exit R g st); auto; destruct (Nat.eqb g 0); now constructor. }
  destruct (g_wake (get_g st g)) as [w|] eqn:W.
  { rewrite (step_resume fx prog g st o rest w C W). apply Fin, (sr_quiet R false g st); auto. apply quiet_set_g. reflexivity. }
  unfold step_goroutine. rewrite C, W. destruct o as [c v|c|c|cs|c|k| | |v].
  - (* Send *) pose proof (sr_send R g st c v H) as K. destruct (do_send st g c v); auto using (sr_yield R).
  - (* Recv *) pose proof (do_recv_rules g st c H) as K. destruct (do_recv fx st g c); auto using (sr_yield R).
  - (* Close *) pose proof (sr_close R g st c H) as K. destruct (do_close fx st c); simpl in K; auto. now apply (sr_leave R g).
  - (* Select *) pose proof (do_select_rules g st cs H) as K. destruct (do_select fx st g cs); auto using (sr_yield R).
  - (* Range *) pose proof (do_recv_rules g st c H) as K. destruct (do_recv fx st g c); auto using (sr_yield R).
  - (* Go *) apply (sr_leave R g). eauto using (sr_quiet R), quiet_set_code, quiet_log, (sr_spawn R).
  - (* Gosched *) apply (sr_yield R), (sr_gosched R), H.
  - (* Goexit *) apply (sr_exit R g st); auto. now constructor.
  - (* Print *) now apply Fin.
Qed.

Lemma impl_step_rules st : P st -> P (impl_step fx prog st).
Proof.
  intros H. unfold impl_step. destruct (halted st) eqn:Hh; auto. destruct (md st) as [| |g] eqn:M.
  - now apply (sr_idle R).
  - now apply (sr_pass R).
  - apply step_goroutine_rules. now apply (sr_inside R).
Qed.

Theorem reachable_rules st : reachable fx prog st -> P st.
Proof. intros Rc. induction Rc; [apply (sr_init R)|now apply impl_step_rules]. Qed.

End Rules.

(* can this communication happen now, if goroutine g performs it?  (Go: ready to proceed) *)
Definition comm_enabled (st : state) (g : gid) (cm : comm) : Prop :=
  match cm with
  | CDefault => False
  | CSend c v => let ch := get_chan st c in
      c_nil ch = false /\ (c_closed ch = true \/ length (c_buf ch) < c_cap ch \/ exists re, In re (c_recvq ch) /\ rowner re <> g)
  | CRecv c => let ch := get_chan st c in
      c_nil ch = false /\ (c_closed ch = true \/ c_buf ch <> [] \/ exists se, In se (c_sendq ch) /\ sowner se <> g)
  end.

Definition blocked_enabled (st : state) (g : gid) (b : blocked) : Prop :=
  match b with
  | BSend c v => comm_enabled st g (CSend c v)
  | BRecv c => comm_enabled st g (CRecv c)
  | BSel cs => Exists (comm_enabled st g) cs
  | BTimer => False
  end.

Definition no_lost_wakeup_at (st : state) : Prop :=
  forall g b, g_blocked (get_g st g) = Some b -> ~ blocked_enabled st g b.

Lemma f7_lost_wakeup :
  let st := run as_is f7_prog 200 (init_state f7_prog [] []) in
  final st = true /\
  g_blocked (get_g st 1) = Some (BSel [CSend 1 5%N]) /\ blocked_enabled st 1 (BSel [CSend 1 5%N]) /\
  events_of as_is f7_prog = [(0, EvGo 1); (0, EvSched); (0, EvPanic PSendClosed)].
Proof. vm_compute. repeat split. constructor. split; auto. Qed.

Lemma f6_no_panic : events_of as_is f6_prog = [(0, EvClose); (0, EvPrint 1%N)].
Proof. reflexivity. Qed.

(* the queue invariant itself fails on the code as it is: two goroutines asleep in select-send, then close *)
Definition f7b_prog : program :=
  {| p_caps := [0]; p_scripts := [[Go 1; Go 1; Gosched; Close 1]; [Select [CSend 1 5%N]]] |}.

Lemma f7b_closed_queued :
  let ch := get_chan (run as_is f7b_prog 200 (init_state f7b_prog [] [])) 1 in c_closed ch = true /\ c_sendq ch <> [].
Proof. vm_compute. split; [reflexivity|discriminate]. Qed.

Lemma f7_invariant_broken : ~ chans_ok (run as_is f7b_prog 200 (init_state f7b_prog [] [])).
Proof.
  intros H. destruct f7b_closed_queued as [C Q]. destruct (ok_closed _ (get_chan_ok _ 1 H) C) as [E _]. exact (Q E).
Qed.

Lemma chan_invariants_refuted : exists prog st,
  reachable as_is prog st /\ ~ Forall (fun ch => c_closed ch = true -> c_sendq ch = [] /\ c_recvq ch = []) (chans st).
Proof.
  exists f7b_prog, (run as_is f7b_prog 200 (init_state f7b_prog [] [])). split.
  - apply run_reachable. constructor.
  - destruct f7b_closed_queued as [C Q]. unfold get_chan in C, Q.
    generalize dependent (chans (run as_is f7b_prog 200 (init_state f7b_prog [] []))). intros l C Q H.
    destruct (nth_in_or_default 1 l nil_chan) as [I|E].
    + rewrite Forall_forall in H. destruct (H _ I C) as [E _]. exact (Q E).
    + rewrite E in C. discriminate.
Qed.

Lemma no_lost_wakeup_refuted : ~ (forall prog st, reachable as_is prog st -> no_lost_wakeup_at st).
Proof.
  intros H. destruct f7_lost_wakeup as (_ & B & E & _).
  refine (H f7_prog _ _ 1 _ B E). apply run_reachable. constructor.
Qed.

Definition blk (st : state) (g : gid) : option blocked := g_blocked (get_g st g).
Definition sq (st : state) (c : cid) := c_sendq (get_chan st c).
Definition rq (st : state) (c : cid) := c_recvq (get_chan st c).
Definition isnil (st : state) (c : cid) := c_nil (get_chan st c).

Definition reg_ok (st : state) : Prop :=
  forall g b, blk st g = Some b ->
  match b with
  | BSend c v => isnil st c = false -> In (SPlain g v) (sq st c)
  | BRecv c => isnil st c = false -> In (RPlain g) (rq st c)
  | BSel cs => forall i cm, nth_error cs i = Some cm ->
               match cm with
               | CDefault => True
               | CSend c v => isnil st c = false -> In (SSel g i v) (sq st c)
               | CRecv c => isnil st c = false -> In (RSel g i) (rq st c)
               end
  | BTimer => True
  end.

(* st' is st after some goroutines were woken (their entries may be gone) and buffers/flags changed *)
Record wakes (st st' : state) : Prop := {
  wk_nil : forall c, isnil st' c = isnil st c;
  wk_blk : forall g, blk st' g = blk st g \/ blk st' g = None;
  wk_sq : forall c x, In x (sq st c) -> blk st' (sowner x) <> None -> In x (sq st' c);
  wk_rq : forall c x, In x (rq st c) -> blk st' (rowner x) <> None -> In x (rq st' c) }.

Lemma wakes_refl st : wakes st st.
Proof. constructor; auto. Qed.

Lemma wakes_trans a b c : wakes a b -> wakes b c -> wakes a c.
Proof.
  intros [n1 b1 s1 r1] [n2 b2 s2 r2]. constructor.
  - intros. now rewrite n2, n1.
  - intros g. destruct (b2 g) as [E|E]; rewrite E; auto.
  - intros ch x Hx Hb. apply s2; auto. apply s1; auto. destruct (b2 (sowner x)) as [E|E]; congruence.
  - intros ch x Hx Hb. apply r2; auto. apply r1; auto. destruct (b2 (rowner x)) as [E|E]; congruence.
Qed.

Lemma reg_ok_wakes st st' : reg_ok st -> wakes st st' -> reg_ok st'.
Proof.
  intros R [n b s r] g bl Hb.
  assert (Hb0 : blk st g = Some bl) by (destruct (b g) as [E|E]; congruence).
  (* g is still asleep in st', so its entries were kept *)
  specialize (R g bl Hb0). destruct bl as [c v|c|cs|]; auto.
  - intros N. rewrite n in N. apply s; auto. simpl. congruence.
  - intros N. rewrite n in N. apply r; auto. simpl. congruence.
  - intros i cm Hi. specialize (R i cm Hi). destruct cm as [|c|c v]; auto.
    + intros N. rewrite n in N. apply r; auto. simpl. congruence.
    + intros N. rewrite n in N. apply s; auto. simpl. congruence.
Qed.

Lemma get_set_g st g x g' :
  get_g (set_g st g x) g' = if Nat.eqb g g' && Nat.ltb g (length (gors st)) then x else get_g st g'.
Proof. unfold get_g, set_g. simpl. apply nth_upd. Qed.

Lemma get_set_g_same st g x : g < length (gors st) -> get_g (set_g st g x) g = x.
Proof. intros L. rewrite get_set_g, Nat.eqb_refl. apply Nat.ltb_lt in L. now rewrite L. Qed.

Lemma obs_set_g {A} (f : gor -> A) st g x g' : f x = f (get_g st g) -> f (get_g (set_g st g x) g') = f (get_g st g').
Proof. intros E. rewrite get_set_g. destruct (Nat.eqb_spec g g'); simpl; auto. destruct (_ <? _); subst; auto. Qed.

Lemma sq_set st c ch c' :
  sq (set_chan st c ch) c' = if Nat.eqb c c' && Nat.ltb c (length (chans st)) then c_sendq ch else sq st c'.
Proof. unfold sq. rewrite get_set_chan. destruct (_ && _); auto. Qed.
Lemma rq_set st c ch c' :
  rq (set_chan st c ch) c' = if Nat.eqb c c' && Nat.ltb c (length (chans st)) then c_recvq ch else rq st c'.
Proof. unfold rq. rewrite get_set_chan. destruct (_ && _); auto. Qed.

Lemma isnil_set st c ch c' : c_nil ch = isnil st c -> isnil (set_chan st c ch) c' = isnil st c'.
Proof. intros E. unfold isnil. rewrite get_set_chan. destruct (Nat.eqb_spec c c') as [<-|]; simpl; auto. destruct (_ <? _); auto. Qed.

Lemma blk_schedule g st g' : blk (schedule g st) g' = blk st g'.
Proof.
  unfold schedule, blk. destruct (g_asleep (get_g st g)) eqn:E; auto.
  change (get_g (_ <| scheduled := _ |>) g') with (get_g (set_g st g (get_g st g <| g_asleep := false |>)) g').
  now apply obs_set_g.
Qed.

Lemma get_chan_of_chans st st' : chans st' = chans st -> forall c, get_chan st' c = get_chan st c.
Proof. unfold get_chan. congruence. Qed.

Lemma get_g_of_gors st st' : gors st' = gors st -> forall g, get_g st' g = get_g st g.
Proof. unfold get_g. congruence. Qed.

Lemma dead_blk st g : length (gors st) <= g -> blk st g = None.
Proof. intros L. unfold blk, get_g. now rewrite nth_overflow. Qed.

(* b has the entries that a has of the goroutines in P *)
Definition keeps (P : gid -> Prop) (a b : state) : Prop :=
  (forall c, isnil b c = isnil a c) /\
  (forall c x, In x (sq a c) -> P (sowner x) -> In x (sq b c)) /\
  (forall c x, In x (rq a c) -> P (rowner x) -> In x (rq b c)).

Lemma keeps_refl P a : keeps P a a.
Proof. repeat split; auto. Qed.
Lemma keeps_trans P a b c : keeps P a b -> keeps P b c -> keeps P a c.
Proof. intros (N1 & S1 & R1) (N2 & S2 & R2). repeat split; intros; rewrite ?N2; auto. Qed.

Lemma set_chan_keeps (P : gid -> Prop) st c ch : c_nil ch = isnil st c ->
  (forall x, In x (sq st c) -> P (sowner x) -> In x (c_sendq ch)) ->
  (forall x, In x (rq st c) -> P (rowner x) -> In x (c_recvq ch)) -> keeps P st (set_chan st c ch).
Proof.
  intros N S R. repeat split.
  - intros c'. now apply isnil_set.
  - intros c' x H Px. rewrite sq_set. destruct (Nat.eqb_spec c c') as [<-|]; simpl; auto. destruct (_ <? _); auto.
  - intros c' x H Px. rewrite rq_set. destruct (Nat.eqb_spec c c') as [<-|]; simpl; auto. destruct (_ <? _); auto.
Qed.

Lemma remove_from_queues_keeps g st : keeps (fun h => h <> g) st (remove_from_queues g st).
Proof.
  apply remove_from_queues_ind; eauto using keeps_refl, keeps_trans; intros; apply set_chan_keeps; simpl; auto;
    intros x Hx Ne; apply in_remove_first; auto using rentry_eqb_eq, sentry_eqb_eq; now intros ->.
Qed.

Lemma wake_up_keeps g w st : keeps (fun h => h <> g) st (wake_up g w st).
Proof.
  assert (C : forall c, get_chan (wake_up g w st) c = get_chan (remove_from_queues g st) c).
  { intros c. apply get_chan_of_chans. unfold wake_up. now rewrite chans_schedule. }
  destruct (remove_from_queues_keeps g st) as (N & S & R). unfold keeps, isnil, sq, rq in *. now setoid_rewrite C.
Qed.

Lemma blk_wake_up g w st h : blk (wake_up g w st) h = if Nat.eqb g h then None else blk st h.
Proof.
  unfold wake_up. rewrite blk_schedule. unfold blk. rewrite get_set_g.
  rewrite !(get_g_of_gors _ _ (fr_gors _ _ (remove_from_queues_fr g st))).
  destruct (Nat.eqb_spec g h) as [<-|]; simpl; auto.
  destruct (Nat.ltb_spec g (length (gors (remove_from_queues g st)))) as [|L]; auto.
  rewrite (fr_gors _ _ (remove_from_queues_fr g st)) in L. now apply dead_blk.
Qed.

Lemma wakes_of_woken g a b : keeps (fun h => h <> g) a b -> (forall h, blk b h = if Nat.eqb g h then None else blk a h) ->
  wakes a b.
Proof.
  intros (N & S & R) B. constructor; auto.
  - intros h. rewrite B. destruct (Nat.eqb g h); auto.
  - intros c x Hx Hb. apply S; auto. intros E. apply Hb. now rewrite B, E, Nat.eqb_refl.
  - intros c x Hx Hb. apply R; auto. intros E. apply Hb. now rewrite B, E, Nat.eqb_refl.
Qed.

Lemma wake_up_wakes g w st : wakes st (wake_up g w st).
Proof. apply (wakes_of_woken g); [apply wake_up_keeps|apply blk_wake_up]. Qed.

Lemma wakes_of_keeps a b : keeps (fun _ => True) a b -> (forall h, blk b h = blk a h) -> wakes a b.
Proof. intros (N & S & R) B. constructor; auto. Qed.

Lemma pop_wakes st c ch1 g w : c_nil ch1 = c_nil (get_chan st c) ->
  (forall x, In x (sq st c) -> sowner x <> g -> In x (c_sendq ch1)) ->
  (forall x, In x (rq st c) -> rowner x <> g -> In x (c_recvq ch1)) ->
  wakes st (wake_up g w (set_chan st c ch1)).
Proof.
  intros N S R. apply (wakes_of_woken g); [|exact (blk_wake_up g w (set_chan st c ch1))].
  eapply keeps_trans; [apply set_chan_keeps|apply wake_up_keeps]; auto.
Qed.

(* the clause of [reg_ok] for one goroutine: g, about to sleep on b, has its entries in the queues *)
Definition has_entries (st : state) (g : gid) (b : blocked) : Prop :=
  match b with
  | BSend c v => isnil st c = false -> In (SPlain g v) (sq st c)
  | BRecv c => isnil st c = false -> In (RPlain g) (rq st c)
  | BSel cs => forall i cm, nth_error cs i = Some cm ->
               match cm with
               | CDefault => True
               | CSend c v => isnil st c = false -> In (SSel g i v) (sq st c)
               | CRecv c => isnil st c = false -> In (RSel g i) (rq st c)
               end
  | BTimer => True
  end.

Lemma block_reg g b st : reg_ok st -> has_entries st g b -> reg_ok (block g b st).
Proof.
  intros R H g' b' Hb. unfold blk, block in Hb. rewrite get_set_g in Hb.
  destruct (Nat.eqb_spec g g') as [<-|N]; simpl in Hb.
  - destruct (g <? length (gors st)).
    + simpl in Hb. inversion Hb; subst. exact H.
    + exact (R g b' Hb).
  - exact (R g' b' Hb).
Qed.

Lemma push_sendq_keeps P st c e : keeps P st (push_sendq st c e).
Proof.
  unfold push_sendq. destruct (c_nil (get_chan st c)) eqn:N; auto using keeps_refl.
  apply set_chan_keeps; simpl; auto. intros. apply in_or_app. now left.
Qed.
Lemma push_recvq_keeps P st c e : keeps P st (push_recvq st c e).
Proof.
  unfold push_recvq. destruct (c_nil (get_chan st c)) eqn:N; auto using keeps_refl.
  apply set_chan_keeps; simpl; auto. intros. apply in_or_app. now left.
Qed.

Lemma fr_push_sendq st c e : fr st (push_sendq st c e).
Proof. unfold push_sendq. destruct (c_nil _); now constructor. Qed.
Lemma fr_push_recvq st c e : fr st (push_recvq st c e).
Proof. unfold push_recvq. destruct (c_nil _); now constructor. Qed.

Lemma sel_register_keeps P g cs : forall i st, keeps P st (sel_register g cs i st) /\ fr st (sel_register g cs i st).
Proof.
  induction cs as [|[|c|c v] r IH]; intros i st; simpl; auto using keeps_refl, fr_refl.
  - destruct (IH (S i) (push_recvq st c (RSel g i))). eauto using keeps_trans, fr_trans, push_recvq_keeps, fr_push_recvq.
  - destruct (IH (S i) (push_sendq st c (SSel g i v))). eauto using keeps_trans, fr_trans, push_sendq_keeps, fr_push_sendq.
Qed.

Lemma blk_fr st st' : fr st st' -> forall g, blk st' g = blk st g.
Proof. intros [G] g. unfold blk. now rewrite (get_g_of_gors _ _ G). Qed.

Lemma push_sendq_wakes st c e : wakes st (push_sendq st c e).
Proof. apply wakes_of_keeps; [apply push_sendq_keeps|apply blk_fr, fr_push_sendq]. Qed.
Lemma push_recvq_wakes st c e : wakes st (push_recvq st c e).
Proof. apply wakes_of_keeps; [apply push_recvq_keeps|apply blk_fr, fr_push_recvq]. Qed.
Lemma sel_register_wakes g cs i st : wakes st (sel_register g cs i st).
Proof. destruct (sel_register_keeps (fun _ => True) g cs i st) as (K & F). exact (wakes_of_keeps _ _ K (blk_fr _ _ F)). Qed.

Lemma push_sendq_in st c e : isnil (push_sendq st c e) c = false -> In e (sq (push_sendq st c e) c).
Proof.
  unfold push_sendq, isnil, sq. destruct (c_nil (get_chan st c)) eqn:N. { congruence. }
  rewrite !get_set_chan, Nat.eqb_refl. simpl. destruct (Nat.ltb_spec c (length (chans st))) as [L|L]; simpl.
  - intros _. apply in_or_app. right. now left.
  - unfold get_chan. rewrite nth_overflow; auto. discriminate.
Qed.
Lemma push_recvq_in st c e : isnil (push_recvq st c e) c = false -> In e (rq (push_recvq st c e) c).
Proof.
  unfold push_recvq, isnil, rq. destruct (c_nil (get_chan st c)) eqn:N. { congruence. }
  rewrite !get_set_chan, Nat.eqb_refl. simpl. destruct (Nat.ltb_spec c (length (chans st))) as [L|L]; simpl.
  - intros _. apply in_or_app. right. now left.
  - unfold get_chan. rewrite nth_overflow; auto. discriminate.
Qed.

Lemma wakes_moves : moves wakes.
Proof.
  constructor.
  - apply wakes_refl.
  - apply wakes_trans.
  - (* mv_set *) intros s c ch N Es Er. apply wakes_of_keeps; auto.
    apply set_chan_keeps; auto; unfold sq, rq; intros; [rewrite Es|rewrite Er]; auto.
  - (* mv_send: the entry shifted off belongs to the goroutine woken *)
    intros s c e q w E. apply pop_wakes; auto. unfold sq. intros x Hx Ne.
    rewrite E in Hx. destruct Hx as [<-|Hx]; [now destruct Ne|exact Hx].
  - (* mv_recv *) intros s c e q w E. apply pop_wakes; auto. unfold rq. intros x Hx Ne.
    rewrite E in Hx. destruct Hx as [<-|Hx]; [now destruct Ne|exact Hx].
Qed.

Lemma do_send_reg st g c v : reg_ok st -> reg_ok (opres_state (do_send st g c v)).
Proof.
  intros Rg. pose proof (do_send_moves wakes wakes_moves st g c v) as K.
  destruct (do_send st g c v) as [s|s|s k]; simpl; eauto using reg_ok_wakes.
  subst s. apply block_reg; [eapply reg_ok_wakes; eauto using push_sendq_wakes|simpl; apply push_sendq_in].
Qed.

Lemma wakes_keeps_unconditionally st st' : wakes st st' -> (forall g, blk st' g = blk st g) ->
  (forall c x, In x (sq st c) -> blk st (sowner x) <> None -> In x (sq st' c)) /\
  (forall c x, In x (rq st c) -> blk st (rowner x) <> None -> In x (rq st' c)).
Proof. intros [n b s r] E. split; intros; [apply s|apply r]; auto; now rewrite E. Qed.

Lemma sel_register_entries g cs : forall i0 st i cm, nth_error cs i = Some cm ->
  match cm with
  | CDefault => True
  | CSend c v => isnil (sel_register g cs i0 st) c = false -> In (SSel g (i0 + i) v) (sq (sel_register g cs i0 st) c)
  | CRecv c => isnil (sel_register g cs i0 st) c = false -> In (RSel g (i0 + i)) (rq (sel_register g cs i0 st) c)
  end.
Proof.
  induction cs as [|cm0 r IH]; intros i0 st i cm Hi. { destruct i; discriminate. }
  destruct i as [|i].
  - simpl in Hi. inversion Hi; subst cm0. rewrite Nat.add_0_r. destruct cm as [|c|c v]; auto; simpl.
    + destruct (sel_register_keeps (fun _ => True) g r (S i0) (push_recvq st c (RSel g i0))) as ((n & s & rr) & _).
      intros N. apply rr; auto. apply push_recvq_in. now rewrite <- n.
    + destruct (sel_register_keeps (fun _ => True) g r (S i0) (push_sendq st c (SSel g i0 v))) as ((n & s & rr) & _).
      intros N. apply s; auto. apply push_sendq_in. now rewrite <- n.
  - simpl in Hi. replace (i0 + S i) with (S i0 + i) by lia.
    destruct cm0 as [|c0|c0 v0]; simpl; exact (IH (S i0) _ i cm Hi).
Qed.

(* scheduler bookkeeping does not touch queues or the blocked field *)
Definition same (st st' : state) : Prop := chans st' = chans st /\ forall g, blk st' g = blk st g.

Lemma same_trans a b c : same a b -> same b c -> same a c.
Proof. intros [C1 B1] [C2 B2]. split. congruence. intros. now rewrite B2, B1. Qed.

Lemma same_is_wakes st st' : same st st' -> wakes st st'.
Proof.
  intros [C B]. constructor; unfold isnil, sq, rq; intros; rewrite ?(get_chan_of_chans _ _ C); auto.
Qed.

Lemma same_gors st st' : chans st' = chans st -> gors st' = gors st -> same st st'.
Proof. intros C G. split; auto. intros g. unfold blk. now rewrite (get_g_of_gors _ _ G). Qed.

Lemma same_start_pass st : same st (start_pass st).
Proof. apply same_gors; reflexivity. Qed.
Lemma same_end_pass st : same st (end_pass st).
Proof. unfold end_pass. destruct (scheduled st); apply same_gors; reflexivity. Qed.
Lemma same_schedule g st : same st (schedule g st).
Proof. split. apply chans_schedule. intros. apply blk_schedule. Qed.

Lemma yield_fields g st :
  chans (yield g st) = chans st /\ trace (yield g st) = trace st /\
  (gors (yield g st) = gors st \/ gors (yield g st) = gors (set_g st g (get_g st g <| g_asleep := true |>))).
Proof.
  unfold yield. set (st1 := if g_exit (get_g st g) then _ else st).
  assert (E : chans st1 = chans st /\ trace st1 = trace st /\
              (gors st1 = gors st \/ gors st1 = gors (set_g st g (get_g st g <| g_asleep := true |>)))).
  { unfold st1. destruct (g_exit (get_g st g)); auto. }
  (* what follows sets other fields only *)
  clearbody st1. destruct (g_asleep (get_g st1 g)); cbn [andb]; [destruct (negb _ && _); [exact E|]|];
    (destruct (hd false _); [unfold end_pass; destruct (scheduled _)|]); exact E.
Qed.

Lemma same_yield g st : same st (yield g st).
Proof.
  destruct (yield_fields g st) as (C & _ & [G|G]); split; auto; intros g'; unfold blk; rewrite (get_g_of_gors _ _ G); auto.
  now apply obs_set_g.
Qed.

Lemma same_spawn prog k st : same st (spawn prog k st).
Proof.
  unfold spawn. eapply same_trans; [|apply same_schedule]. split; auto.
  intros g. unfold blk, get_g. simpl. rewrite nth_snoc. destruct (Nat.eqb_spec (length (gors st)) g) as [<-|]; auto.
  now rewrite (nth_overflow (gors st)) by apply le_n.
Qed.

Lemma init_state_reg prog pk bk : reg_ok (init_state prog pk bk).
Proof.
  intros g b Hb. unfold blk, init_state, get_g in Hb. simpl in Hb. destruct g as [|[|g]]; simpl in Hb; discriminate.
Qed.

Definition queues_ok (st : state) : Prop := chans_ok st /\ reg_ok st.

Lemma queues_ok_same st st' : same st st' -> queues_ok st -> queues_ok st'.
Proof. intros S [K R]. split. exact (ok_of_chans _ _ (proj1 S) K). eapply reg_ok_wakes; eauto using same_is_wakes. Qed.

Lemma queues_ok_block g b st : queues_ok st -> has_entries st g b -> queues_ok (block g b st).
Proof. intros [K R] H. split. exact K. now apply block_reg. Qed.

Lemma quiet_same st st' : quiet st st' -> same st st'.
Proof. intros Qt. split; [apply Qt|]. intros g. pose proof (quiet_vis _ _ (q_gors _ _ Qt) g) as E. unfold vis in E. now injection E. Qed.

Lemma queues_rules fx prog : fix_select_send fx = true -> step_rules fx prog queues_ok (fun _ _ => queues_ok).
Proof.
  intros F. constructor; auto.
  - (* sr_init *) split; auto using init_state_ok, init_state_reg.
  - (* sr_idle: a Gosched timer wakes its goroutine *)
    intros s Qs _ _. unfold fire_timer. destruct (timers s) as [|[id|g] ts]; auto.
    eapply queues_ok_same; [apply same_start_pass|]. destruct Qs as [K R]. split.
    + eapply shrunk_ok; [|apply wake_up_shrunk]. exact K.
    + eapply reg_ok_wakes; [|apply wake_up_wakes]. exact R.
  - (* sr_pass *) intros s Qs _ _. destruct (scheduled s); (eapply queues_ok_same; [|exact Qs]); [apply same_end_pass|apply same_gors; reflexivity].
  - (* sr_quiet *) intros _ _ s s' Qt. apply queues_ok_same, quiet_same, Qt.
  - (* sr_send *) intros g s c v [K R]. pose proof (conj (do_send_ok s g c v K) (do_send_reg s g c v R)) as K'.
    destruct (do_send s g c v); exact K'.
  - (* sr_recv *) intros _ s c [K R]. split; [now apply recv_now_ok|]. exact (reg_ok_wakes _ _ R (recv_now_moves wakes wakes_moves fx s c F)).
  - (* sr_wait *) intros g s c [K R] (Es & Eb & Ec). apply queues_ok_block.
    + split; [|eapply reg_ok_wakes; eauto using push_recvq_wakes]. apply push_recvq_ok; auto. rewrite Es. intros se [].
    + simpl. apply push_recvq_in.
  - (* sr_close *) intros _ s c [K R]. split; [now apply do_close_ok|]. exact (reg_ok_wakes _ _ R (do_close_moves wakes wakes_moves fx s c F)).
  - (* sr_register *) intros g s cs [K R] NR. apply queues_ok_block.
    + split.
      * apply sel_register_ok with (st0 := s); auto using grown_refl.
      * eapply reg_ok_wakes; eauto using sel_register_wakes.
    + simpl. intros i cm Hi. apply (sel_register_entries g cs 0 s i cm Hi).
  - (* sr_spawn *) intros _ s k. apply queues_ok_same, same_spawn.
  - (* sr_gosched *) intros g s Qs. apply queues_ok_block; simpl; auto.
  - (* sr_yield *) intros g s. apply queues_ok_same, same_yield.
  - (* sr_exit *) intros g s s' Qs F' C. apply (queues_ok_same s'); [apply same_yield|]. revert Qs. apply queues_ok_same. split; auto.
    intros h. rewrite (blk_fr _ _ F'). now apply obs_set_g.
Qed.

Theorem queues_ok_reachable fx prog st : fix_select_send fx = true -> reachable fx prog st -> queues_ok st.
Proof. intros F. apply (reachable_rules fx prog _ _ F (queues_rules fx prog F)). Qed.

Theorem chan_invariants fx prog st : fix_select_send fx = true -> reachable fx prog st -> chans_ok st.
Proof. intros F R. apply (queues_ok_reachable fx prog st F R). Qed.

Theorem registration fx prog st : fix_select_send fx = true -> reachable fx prog st -> reg_ok st.
Proof. intros F R. apply (queues_ok_reachable fx prog st F R). Qed.

(* a goroutine that is registered in a queue of a channel in good order cannot proceed on that channel: a closed channel
   has empty queues, a waiting sender a full buffer, a waiting receiver an empty one, and who waits on the other side
   is the goroutine itself (a select on both directions) *)
Lemma queues_ok_no_lost_wakeup st : queues_ok st -> no_lost_wakeup_at st.
Proof.
  intros [Inv R] g b Hb En. pose proof (R g b Hb) as Reg.
  assert (SendCase : forall c v e, In e (sq st c) -> sowner e = g -> comm_enabled st g (CSend c v) -> False).
  { intros c v e He Ho (N & [C|[L|(re & Hre & Ne)]]); pose proof (get_chan_ok st c Inv) as K; unfold sq in *.
    - destruct (ok_closed _ K C) as [Q _]. rewrite Q in He. contradiction.
    - assert (Q : c_sendq (get_chan st c) <> []) by (intros Q; rewrite Q in He; contradiction). apply (ok_sendq _ K) in Q. lia.
    - apply Ne. rewrite <- Ho. symmetry. now apply (ok_cross _ K). }
  assert (RecvCase : forall c e, In e (rq st c) -> rowner e = g -> comm_enabled st g (CRecv c) -> False).
  { intros c e He Ho (N & [C|[L|(se & Hse & Ne)]]); pose proof (get_chan_ok st c Inv) as K; unfold rq in *.
    - destruct (ok_closed _ K C) as [_ Q]. rewrite Q in He. contradiction.
    - apply L, (ok_recvq _ K). intros Q. rewrite Q in He. contradiction.
    - apply Ne. rewrite <- Ho. now apply (ok_cross _ K). }
  destruct b as [c v|c|cs|]; simpl in *; auto.
  - eapply SendCase; eauto. apply Reg. apply En. reflexivity.
  - eapply RecvCase; eauto. apply Reg. apply En. reflexivity.
  - apply Exists_exists in En. destruct En as (cm & Hin & En).
    destruct (In_nth_error _ _ Hin) as (i & Hi). specialize (Reg i cm Hi).
    destruct cm as [|c|c v]; simpl in *; auto.
    + eapply RecvCase; eauto. apply Reg. apply En. reflexivity.
    + eapply SendCase; eauto. apply Reg. apply En. reflexivity.
Qed.

Theorem no_lost_wakeup fx prog st : fix_select_send fx = true -> reachable fx prog st -> no_lost_wakeup_at st.
Proof. intros F R. apply queues_ok_no_lost_wakeup, (queues_ok_reachable fx prog st F R). Qed.

Lemma repaired_fix : fix_select_send repaired = true. Proof. reflexivity. Qed.
