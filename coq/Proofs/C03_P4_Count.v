(* C03 — counting for $awakeGoroutines: the goroutines that are not asleep and the pending Gosched timers
   ($setTimeout's token), and how the primitives of the scheduler move the two counts. *)
From Coq Require Import List NArith ZArith Bool Arith Lia.
From RecordUpdate Require Import RecordSet.
From Verif Require Import Model.C03_Chan.
Import ListNotations RecordSetNotations.

Definition is_twake (t : timer) : bool := match t with TWake _ => true | TRun _ => false end.
Definition count_awake (gs : list gor) : nat := length (filter (fun x => negb (g_asleep x)) gs).
Definition count_twake (ts : list timer) : nat := length (filter is_twake ts).
Definition count_inv (st : state) : Prop :=
  awake st = (Z.of_nat (count_awake (gors st)) + Z.of_nat (count_twake (timers st)))%Z.

(* what $awakeGoroutines has above the two counts: 0 between statements, 1 while a goroutine that has
   put itself to sleep ($block) has not yet returned to $goroutine's finally block *)
Definition bal (st : state) : Z :=
  (awake st - Z.of_nat (count_awake (gors st)) - Z.of_nat (count_twake (timers st)))%Z.

Lemma count_inv_bal st : count_inv st <-> bal st = 0%Z.
Proof. unfold count_inv, bal. lia. Qed.

Lemma count_awake_upd l : forall g x, g < length l ->
  count_awake (upd l g x) + Nat.b2n (negb (g_asleep (nth g l dead_gor))) = count_awake l + Nat.b2n (negb (g_asleep x)).
Proof.
  unfold count_awake. induction l as [|a l IH]; intros [|g] x L; simpl in *; try lia.
  - destruct (g_asleep a), (g_asleep x); simpl; lia.
  - specialize (IH g x ltac:(lia)). destruct (g_asleep a); simpl; lia.
Qed.

Lemma count_awake_app l x : count_awake (l ++ [x]) = count_awake l + Nat.b2n (negb (g_asleep x)).
Proof. unfold count_awake. rewrite filter_app, app_length. simpl. destruct (g_asleep x); simpl; lia. Qed.

Lemma count_twake_app ts t : count_twake (ts ++ [t]) = count_twake ts + Nat.b2n (is_twake t).
Proof. unfold count_twake. rewrite filter_app, app_length. destruct t; simpl; lia. Qed.

Lemma tw_remove_timer id ts : filter is_twake (remove_timer id ts) = filter is_twake ts.
Proof. induction ts as [|[i|g] ts IH]; simpl; auto. destruct (negb (i =? id)); simpl; auto. now rewrite IH. Qed.

Lemma count_awake_pos l g : g_asleep (nth g l dead_gor) = false -> 1 <= count_awake l.
Proof.
  unfold count_awake. revert g; induction l as [|a l IH]; intros [|g] H; simpl in *; try discriminate.
  - rewrite H. simpl. lia.
  - specialize (IH g H). destruct (g_asleep a); simpl; lia.
Qed.

Lemma count_awake_none l : (forall g, g < length l -> g_asleep (nth g l dead_gor) = true) -> count_awake l = 0.
Proof.
  unfold count_awake. induction l as [|a l IH]; simpl; intros H; auto.
  pose proof (H 0 ltac:(lia)) as H0. simpl in H0. rewrite H0. simpl. apply IH.
  intros g Hg. apply (H (S g)). lia.
Qed.

Lemma count_twake_zero ts : count_twake ts = 0 <-> forall g, ~ In (TWake g) ts.
Proof.
  unfold count_twake. induction ts as [|[i|k] ts IH]; simpl.
  - tauto.
  - rewrite IH. split; intros H g; [intros [E|E]; [discriminate|exact (H g E)] | intros E; exact (H g (or_intror E))].
  - split; [discriminate|]. intros H. destruct (H k). now left.
Qed.

Lemma bal_frame st st' :
  gors st' = gors st -> filter is_twake (timers st') = filter is_twake (timers st) -> awake st' = awake st -> bal st' = bal st.
Proof. unfold bal, count_twake. now intros -> -> ->. Qed.

Lemma bal_set_g st g x : g < length (gors st) ->
  (bal (set_g st g x) + Z.of_nat (Nat.b2n (g_asleep (get_g st g))) = bal st + Z.of_nat (Nat.b2n (g_asleep x)))%Z.
Proof.
  intros L. pose proof (count_awake_upd (gors st) g x L) as K. unfold bal, get_g in *. simpl.
  destruct (g_asleep x), (g_asleep (nth g (gors st) dead_gor)); simpl in *; lia.
Qed.
