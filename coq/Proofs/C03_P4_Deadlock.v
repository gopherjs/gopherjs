(* C03 — what the scheduler invariant (Proofs/C03_P4_Entries.v) says of $awakeGoroutines and of the deadlock report. *)
From Coq Require Import List NArith ZArith Bool Arith Lia.
From Verif Require Import Model.C03_Chan Proofs.C03_Chan Proofs.C03_P4_Entries Proofs.C03_P4_Count.
Import ListNotations.

Theorem counting_invariant fx prog st : fix_select_send fx = true -> reachable fx prog st -> count_inv st.
Proof. intros F R. apply count_inv_bal, (sched_ok_reachable fx prog st F R). Qed.

(* [halted] is written only by the finally block of $goroutine, when the count has reached zero *)
Theorem deadlock_report_sound fx prog st : fix_select_send fx = true -> reachable fx prog st ->
  halted st = Some ODeadlock -> awake st = 0%Z /\ main_finished st = false.
Proof. intros F R H. destruct (so_halt _ (sched_ok_reachable fx prog st F R)) as [N|(_ & _ & A & M)]; [congruence|auto]. Qed.

(* the report is made exactly at count zero outside the goroutines with main unfinished: no goroutine awake, no Gosched
   timer pending *)
Lemma deadlock_report_exact st : sched_ok st ->
  (halted st = Some ODeadlock <->
   main_finished st = false /\ (forall g, ~ In (TWake g) (timers st)) /\
   (forall g, g < length (gors st) -> g_asleep (get_g st g) = true) /\ md st = MIdle).
Proof.
  intros [_ _ B Hh P]. unfold bal in B. split.
  - intros Hd. destruct Hh as [Hn|(_ & Md & A & Mf)]; [congruence|]. repeat split; auto.
    + apply count_twake_zero. lia.
    + intros g _. destruct (g_asleep (get_g st g)) eqn:E; auto. apply count_awake_pos in E. lia.
  - intros (Mf & Tw & As & Md). destruct Hh as [Hn|(Hd & _)]; auto. exfalso.
    assert (P1 : (1 <= awake st)%Z). { apply P; auto. intros g. congruence. }
    apply count_twake_zero in Tw. rewrite Tw, (count_awake_none (gors st) As) in B. lia.
Qed.
