(* C03 — the scheduler invariant [sched_ok]: queue entries, run queue, timers and $awakeGoroutines.
   Converse of [reg_ok] (Proofs/C03_Chan.v): every entry in a channel queue is the registration of a
   goroutine that is asleep on exactly that operation; queues and $scheduled are duplicate-free; the
   goroutine inside which control is, is awake; $awakeGoroutines counts the goroutines that are not asleep
   and the pending Gosched timers; the deadlock report is made exactly when that count reaches zero.
   It is an instance of [step_rules] ([sched_rules]), with [mid] as the assertion inside a statement. *)
From Verif Require Import Base.Lists Model.C03_Chan Proofs.C03_Chan Proofs.C03_P4_Count.
From Coq Require Import List NArith ZArith Bool Arith Lia.
From RecordUpdate Require Import RecordSet.
Import ListNotations RecordSetNotations.

Definition sentry_ok (st : state) (c : cid) (e : sentry) : Prop :=
  match e with
  | SPlain g v => blk st g = Some (BSend c v)
  | SSel g i v => exists cs, blk st g = Some (BSel cs) /\ nth_error cs i = Some (CSend c v)
  end.
Definition rentry_ok (st : state) (c : cid) (e : rentry) : Prop :=
  match e with
  | RPlain g => blk st g = Some (BRecv c)
  | RSel g i => exists cs, blk st g = Some (BSel cs) /\ nth_error cs i = Some (CRecv c)
  end.
Definition ent_ok (st : state) : Prop :=
  forall c, (forall e, In e (sq st c) -> sentry_ok st c e) /\ (forall e, In e (rq st c) -> rentry_ok st c e) /\
            NoDup (sq st c) /\ NoDup (rq st c).

Definition asl (st : state) (g : gid) : bool := g_asleep (get_g st g).

Definition run_ok (st : state) : Prop :=
  (forall g, g_blocked (get_g st g) <> None -> g_asleep (get_g st g) = true) /\
  (forall g, In g (scheduled st) -> g < length (gors st) /\ g_asleep (get_g st g) = false) /\
  NoDup (scheduled st) /\
  (halted st = None -> forall g, md st = MRun g -> g < length (gors st) /\ g_asleep (get_g st g) = false /\ ~ In g (scheduled st)) /\
  (forall g, In (TWake g) (timers st) -> blk st g = Some BTimer) /\
  NoDup (filter (fun t => match t with TWake _ => true | _ => false end) (timers st)).

(* [ent_ok] and the state-wide clauses of [run_ok] field by field, and [i_ex]: a goroutine that has exited sleeps for good *)
Record inv (st : state) : Prop := {
  i_s : forall c e, In e (sq st c) -> sentry_ok st c e;
  i_r : forall c e, In e (rq st c) -> rentry_ok st c e;
  i_nds : forall c, NoDup (sq st c);
  i_ndr : forall c, NoDup (rq st c);
  i_ba : forall g, blk st g <> None -> asl st g = true;
  i_sch : forall g, In g (scheduled st) -> g < length (gors st) /\ asl st g = false;
  i_nd : NoDup (scheduled st);
  i_tm : forall g, In (TWake g) (timers st) -> blk st g = Some BTimer;
  i_tnd : NoDup (filter is_twake (timers st));
  i_ex : forall g, g_exit (get_g st g) = true -> asl st g = true /\ blk st g = None }.

(* control is inside goroutine r, which has been shifted off $scheduled *)
Definition running (st : state) (r : gid) : Prop :=
  md st = MRun r /\ r < length (gors st) /\ ~ In r (scheduled st).

Lemma shrunk_incl st st' c : shrunk st st' -> incl (sq st' c) (sq st c) /\ incl (rq st' c) (rq st c).
Proof. intros [_ S]. split; apply (S c). Qed.

Definition nodups (st : state) : Prop := forall c, NoDup (sq st c) /\ NoDup (rq st c).
Lemma nodups_shrunk st st' : shrunk st st' -> nodups st -> nodups st'.
Proof. intros [_ S] N c. destruct (N c). split; [apply (sh_snd _ _ (S c))|apply (sh_rnd _ _ (S c))]; auto. Qed.

(* the entries of the select are gone: each is removed from a duplicate-free queue, and what follows only removes *)
Lemma remove_entries_gone g cs : forall i st j cm, nodups st -> nth_error cs j = Some cm ->
  match cm with
  | CDefault => True
  | CSend c v => ~ In (SSel g (i + j) v) (sq (remove_entries g cs i st) c)
  | CRecv c => ~ In (RSel g (i + j)) (rq (remove_entries g cs i st) c)
  end.
Proof.
  induction cs as [|hd r IH]; intros i st [|j] cm ND Hj; try discriminate; simpl in Hj.
  - injection Hj as ->. rewrite Nat.add_0_r. destruct cm as [|c|c v]; simpl; auto; intros H;
      apply (shrunk_incl _ _ c (proj1 (remove_from_queues_shrunk g) _ _ _)) in H.
    + rewrite rq_set, Nat.eqb_refl in H. destruct (Nat.ltb_spec c (length (chans st))); simpl in H.
      * revert H. apply rf_notin; auto using rentry_eqb_eq, rentry_eqb_refl. apply ND.
      * unfold rq in H. now rewrite get_chan_overflow in H.
    + rewrite sq_set, Nat.eqb_refl in H. destruct (Nat.ltb_spec c (length (chans st))); simpl in H.
      * revert H. apply rf_notin; auto using sentry_eqb_eq, sentry_eqb_refl. apply ND.
      * unfold sq in H. now rewrite get_chan_overflow in H.
  - rewrite Nat.add_succ_r. destruct hd as [|c|c v]; simpl; apply (IH (S i) _ j cm); auto; revert ND; apply nodups_shrunk.
    + exact (proj1 (remove_from_queues_shrunk g) [CRecv c] i st).
    + exact (proj1 (remove_from_queues_shrunk g) [CSend c v] i st).
Qed.

Definition no_entries (st : state) (g : gid) : Prop :=
  forall c, (forall e, In e (sq st c) -> sowner e <> g) /\ (forall e, In e (rq st c) -> rowner e <> g).

(* after removeFromQueues of g no queue holds an entry of g: those of its select are removed, and a goroutine that
   sleeps on a plain operation has no entry left once the caller has shifted its one entry off the queue *)
Lemma remove_from_queues_clears g st : inv st -> ((forall cs, blk st g <> Some (BSel cs)) -> no_entries st g) ->
  no_entries (remove_from_queues g st) g.
Proof.
  intros I NE c. assert (ND : nodups st) by (intros c'; split; apply I).
  destruct (shrunk_incl _ _ c (proj2 (remove_from_queues_shrunk g) st)) as (Qs & Qr).
  assert (D : (exists cs, blk st g = Some (BSel cs)) \/ (forall cs, blk st g <> Some (BSel cs))).
  { destruct (blk st g) as [[| |cs|]|]; eauto; right; intros; discriminate. }
  destruct D as [(cs & Bg)|D]; [|split; intros e He; [apply (proj1 (NE D c)), Qs|apply (proj2 (NE D c)), Qr]; exact He].
  assert (Gone := fun j cm => remove_entries_gone g cs 0 st j cm ND).
  unfold remove_from_queues in *. unfold blk in Bg. rewrite Bg in *. split; intros e He Eg.
  - pose proof (i_s _ I c e (Qs e He)) as Ok. destruct e as [g0 v|g0 i v]; simpl in Eg, Ok; subst g0; unfold blk in Ok; [congruence|].
    destruct Ok as (cs' & B' & Hn). rewrite Bg in B'. injection B' as <-. exact (Gone i _ Hn He).
  - pose proof (i_r _ I c e (Qr e He)) as Ok. destruct e as [g0|g0 i]; simpl in Eg, Ok; subst g0; unfold blk in Ok; [congruence|].
    destruct Ok as (cs' & B' & Hn). rewrite Bg in B'. injection B' as <-. exact (Gone i _ Hn He).
Qed.

Lemma sentry_ok_tr st st' c e : blk st' (sowner e) = blk st (sowner e) -> sentry_ok st c e -> sentry_ok st' c e.
Proof. destruct e; simpl; intros ->; auto. Qed.
Lemma rentry_ok_tr st st' c e : blk st' (rowner e) = blk st (rowner e) -> rentry_ok st c e -> rentry_ok st' c e.
Proof. destruct e; simpl; intros ->; auto. Qed.

Lemma tw_in a b g : filter is_twake a = filter is_twake b -> In (TWake g) a -> In (TWake g) b.
Proof.
  intros E H. assert (Hf : In (TWake g) (filter is_twake a)) by (apply filter_In; split; auto).
  rewrite E in Hf. now apply filter_In in Hf.
Qed.

(* the goroutines keep what the invariant reads of them, and the entries of st' are sound for st.  The lemmas down to
   [inv_shrunk] are its special cases *)
Lemma inv_q st st' : map vis (gors st') = map vis (gors st) ->
  scheduled st' = scheduled st -> filter is_twake (timers st') = filter is_twake (timers st) ->
  (forall c e, In e (sq st' c) -> sentry_ok st c e) -> (forall c e, In e (rq st' c) -> rentry_ok st c e) ->
  (forall c, NoDup (sq st' c)) -> (forall c, NoDup (rq st' c)) -> inv st -> inv st'.
Proof.
  intros G S T Hs Hr Ns Nr I.
  assert (V : forall g, asl st' g = asl st g /\ g_exit (get_g st' g) = g_exit (get_g st g) /\ blk st' g = blk st g).
  { intros g. pose proof (quiet_vis _ _ G g) as E. unfold vis in E. injection E as E1 E2 E3. auto. }
  constructor; auto.
  - (* i_s *) intros c e He. apply sentry_ok_tr with st; auto. apply V.
  - (* i_r *) intros c e He. apply rentry_ok_tr with st; auto. apply V.
  - (* i_ba *) intros g. destruct (V g) as (-> & _ & ->). apply I.
  - (* i_sch *) intros g. rewrite S, <- (map_length vis), G, map_length. destruct (V g) as (-> & _). apply I.
  - (* i_nd *) rewrite S. apply I.
  - (* i_tm *) intros g Hg. destruct (V g) as (_ & _ & ->). apply I, (tw_in _ _ g T), Hg.
  - (* i_tnd *) rewrite T. apply I.
  - (* i_ex *) intros g. destruct (V g) as (-> & -> & ->). apply I.
Qed.

Lemma inv_g st st' : chans st' = chans st -> map vis (gors st') = map vis (gors st) ->
  scheduled st' = scheduled st -> filter is_twake (timers st') = filter is_twake (timers st) -> inv st -> inv st'.
Proof.
  intros C G S T I.
  assert (SQ : forall c, sq st' c = sq st c) by (intros; unfold sq; now rewrite (get_chan_of_chans _ _ C)).
  assert (RQ : forall c, rq st' c = rq st c) by (intros; unfold rq; now rewrite (get_chan_of_chans _ _ C)).
  apply inv_q with st; auto; intros c; rewrite ?SQ, ?RQ; apply I.
Qed.

Lemma inv_triv st st' : chans st' = chans st -> gors st' = gors st -> scheduled st' = scheduled st ->
  filter is_twake (timers st') = filter is_twake (timers st) -> inv st -> inv st'.
Proof. intros C G. apply inv_g; auto. now rewrite G. Qed.

Lemma inv_fr st st' : fr st st' ->
  (forall c e, In e (sq st' c) -> sentry_ok st c e) -> (forall c e, In e (rq st' c) -> rentry_ok st c e) ->
  (forall c, NoDup (sq st' c)) -> (forall c, NoDup (rq st' c)) -> inv st -> inv st'.
Proof. intros [G S T]. apply inv_q; auto; congruence. Qed.

Lemma inv_shrunk st st' : fr st st' -> shrunk st st' -> inv st -> inv st'.
Proof.
  intros F Q I. apply inv_fr with st; auto.
  - intros c e He. apply I. now apply (shrunk_incl _ _ c Q).
  - intros c e He. apply I. now apply (shrunk_incl _ _ c Q).
  - intros c. apply (sh_snd _ _ (proj2 Q c)), I.
  - intros c. apply (sh_rnd _ _ (proj2 Q c)), I.
Qed.

(* the list of goroutines is replaced by one that reads x at g and is as before elsewhere ([set_g], or the append of $go at
   g = length, where [get_g] read [dead_gor] before): the clauses that mention g are checked for x *)
Lemma inv_slot st gs g x : inv st -> length (gors st) <= length gs ->
  (forall h, nth h gs dead_gor = if Nat.eqb g h then x else get_g st h) ->
  (g_blocked x = blk st g \/ no_entries st g) ->
  (g_blocked x <> None -> g_asleep x = true) ->
  (In g (scheduled st) -> g_asleep x = false) ->
  (In (TWake g) (timers st) -> g_blocked x = Some BTimer) ->
  (g_exit x = true -> g_asleep x = true /\ g_blocked x = None) -> inv (st <| gors := gs |>).
Proof.
  intros I Ln G E Ba Sc Tm Ex. set (st' := st <| gors := gs |>).
  change (forall h, get_g st' h = if Nat.eqb g h then x else get_g st h) in G.
  assert (Bs : forall h, blk st' h = blk st h \/ (h = g /\ no_entries st g)).
  { intros h. unfold blk at 1. rewrite G. destruct (Nat.eqb_spec g h) as [<-|]; auto. destruct E; auto. }
  constructor; try apply I.
  - intros c e He. destruct (Bs (sowner e)) as [B|(Eo & NE)]. { apply sentry_ok_tr with st; auto. apply I, He. }
    destruct (proj1 (NE c) e He Eo).
  - intros c e He. destruct (Bs (rowner e)) as [B|(Eo & NE)]. { apply rentry_ok_tr with st; auto. apply I, He. }
    destruct (proj2 (NE c) e He Eo).
  - intros h. unfold blk, asl. rewrite G. destruct (Nat.eqb_spec g h); auto. apply I.
  - intros h Hh. destruct (i_sch _ I h Hh) as (Lh & Ah). split; [simpl; lia|]. unfold asl. rewrite G.
    destruct (Nat.eqb_spec g h) as [<-|]; auto.
  - intros h Hh. unfold blk. rewrite G. destruct (Nat.eqb_spec g h) as [<-|]; auto. apply I, Hh.
  - intros h. unfold blk, asl. rewrite G. destruct (Nat.eqb_spec g h); auto. apply I.
Qed.

Lemma inv_set_g st g x : inv st -> g < length (gors st) ->
  (g_blocked x = blk st g \/ no_entries st g) ->
  (g_blocked x <> None -> g_asleep x = true) ->
  (In g (scheduled st) -> g_asleep x = false) ->
  (In (TWake g) (timers st) -> g_blocked x = Some BTimer) ->
  (g_exit x = true -> g_asleep x = true /\ g_blocked x = None) -> inv (set_g st g x).
Proof.
  intros I L. apply (inv_slot st (upd (gors st) g x)); auto. { now rewrite upd_length. }
  intros h. apply Nat.ltb_lt in L. now rewrite nth_upd, L, andb_true_r.
Qed.

Lemma wake_up_eq g w st : g < length (gors st) -> asl st g = true ->
  wake_up g w st =
  remove_from_queues g st
    <| gors := upd (gors st) g (get_g st g <| g_wake := Some w |> <| g_blocked := None |> <| g_asleep := false |>) |>
    <| awake := (awake st + 1)%Z |> <| scheduled := scheduled st ++ [g] |>.
Proof.
  intros L A. destruct (remove_from_queues_fr g st) as [G S _ _ _ Aw].
  unfold wake_up. set (st1 := remove_from_queues g st) in *.
  assert (E : get_g st1 g = get_g st g) by (unfold get_g; now rewrite G).
  apply Nat.ltb_lt in L. unfold schedule. rewrite get_set_g, Nat.eqb_refl, G, L, E. simpl. unfold asl in A. rewrite A.
  unfold set_g. simpl. rewrite upd_upd, G, S, Aw. reflexivity.
Qed.

(* a goroutine blocked on anything but a pending timer is woken: the invariant, and what else is read of the new state *)
Lemma wake_up_inv g w st : inv st -> blk st g <> None -> ~ In (TWake g) (timers st) ->
  ((forall cs, blk st g <> Some (BSel cs)) -> no_entries st g) ->
  inv (wake_up g w st) /\ length (gors (wake_up g w st)) = length (gors st) /\ md (wake_up g w st) = md st /\
  halted (wake_up g w st) = halted st /\ awake (wake_up g w st) = (awake st + 1)%Z /\
  scheduled (wake_up g w st) = scheduled st ++ [g] /\
  (forall g', g' <> g -> get_g (wake_up g w st) g' = get_g st g') /\ bal (wake_up g w st) = bal st.
Proof.
  intros I B T NE.
  assert (L : g < length (gors st)). { destruct (Nat.lt_ge_cases g (length (gors st))); auto. exfalso. apply B. now apply dead_blk. }
  assert (A : asl st g = true) by (apply I; auto).
  assert (NS : ~ In g (scheduled st)). { intros H. apply (i_sch _ I) in H. destruct H. congruence. }
  pose proof (remove_from_queues_fr g st) as [G S Tm M H _].
  rewrite (wake_up_eq g w st L A). split.
  2:{ pose proof (count_awake_upd (gors st) g (get_g st g <| g_wake := Some w |> <| g_blocked := None |> <| g_asleep := false |>) L) as K.
      unfold asl, bal, get_g in *. simpl. rewrite upd_length, Tm, M, H. rewrite A in K. simpl in *. repeat split; auto; try lia.
      intros g' N. rewrite nth_upd. destruct (Nat.eqb_spec g g'); [congruence|reflexivity]. }
  rewrite <- G. set (st1 := remove_from_queues g st) in *. set (x := _ <| g_asleep := false |>).
  (* its entries gone, g is unblocked: it has no timer and, having been blocked, has not exited *)
  assert (I2 : inv (set_g st1 g x)).
  { apply inv_set_g; simpl; auto; try discriminate.
    - apply (inv_shrunk st); [apply remove_from_queues_fr|apply remove_from_queues_shrunk|exact I].
    - now rewrite G.
    - right. now apply remove_from_queues_clears.
    - rewrite Tm. intros H0. destruct (T H0).
    - intros H0. apply (i_ex _ I) in H0. destruct H0. congruence. }
  (* awake now, it joins $scheduled *)
  constructor; try apply I2; simpl.
  - (* i_sch *) intros r Hr. apply in_app_iff in Hr. destruct Hr as [Hr|[<-|[]]].
    + apply (i_sch _ I2). simpl. now rewrite S.
    + split. { now rewrite upd_length, G. }
      unfold asl. change (get_g _ g) with (get_g (set_g st1 g x) g). rewrite get_set_g_same; auto. now rewrite G.
  - (* i_nd: g was asleep, so not scheduled *) apply NoDup_snoc; auto. apply I.
Qed.

(* control is inside a statement of goroutine r; [a]: r has put itself to sleep ($block) and is about to
   return to $goroutine, with $awakeGoroutines still counting it *)
Record mid (a : bool) (r : gid) (st : state) : Prop := {
  m_inv : inv st; m_run : running st r; m_asl : asl st r = a; m_halt : halted st = None;
  m_bal : bal st = if a then 1%Z else 0%Z }.

Lemma asl_fr st st' : fr st st' -> forall g, asl st' g = asl st g.
Proof. intros [G] g. unfold asl. now rewrite (get_g_of_gors _ _ G). Qed.

Lemma mid_fr a r st st' : fr st st' -> inv st' -> mid a r st -> mid a r st'.
Proof.
  intros F I' [_ (M & L & NS) A H B]. pose proof (asl_fr _ _ F r). destruct F as [G S T Md Hh Aw].
  constructor; try congruence.
  - unfold running. now rewrite Md, G, S.
  - rewrite <- B. apply bal_frame; congruence.
Qed.

Lemma mid_shrunk a r st st' : fr st st' -> shrunk st st' -> mid a r st -> mid a r st'.
Proof. intros F Q M. apply (mid_fr a r st); auto. apply (inv_shrunk st); auto. apply M. Qed.

Lemma mid_blk st r : mid false r st -> blk st r = None.
Proof.
  intros [I _ A _ _]. destruct (blk st r) eqn:E; auto.
  assert (asl st r = true) by (apply I; congruence). congruence.
Qed.

Lemma no_entries_of st g : inv st -> blk st g = None \/ blk st g = Some BTimer -> no_entries st g.
Proof.
  intros I B c. split; intros e He Eo.
  - pose proof (i_s _ I c e He) as Ok. destruct e; simpl in *; subst; [|destruct Ok as (?&?&?)]; destruct B; congruence.
  - pose proof (i_r _ I c e He) as Ok. destruct e; simpl in *; subst; [|destruct Ok as (?&?&?)]; destruct B; congruence.
Qed.

Lemma block_mid st g b : mid false g st ->
  mid true g (block g b st) /\ blk (block g b st) g = Some b /\ no_entries (block g b st) g.
Proof.
  intros R. pose proof (mid_blk _ _ R) as Bn. destruct R as [I (M & L & NS) A Hh Bl].
  pose proof (no_entries_of _ _ I (or_introl Bn)) as NE.
  pose proof (bal_set_g st g (get_g st g <| g_asleep := true |> <| g_blocked := Some b |>) L) as Kb.
  change (asl st g) with (g_asleep (get_g st g)) in A. rewrite A in Kb. simpl in Kb. change (asl st g = false) in A.
  split; [constructor|split; [|exact NE]].
  - (* g, awake and running, is not blocked, so it owns no entry and no timer; it is not scheduled and has not exited *)
    apply inv_set_g; simpl; auto.
    + intros H. destruct (NS H).
    + intros H. apply (i_tm _ I) in H. congruence.
    + intros H. apply (i_ex _ I) in H. destruct H. congruence.
  - split; [exact M|]. split; [unfold block, set_g; simpl; now rewrite upd_length|exact NS].
  - unfold asl, block. now rewrite get_set_g_same.
  - exact Hh.
  - change (bal (block g b st)) with (bal (set_g st g (get_g st g <| g_asleep := true |> <| g_blocked := Some b |>))). lia.
  - unfold blk, block. now rewrite get_set_g_same.
Qed.

Lemma block_push_sendq g b st c e : block g b (push_sendq st c e) = push_sendq (block g b st) c e.
Proof. unfold push_sendq, block, set_g, set_chan, get_chan, get_g. simpl. destruct (c_nil _); reflexivity. Qed.
Lemma block_push_recvq g b st c e : block g b (push_recvq st c e) = push_recvq (block g b st) c e.
Proof. unfold push_recvq, block, set_g, set_chan, get_chan, get_g. simpl. destruct (c_nil _); reflexivity. Qed.

Lemma sq_push_sendq st c e c' x : In x (sq (push_sendq st c e) c') -> In x (sq st c') \/ (c' = c /\ x = e).
Proof.
  unfold push_sendq. destruct (c_nil _); auto. rewrite sq_set. destruct (Nat.eqb_spec c c'); simpl; auto.
  destruct (_ <? _); auto. simpl. rewrite in_app_iff. simpl. subst. intuition.
Qed.
Lemma rq_push_sendq st c e c' : rq (push_sendq st c e) c' = rq st c'.
Proof.
  unfold push_sendq. destruct (c_nil _); auto. rewrite rq_set. destruct (Nat.eqb_spec c c'); simpl; auto.
  destruct (_ <? _); subst; auto.
Qed.
Lemma rq_push_recvq st c e c' x : In x (rq (push_recvq st c e) c') -> In x (rq st c') \/ (c' = c /\ x = e).
Proof.
  unfold push_recvq. destruct (c_nil _); auto. rewrite rq_set. destruct (Nat.eqb_spec c c'); simpl; auto.
  destruct (_ <? _); auto. simpl. rewrite in_app_iff. simpl. subst. intuition.
Qed.
Lemma sq_push_recvq st c e c' : sq (push_recvq st c e) c' = sq st c'.
Proof.
  unfold push_recvq. destruct (c_nil _); auto. rewrite sq_set. destruct (Nat.eqb_spec c c'); simpl; auto.
  destruct (_ <? _); subst; auto.
Qed.

Lemma nd_push_sendq st c e c' : NoDup (sq st c') -> ~ In e (sq st c) -> NoDup (sq (push_sendq st c e) c').
Proof.
  intros ND N. unfold push_sendq. destruct (c_nil _); auto. rewrite sq_set. destruct (Nat.eqb_spec c c'); simpl; auto.
  destruct (_ <? _); auto. simpl. subst. now apply NoDup_snoc.
Qed.
Lemma nd_push_recvq st c e c' : NoDup (rq st c') -> ~ In e (rq st c) -> NoDup (rq (push_recvq st c e) c').
Proof.
  intros ND N. unfold push_recvq. destruct (c_nil _); auto. rewrite rq_set. destruct (Nat.eqb_spec c c'); simpl; auto.
  destruct (_ <? _); auto. simpl. subst. now apply NoDup_snoc.
Qed.

Lemma push_sendq_inv st c e : inv st -> sentry_ok st c e -> ~ In e (sq st c) -> inv (push_sendq st c e).
Proof.
  intros I Ok N. apply inv_fr with st; auto using fr_push_sendq.
  - intros c' x Hx. apply sq_push_sendq in Hx. destruct Hx as [Hx|(-> & ->)]; auto. apply I; auto.
  - intros c' x Hx. rewrite rq_push_sendq in Hx. apply I; auto.
  - intros c'. apply nd_push_sendq; auto. apply I.
  - intros c'. rewrite rq_push_sendq. apply I.
Qed.
Lemma push_recvq_inv st c e : inv st -> rentry_ok st c e -> ~ In e (rq st c) -> inv (push_recvq st c e).
Proof.
  intros I Ok N. apply inv_fr with st; auto using fr_push_recvq.
  - intros c' x Hx. rewrite sq_push_recvq in Hx. apply I; auto.
  - intros c' x Hx. apply rq_push_recvq in Hx. destruct Hx as [Hx|(-> & ->)]; auto. apply I; auto.
  - intros c'. rewrite sq_push_recvq. apply I.
  - intros c'. apply nd_push_recvq; auto. apply I.
Qed.

(* the common end of [shift_send_mid] and [shift_recv_mid]: st1 is st with the head entry, of g, shifted off a queue;
   then g is woken.  g owns no other entry unless it sleeps in a select, whose entries wake_up removes *)
Lemma wake_after_shift g w st st1 r : mid false r st -> fr st st1 -> shrunk st st1 -> blk st g <> None -> blk st g <> Some BTimer ->
  ((forall cs, blk st g <> Some (BSel cs)) -> no_entries st1 g) -> mid false r (wake_up g w st1).
Proof.
  intros R F Q B BT NE. pose proof (mid_blk _ _ R) as Br. pose proof (mid_shrunk _ _ _ _ F Q R) as [I1 (Md & Lr & NSr) A1 H1 B1].
  pose proof (blk_fr _ _ F) as BF.
  assert (N : r <> g) by (intros ->; congruence).
  destruct (wake_up_inv g w st1 I1) as (I2 & L2 & M2 & H2 & _ & S2 & O & B2).
  - rewrite BF; auto.
  - intros H. apply BT. rewrite <- BF. apply I1; auto.
  - intros D. apply NE. intros cs. rewrite <- BF. apply D.
  - constructor; try congruence.
    + split; [congruence|split; [lia|]]. rewrite S2, in_app_iff. simpl. intuition.
    + unfold asl. now rewrite (O r N).
Qed.

Lemma shift_send_mid st c e q w r : mid false r st -> sq st c = e :: q ->
  mid false r (wake_up (sowner e) w (set_chan st c (get_chan st c <| c_sendq := q |>))).
Proof.
  intros R E. pose proof (m_inv _ _ _ R) as I.
  assert (In0 : In e (sq st c)) by (rewrite E; now left).
  pose proof (i_s _ I c e In0) as Ok.
  pose proof (i_nds _ I c) as ND. rewrite E in ND. apply NoDup_cons_iff in ND. destruct ND as (Nin & NDq).
  assert (Rg : c < length (chans st)). { apply in_range_of_sendq. unfold sq in E. rewrite E. discriminate. }
  assert (QS : shrunk st (set_chan st c (get_chan st c <| c_sendq := q |>))) by (eapply set_chan_shrunk, pop_sendq_shrinks, E).
  apply wake_after_shift with st; auto using fr_set_chan.
  - destruct e; simpl in *; [congruence | destruct Ok as (?&?&?); congruence].
  - destruct e; simpl in *; [congruence | destruct Ok as (?&?&?); congruence].
  - (* g sleeps on a plain send: by [i_s] an entry of g's can only be e itself, which is not in the tail q of a
       duplicate-free queue *)
    intros D c'. split; intros e' He' Eo.
    + pose proof He' as He0. apply (shrunk_incl _ _ c' QS) in He0. pose proof (i_s _ I c' e' He0) as Ok'.
      destruct e as [g v|g i v]; simpl in *.
      * destruct e' as [g' v'|g' i' v']; simpl in *; subst g'.
        -- rewrite Ok in Ok'. inversion Ok'; subst c' v'. rewrite sq_set, Nat.eqb_refl in He'.
           destruct (Nat.ltb_spec c (length (chans st))); [|lia]. auto.
        -- destruct Ok' as (?&?&?). congruence.
      * destruct Ok as (cs&B&_). exact (D cs B).
    + pose proof He' as He0. apply (shrunk_incl _ _ c' QS) in He0. pose proof (i_r _ I c' e' He0) as Ok'.
      destruct e as [g v|g i v]; simpl in *.
      * destruct e'; simpl in *; subst; [congruence|destruct Ok' as (?&?&?); congruence].
      * destruct Ok as (cs&B&_). exact (D cs B).
Qed.

Lemma shift_recv_mid st c e q w r : mid false r st -> rq st c = e :: q ->
  mid false r (wake_up (rowner e) w (set_chan st c (get_chan st c <| c_recvq := q |>))).
Proof.
  intros R E. pose proof (m_inv _ _ _ R) as I.
  assert (In0 : In e (rq st c)) by (rewrite E; now left).
  pose proof (i_r _ I c e In0) as Ok.
  pose proof (i_ndr _ I c) as ND. rewrite E in ND. apply NoDup_cons_iff in ND. destruct ND as (Nin & NDq).
  assert (Rg : c < length (chans st)). { apply in_range_of_recvq. unfold rq in E. rewrite E. discriminate. }
  assert (QS : shrunk st (set_chan st c (get_chan st c <| c_recvq := q |>))) by (eapply set_chan_shrunk, pop_recvq_shrinks, E).
  apply wake_after_shift with st; auto using fr_set_chan.
  - destruct e; simpl in *; [congruence | destruct Ok as (?&?&?); congruence].
  - destruct e; simpl in *; [congruence | destruct Ok as (?&?&?); congruence].
  - (* likewise for a plain receive, by [i_r] *)
    intros D c'. split; intros e' He' Eo.
    + pose proof He' as He0. apply (shrunk_incl _ _ c' QS) in He0. pose proof (i_s _ I c' e' He0) as Ok'.
      destruct e as [g|g i]; simpl in *.
      * destruct e'; simpl in *; subst; [congruence|destruct Ok' as (?&?&?); congruence].
      * destruct Ok as (cs&B&_). exact (D cs B).
    + pose proof He' as He0. apply (shrunk_incl _ _ c' QS) in He0. pose proof (i_r _ I c' e' He0) as Ok'.
      destruct e as [g|g i]; simpl in *.
      * destruct e' as [g'|g' i']; simpl in *; subst g'.
        -- rewrite Ok in Ok'. inversion Ok'; subst c'. rewrite rq_set, Nat.eqb_refl in He'.
           destruct (Nat.ltb_spec c (length (chans st))); [|lia]. auto.
        -- destruct Ok' as (?&?&?). congruence.
      * destruct Ok as (cs&B&_). exact (D cs B).
Qed.

Lemma mid_moves g : moves (fun s s' => mid false g s -> mid false g s').
Proof.
  constructor; auto.
  - (* mv_set: the queues stay *) intros s c ch _ Es Er Ms. apply (mid_fr _ _ s); auto using fr_set_chan.
    pose proof (m_inv _ _ _ Ms) as I.
    assert (Q : forall c', sq (set_chan s c ch) c' = sq s c' /\ rq (set_chan s c ch) c' = rq s c').
    { intros c'. rewrite sq_set, rq_set. destruct (Nat.eqb_spec c c') as [<-|]; simpl; auto. destruct (_ <? _); auto. }
    apply inv_fr with s; auto using fr_set_chan; intros c'; rewrite ?(proj1 (Q c')), ?(proj2 (Q c')); apply I.
  - intros s c e q w E Ms. now apply shift_send_mid.
  - intros s c e q w E Ms. now apply shift_recv_mid.
Qed.

Lemma do_send_mid st g c v : mid false g st ->
  match do_send st g c v with Done s | Panicked s _ => mid false g s | Blocked s => mid true g s end.
Proof.
  intros R. pose proof (do_send_moves _ (mid_moves g) st g c v) as K. destruct (do_send st g c v) as [s|s|s k]; auto.
  subst s. rewrite block_push_sendq. destruct (block_mid st g (BSend c v) R) as (M & Bg & NE).
  apply (mid_fr _ _ _ _ (fr_push_sendq _ c _)); auto. apply push_sendq_inv; auto. apply M.
  intros H. apply (proj1 (NE c) _ H). reflexivity.
Qed.

Lemma block_sel_register g b cs : forall i st, block g b (sel_register g cs i st) = sel_register g cs i (block g b st).
Proof.
  induction cs as [|[|c|c v] r IH]; intros i st; simpl; auto.
  - now rewrite IH, block_push_recvq.
  - now rewrite IH, block_push_sendq.
Qed.

(* g sleeps on select cs0 and is registering the suffix cs of its cases, from position i *)
Lemma sel_register_inv g cs0 : forall cs i st, inv st -> blk st g = Some (BSel cs0) ->
  (forall j cm, nth_error cs j = Some cm -> nth_error cs0 (i + j) = Some cm) ->
  (forall c j v, In (SSel g j v) (sq st c) -> j < i) -> (forall c j, In (RSel g j) (rq st c) -> j < i) ->
  inv (sel_register g cs i st).
Proof.
  induction cs as [|cm r IH]; intros i st I B Hn Ls Lr; simpl; auto.
  assert (Hn' : forall j cm', nth_error r j = Some cm' -> nth_error cs0 (S i + j) = Some cm').
  { intros j cm' H. replace (S i + j) with (i + S j) by lia. apply Hn. exact H. }
  pose proof (Hn 0 cm eq_refl) as Hi. rewrite Nat.add_0_r in Hi.
  (* the entry pushed for case i is new, since g's entries so far have indices below i *)
  destruct cm as [|c|c v]; apply IH; auto.
  - (* default: the index bounds weaken *) intros c j v H. apply Ls in H. lia.
  - intros c j H. apply Lr in H. lia.
  - (* receive case: invariant, blocked field, index bounds on the send and the receive queues *)
    apply push_recvq_inv; auto. simpl. eauto. intros H. apply Lr in H. lia.
  - now rewrite (blk_fr _ _ (fr_push_recvq st c _)).
  - intros c' j v H. rewrite sq_push_recvq in H. apply Ls in H. lia.
  - intros c' j H. apply rq_push_recvq in H. destruct H as [H|(_ & H)]. apply Lr in H; lia. inversion H; lia.
  - (* send case, likewise *)
    apply push_sendq_inv; auto. simpl. eauto. intros H. apply Ls in H. lia.
  - now rewrite (blk_fr _ _ (fr_push_sendq st c _)).
  - intros c' j v' H. apply sq_push_sendq in H. destruct H as [H|(_ & H)]. apply Ls in H; lia. inversion H; lia.
  - intros c' j H. rewrite rq_push_sendq in H. apply Lr in H. lia.
Qed.

Lemma count_awake_vis l l' : map vis l = map vis l' -> count_awake l = count_awake l'.
Proof.
  unfold count_awake. revert l'. induction l as [|a l IH]; intros [|b l'] E; try discriminate; auto.
  injection E as A _ _ El. simpl. rewrite A. destruct (g_asleep b); simpl; now rewrite (IH _ El).
Qed.

Lemma mid_quiet a r st st' : quiet st st' -> mid a r st -> mid a r st'.
Proof.
  intros [C G S T M H Aw] [I (Md & Lr & NS) A Hh B].
  assert (L : length (gors st') = length (gors st)) by (rewrite <- (map_length vis), G; apply map_length).
  constructor.
  - apply inv_g with st; auto. now rewrite T.
  - unfold running. now rewrite M, L, S.
  - rewrite <- A. pose proof (quiet_vis _ _ G r) as E. unfold vis in E. now injection E.
  - congruence.
  - rewrite <- B. unfold bal. now rewrite Aw, T, (count_awake_vis _ _ G).
Qed.

(* the scheduler invariant, between steps.  [so_pos]: while control is outside the goroutines and main has not
   finished, a positive count is what keeps the event loop from reporting a deadlock *)
Record sched_ok (st : state) : Prop := {
  so_inv : inv st;
  so_run : forall r, md st = MRun r -> running st r /\ asl st r = false;
  so_bal : bal st = 0%Z;
  so_halt : halted st = None \/
            (halted st = Some ODeadlock /\ md st = MIdle /\ awake st = 0%Z /\ main_finished st = false);
  so_pos : halted st = None -> main_finished st = false -> (forall g, md st <> MRun g) -> (1 <= awake st)%Z }.

Lemma mid_sched_ok g st : mid false g st -> sched_ok st.
Proof.
  intros [I Ru A H B]. constructor; auto.
  - intros r E. pose proof Ru as (M & _). rewrite M in E. inversion E; subst. auto.
  - intros _ _ N. destruct Ru as (M & _). destruct (N g M).
Qed.

(* control leaves the goroutines, or stays outside *)
Lemma outside_ok s s' : inv s -> bal s = 0%Z ->
  chans s' = chans s -> gors s' = gors s -> scheduled s' = scheduled s ->
  filter is_twake (timers s') = filter is_twake (timers s) -> awake s' = awake s -> main_finished s' = main_finished s ->
  (forall r, md s' <> MRun r) ->
  (halted s' = None /\ (main_finished s = false -> (1 <= awake s)%Z) \/
   halted s' = Some ODeadlock /\ md s' = MIdle /\ awake s = 0%Z /\ main_finished s = false) ->
  sched_ok s'.
Proof.
  intros I B C G S T A Mf Md Hh. constructor.
  - eapply inv_triv; eauto.
  - intros r E. destruct (Md r E).
  - rewrite <- B. now apply bal_frame.
  - destruct Hh as [(H & _)|(H & M & A0 & F)]; [left; auto|right]. rewrite A, Mf. auto.
  - intros H F _. destruct Hh as [(_ & P)|(H' & _)]; [|congruence]. rewrite A. apply P. now rewrite <- Mf.
Qed.

(* [yield] in two halves: a goroutine that has exited is put to sleep for good ([retire]); then, with the count taken
   down by one for a goroutine that is asleep (the only case that occurs), come the deadlock test and the time-slice
   test ([ytail]) *)
Definition retire (g : gid) (st : state) : state :=
  if g_exit (get_g st g) then set_g st g (get_g st g <| g_asleep := true |>) <| total := (total st - 1)%Z |> else st.
Definition ytail (st2 : state) : state :=
  if negb (main_finished st2) && Z.eqb (awake st2) 0
  then st2 <| halted := Some ODeadlock |> <| md := MIdle |>
  else
    let b := hd false (breaks st2) in
    let st3 := st2 <| breaks := tl (breaks st2) |> in
    if b then end_pass st3 else st3 <| md := MPass |>.

Lemma yield_asleep g st : asl (retire g st) g = true ->
  yield g st = ytail (retire g st <| awake := (awake (retire g st) - 1)%Z |>).
Proof. intros A. unfold yield. fold (retire g st). unfold asl in A. rewrite A. reflexivity. Qed.

Lemma ytail_ok s : inv s -> halted s = None -> bal s = 0%Z -> sched_ok (ytail s).
Proof.
  intros I H B. unfold ytail.
  destruct (negb (main_finished s) && (awake s =? 0)%Z) eqn:C.
  - apply andb_prop in C. destruct C as [C1 C2]. apply Z.eqb_eq in C2. apply negb_true_iff in C1.
    apply outside_ok with s; auto; try reflexivity. discriminate.
  - assert (P : main_finished s = false -> (1 <= awake s)%Z).
    { intros M. rewrite M in C. simpl in C. apply Z.eqb_neq in C. unfold bal in B. lia. }
    destruct (hd false (breaks s)); cbv zeta.
    + unfold end_pass. destruct (scheduled _) eqn:E; apply outside_ok with s; auto; try reflexivity; try discriminate.
      simpl. apply tw_remove_timer.
    + apply outside_ok with s; auto; try reflexivity. discriminate.
Qed.

(* the goroutine is asleep when it reaches the finally block, one too many is counted awake *)
Lemma yield_ok g st : inv (retire g st) -> halted (retire g st) = None -> asl (retire g st) g = true ->
  bal (retire g st) = 1%Z -> sched_ok (yield g st).
Proof.
  intros I H A B. rewrite yield_asleep by exact A. apply ytail_ok; auto.
  - apply inv_triv with (retire g st); auto.
  - unfold bal in *. simpl. lia.
Qed.

Lemma yield_blocked g st : mid true g st -> sched_ok (yield g st).
Proof.
  intros [I (M & L & NS) A H B]. apply yield_ok; unfold retire; destruct (g_exit (get_g st g)) eqn:X; auto.
  - apply inv_triv with (set_g st g (get_g st g <| g_asleep := true |>)); try reflexivity.
    apply inv_set_g; simpl; auto.
    + (* not scheduled *) intros K; destruct (NS K).
    + (* its timer, if any *) apply I.
    + (* exited *) intros _. split; auto. now apply (i_ex _ I).
  - unfold asl, get_g. simpl. rewrite nth_upd, Nat.eqb_refl. apply Nat.ltb_lt in L. now rewrite L.
  - pose proof (bal_set_g st g (get_g st g <| g_asleep := true |>) L) as K. unfold asl in A. rewrite A in K. simpl in K.
    rewrite <- B. transitivity (bal (set_g st g (get_g st g <| g_asleep := true |>))); [reflexivity|lia].
Qed.

Lemma yield_exit g st s' : mid false g st -> fr (set_g st g (get_g st g <| g_exit := true |>)) s' -> chans s' = chans st ->
  sched_ok (yield g s').
Proof.
  intros R [G S T _ Hh Aw] C. simpl in G, S, T, Hh, Aw. pose proof (mid_blk _ _ R) as Bn. destruct R as [I (M & L & NS) A H B].
  assert (Gg : get_g s' g = get_g st g <| g_exit := true |>).
  { unfold get_g at 1. rewrite G, nth_upd, Nat.eqb_refl. destruct (Nat.ltb_spec g (length (gors st))); [reflexivity|lia]. }
  assert (E : retire g s' = set_g s' g (get_g st g <| g_exit := true |> <| g_asleep := true |>) <| total := (total s' - 1)%Z |>).
  { unfold retire. rewrite Gg. reflexivity. }
  set (x := get_g st g <| g_exit := true |> <| g_asleep := true |>) in *.
  apply yield_ok; rewrite E.
  - (* inv: g, neither scheduled nor blocked, exits and falls asleep *)
    apply inv_triv with (set_g st g x); simpl; auto. { now rewrite G, upd_upd. } { now rewrite T. }
    apply inv_set_g; simpl; auto.
    + (* not scheduled *) intros K; destruct (NS K).
    + (* no timer *) intros K. apply (i_tm _ I) in K. congruence.
  - simpl. congruence.
  - unfold asl, get_g. simpl. rewrite G, upd_upd, nth_upd, Nat.eqb_refl. apply Nat.ltb_lt in L. now rewrite L.
  - pose proof (count_awake_upd (gors st) g x L) as K.
    unfold asl, get_g in A. rewrite A in K. unfold bal in *. simpl. rewrite G, upd_upd, T, Aw. simpl in K. lia.
Qed.

Lemma spawn_eq prog k st : spawn prog k st =
  st <| total := (total st + 1)%Z |> <| awake := (awake st + 1)%Z |>
     <| gors := gors st ++ [mkGor (nth k (p_scripts prog) []) false false None None] |>
     <| scheduled := scheduled st ++ [length (gors st)] |>.
Proof.
  unfold spawn, schedule. set (st1 := _ <| gors := _ |>).
  assert (E : g_asleep (get_g st1 (length (gors st))) = false).
  { unfold st1, get_g. simpl. rewrite app_nth2, Nat.sub_diag; auto. }
  rewrite E. reflexivity.
Qed.

Lemma spawn_mid prog k st g : mid false g st -> mid false g (spawn prog k st).
Proof.
  intros [I (M & L & NS) A Hh Bl]. rewrite spawn_eq. set (n := length (gors st)). set (y := mkGor _ false false None None).
  assert (NI : ~ In n (scheduled st)). { intros H. apply I in H. unfold n in H. lia. }
  (* the new goroutine takes the place of the dead one that [get_g] read at n: not blocked, so without entry or timer *)
  assert (I1 : inv (st <| gors := gors st ++ [y] |>)).
  { apply inv_slot with n y; auto; try easy.
    - rewrite app_length. lia.
    - intros h. apply nth_snoc.
    - left. symmetry. now apply dead_blk.
    - intros H. apply (i_tm _ I) in H. rewrite dead_blk in H; [discriminate|auto]. }
  constructor; [constructor; try apply I1| | | |]; simpl.
  - (* i_sch: it is awake and scheduled *) intros r Hr. apply in_app_iff in Hr. destruct Hr as [Hr|[<-|[]]].
    + apply (i_sch _ I1 r Hr).
    + split; [rewrite app_length; simpl; fold n; lia|]. unfold asl, get_g. simpl. now rewrite nth_snoc, Nat.eqb_refl.
  - (* i_nd *) apply NoDup_snoc; auto. apply I.
  - (* m_run *) split; [exact M|]. simpl. rewrite app_length, in_app_iff. simpl. split; [lia|]. intros [H|[H|[]]]; [auto|unfold n in H; lia].
  - (* m_asl *) unfold asl, get_g. simpl. rewrite nth_snoc. destruct (Nat.eqb_spec (length (gors st)) g); [lia|exact A].
  - (* m_halt *) exact Hh.
  - (* m_bal: one more goroutine awake, one more counted *) unfold bal in *. simpl. rewrite count_awake_app. simpl. lia.
Qed.

(* Gosched: g sleeps on a timer of its own, which $awakeGoroutines counts in its place *)
Lemma gosched_mid st g : mid false g st ->
  mid true g (block g BTimer (st <| awake := (awake st + 1)%Z |> <| timers := timers st ++ [TWake g] |>)).
Proof.
  intros R. pose proof (mid_blk _ _ R) as Bn. destruct (block_mid st g BTimer R) as ([I Ru A Hh Bl] & Bg & NE).
  pose proof (m_inv _ _ _ R) as I0.
  set (s := block g BTimer st) in *.
  change (block g BTimer (st <| awake := (awake st + 1)%Z |> <| timers := timers st ++ [TWake g] |>))
    with (s <| awake := (awake s + 1)%Z |> <| timers := timers s ++ [TWake g] |>).
  constructor; [constructor; try apply I|exact Ru|exact A|exact Hh|].
  - (* i_tm *) intros r Hr. change (In (TWake r) (timers s ++ [TWake g])) in Hr. apply in_app_iff in Hr.
    destruct Hr as [Hr|[E|[]]]. exact (i_tm _ I r Hr). inversion E; subst. exact Bg.
  - (* i_tnd: g was not blocked, so had no timer *) change (NoDup (filter is_twake (timers s ++ [TWake g]))). rewrite filter_app. simpl. apply NoDup_snoc. apply I.
    intros H. apply filter_In in H. destruct H as (H & _). change (In (TWake g) (timers st)) in H.
    apply (i_tm _ I0) in H. congruence.
  - (* m_bal *) unfold bal in *. subst s. simpl in *. rewrite count_twake_app. simpl. lia.
Qed.

Lemma init_state_sched_ok prog pk bk : sched_ok (init_state prog pk bk).
Proof.
  unfold init_state.
  set (s0 := mkState _ _ _ _ _ _ _ _ _ _ _ _ _ _).
  assert (Q : forall c, sq s0 c = [] /\ rq s0 c = []).
  { intros c. unfold sq, rq, get_chan, s0. simpl. destruct c as [|c]; auto.
    destruct (nth_in_or_default c (map new_chan (p_caps prog)) nil_chan) as [H|H].
    - apply in_map_iff in H. destruct H as (cap & <- & _). auto.
    - rewrite H. auto. }
  assert (Bn : forall g, blk s0 g = None). { intros [|[|g]]; reflexivity. }
  apply outside_ok with s0; try reflexivity; try discriminate.
  - (* inv: empty queues, nobody blocked, main alone scheduled, no timer *) constructor.
    + intros c e He. rewrite (proj1 (Q c)) in He. contradiction.
    + intros c e He. rewrite (proj2 (Q c)) in He. contradiction.
    + intros c. rewrite (proj1 (Q c)). constructor.
    + intros c. rewrite (proj2 (Q c)). constructor.
    + intros g H. now rewrite Bn in H.
    + intros g [<-|[]]. split; [simpl; lia|reflexivity].
    + repeat constructor; auto.
    + intros g [].
    + constructor.
    + intros [|[|g]] H; simpl in H; try discriminate; split; reflexivity.
  - left. split; [reflexivity|]. intros _. simpl. lia.
Qed.

Lemma fire_timer_ok st : sched_ok st -> halted st = None -> md st = MIdle -> sched_ok (fire_timer st).
Proof.
  intros Ok H M. pose proof Ok as [I _ B _ P]. unfold fire_timer. destruct (timers st) as [|[id|g] ts] eqn:T; [exact Ok| |].
  - (* $runScheduled's own timer: a pass starts *) apply outside_ok with st; auto; try reflexivity; try discriminate.
    + simpl. rewrite T, filter_app. simpl. now rewrite app_nil_r.
    + left. split; auto. intros Mf. apply P; auto. intros g. congruence.
  - (* a Gosched timer: it stops being counted, and the goroutine it wakes is counted instead *)
    pose proof (i_tnd _ I) as N. rewrite T in N. simpl in N. apply NoDup_cons_iff in N. destruct N as (N1 & N2).
    assert (Bg : blk st g = Some BTimer). { apply I. rewrite T. now left. }
    set (s0 := st <| timers := ts |> <| awake := (awake st - 1)%Z |>).
    assert (I0 : inv s0).
    { constructor; try apply I.
      - intros r Hr. apply I. rewrite T. now right.
      - exact N2. }
    assert (B0 : bal s0 = 0%Z). { unfold bal, count_twake in *. rewrite T in B. simpl in *. lia. }
    destruct (wake_up_inv g WTimer s0 I0) as (I1 & _ & _ & H1 & A1 & _ & _ & B1).
    + change (blk st g <> None). congruence.
    + intros X. apply N1. apply filter_In. split; auto.
    + intros _. apply no_entries_of; auto.
    + set (s1 := wake_up g WTimer s0) in *. clearbody s1. apply outside_ok with s1; try reflexivity; auto.
      * now rewrite B1.
      * simpl. rewrite filter_app. simpl. now rewrite app_nil_r.
      * discriminate.
      * left. split; [exact (eq_trans H1 H)|]. intros _. rewrite A1. unfold bal in B0. lia.
Qed.

Lemma run_scheduled_ok st : sched_ok st -> halted st = None -> md st = MPass ->
  sched_ok (match scheduled st with [] => end_pass st | g :: q => st <| scheduled := q |> <| md := MRun g |> end).
Proof.
  intros [I _ B _ P] H M. destruct (scheduled st) as [|g q] eqn:S.
  - unfold end_pass. rewrite S. apply outside_ok with st; auto; try reflexivity; try discriminate.
    + simpl. apply tw_remove_timer.
    + left. split; auto. intros Mf. apply P; auto. intros g. congruence.
  - pose proof (i_nd _ I) as N. rewrite S in N. apply NoDup_cons_iff in N. destruct N as (N1 & N2).
    assert (Hg : In g (scheduled st)) by (rewrite S; now left).
    constructor; auto.
    + constructor; try apply I.
      * intros r Hr. apply I. rewrite S. now right.
      * exact N2.
    + intros r E. simpl in E. inversion E; subst r. destruct (i_sch _ I g Hg). split; auto.
      split; [reflexivity|]. split; auto.
    + intros _ _ N. destruct (N g eq_refl).
Qed.

Lemma sched_rules fx prog : fix_select_send fx = true -> step_rules fx prog sched_ok mid.
Proof.
  intros F. constructor.
  - (* sr_init *) apply init_state_sched_ok.
  - (* sr_idle *) exact fire_timer_ok.
  - (* sr_pass *) exact run_scheduled_ok.
  - (* sr_inside *) intros g st [I Rn B _ _] H M. destruct (Rn g M) as (Ru & A). now constructor.
  - (* sr_leave *) exact mid_sched_ok.
  - (* sr_quiet *) intros a g s s'. apply mid_quiet.
  - (* sr_send *) intros g s c v. apply do_send_mid.
  - (* sr_recv *) intros g s c. apply (recv_now_moves _ (mid_moves g) fx s c F).
  - (* sr_wait *) intros g s c K _. rewrite block_push_recvq. destruct (block_mid s g (BRecv c) K) as (M & Bg & NE).
    apply (mid_fr _ _ _ _ (fr_push_recvq _ c _)); auto. apply push_recvq_inv; auto. apply M.
    intros H. apply (proj2 (NE c) _ H). reflexivity.
  - (* sr_close *) intros g s c. apply (do_close_moves _ (mid_moves g) fx s c F).
  - (* sr_register: blocking commutes with registration, so g registers as one that sleeps on cs *)
    intros g s cs M0 _. rewrite block_sel_register. destruct (block_mid s g (BSel cs) M0) as (M & Bg & NE).
    apply (mid_fr _ _ _ _ (proj2 (sel_register_keeps (fun _ => True) g cs 0 _))); auto.
    apply (sel_register_inv g cs cs 0 _ (m_inv _ _ _ M) Bg); auto.
    + intros c j v H. exfalso. apply (proj1 (NE c) _ H). reflexivity.
    + intros c j H. exfalso. apply (proj2 (NE c) _ H). reflexivity.
  - (* sr_spawn *) intros g s k. apply spawn_mid.
  - (* sr_gosched *) intros g s. apply gosched_mid.
  - (* sr_yield *) intros g s. apply yield_blocked.
  - (* sr_exit *) intros g s s'. apply yield_exit.
Qed.

Theorem sched_ok_reachable fx prog st : fix_select_send fx = true -> reachable fx prog st -> sched_ok st.
Proof. intros F. apply (reachable_rules fx prog _ _ F (sched_rules fx prog F)). Qed.

Lemma sched_ok_entries st : sched_ok st -> ent_ok st /\ run_ok st.
Proof.
  intros [I Rn _ _ _]. split.
  - intros c. repeat split; try apply I.
  - unfold run_ok. split; [exact (i_ba _ I)|]. split; [exact (i_sch _ I)|]. split; [exact (i_nd _ I)|].
    split; [|split; [exact (i_tm _ I)|exact (i_tnd _ I)]].
    intros _ g M. destruct (Rn g M) as ((_ & L & NS) & A). auto.
Qed.

Theorem entries_invariant fx prog st : fix_select_send fx = true -> reachable fx prog st -> ent_ok st /\ run_ok st.
Proof. intros F R. apply sched_ok_entries, (sched_ok_reachable fx prog st F R). Qed.

Theorem scheduled_awake fx prog st : fix_select_send fx = true -> reachable fx prog st ->
  forall g, In g (scheduled st) -> g < length (gors st) /\ g_asleep (get_g st g) = false.
Proof. intros F R. destruct (entries_invariant fx prog st F R) as (_ & _ & H & _). exact H. Qed.

Theorem no_stale_entries fx prog st : fix_select_send fx = true -> reachable fx prog st ->
  forall c, (forall e, In e (sq st c) -> sentry_ok st c e) /\ (forall e, In e (rq st c) -> rentry_ok st c e).
Proof. intros F R c. destruct (entries_invariant fx prog st F R) as (E & _). destruct (E c) as (A & B & _). auto. Qed.

Theorem running_wf fx prog st : fix_select_send fx = true -> reachable fx prog st ->
  forall g, md st = MRun g -> g < length (gors st) /\ g_exit (get_g st g) = false /\ g_blocked (get_g st g) = None.
Proof.
  intros F R g M. destruct (sched_ok_reachable fx prog st F R) as [I Rn _ _ _]. destruct (Rn g M) as ((_ & L & NS) & A).
  split; auto. split.
  - destruct (g_exit (get_g st g)) eqn:X; auto. apply (i_ex _ I) in X. destruct X; congruence.
  - destruct (g_blocked (get_g st g)) eqn:X; auto. assert (asl st g = true) by (apply I; unfold blk; congruence). congruence.
Qed.
