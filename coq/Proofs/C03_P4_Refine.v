(* C03 — refinement of the reference LTS (Model/C03_Spec.v) by the implementation model, step by step. *)
From Coq Require Import List NArith ZArith Bool Arith Lia.
From RecordUpdate Require Import RecordSet.
From Verif Require Import Model.C03_Chan Model.C03_Spec Model.C03_Abs Proofs.C03_Chan.
Import ListNotations RecordSetNotations.

(* one implementation step = the spec steps [actions_of], same events, between the abstractions *)
Definition refines_step (fx : variant) (prog : program) (st : state) : Prop :=
  ssteps prog (abs st) (actions_of fx prog st)
  = Some (abs (impl_step fx prog st), new_events st (impl_step fx prog st)).

Definition run_wf (st : state) : Prop :=
  forall g, md st = MRun g -> g < length (gors st) /\ g_exit (get_g st g) = false /\ g_blocked (get_g st g) = None.

Lemma upd_same_or {A} (l : list A) n x d : (n < length l -> x = nth n l d) -> upd l n x = l.
Proof. revert n; induction l; intros [|n] H; simpl in *; auto. rewrite H by lia; auto. rewrite IHl; auto. intros; apply H; lia. Qed.

Lemma abs_fields st st' : chans st' = chans st -> gors st' = gors st -> abs st' = abs st.
Proof. unfold abs. intros -> ->. reflexivity. Qed.

Lemma abs_set_g st g x : abs (set_g st g x) = sset_g (abs st) g (abs_g x).
Proof. unfold abs, set_g, sset_g. simpl. now rewrite map_upd. Qed.

Lemma abs_set_chan st c ch : abs (set_chan st c ch) = sset_c (abs st) c (abs_c ch).
Proof. unfold abs, set_chan, sset_c. simpl. now rewrite map_upd. Qed.

Lemma sget_g_abs st g : sget_g (abs st) g = abs_g (get_g st g).
Proof. exact (map_nth abs_g (gors st) dead_gor g). Qed.

Lemma sget_c_abs st c : sget_c (abs st) c = abs_c (get_chan st c).
Proof. exact (map_nth abs_c (chans st) nil_chan c). Qed.

Lemma sset_g_same s g : sset_g s g (sget_g s g) = s.
Proof. destruct s. unfold sset_g, sget_g. simpl. now rewrite upd_same. Qed.

(* changing only the asleep flag is invisible *)
Lemma abs_set_asleep st g b : abs (set_g st g (get_g st g <| g_asleep := b |>)) = abs st.
Proof.
  rewrite abs_set_g. replace (abs_g (get_g st g <| g_asleep := b |>)) with (abs_g (get_g st g)) by (now destruct (get_g st g)).
  rewrite <- sget_g_abs. apply sset_g_same.
Qed.

Lemma abs_schedule g st : abs (schedule g st) = abs st.
Proof.
  unfold schedule. destruct (g_asleep (get_g st g)).
  - transitivity (abs (set_g st g (get_g st g <| g_asleep := false |>))); [apply abs_fields; reflexivity | apply abs_set_asleep].
  - apply abs_fields; reflexivity.
Qed.

Lemma abs_end_pass st : abs (end_pass st) = abs st.
Proof. unfold end_pass. destruct (scheduled st); apply abs_fields; reflexivity. Qed.

Lemma abs_start_pass st : abs (start_pass st) = abs st.
Proof. apply abs_fields; reflexivity. Qed.

Lemma trace_end_pass st : trace (end_pass st) = trace st.
Proof. unfold end_pass. destruct (scheduled st); reflexivity. Qed.

Lemma abs_yield g st : abs (yield g st) = abs st.
Proof.
  destruct (yield_fields g st) as (C & _ & [G|G]); [now apply abs_fields|].
  rewrite <- (abs_set_asleep st g true). now apply abs_fields.
Qed.

Lemma trace_yield g st : trace (yield g st) = trace st.
Proof. apply yield_fields. Qed.

Lemma new_events_same st st' : trace st' = trace st -> new_events st st' = [].
Proof. unfold new_events. intros ->. now rewrite Nat.sub_diag. Qed.

Lemma new_events_one st st' x : trace st' = x :: trace st -> new_events st st' = [x].
Proof.
  unfold new_events. intros ->. simpl length.
  replace (S (length (trace st)) - length (trace st)) with 1 by lia. reflexivity.
Qed.

Lemma stutter fx prog st : actions_of fx prog st = [] -> abs (impl_step fx prog st) = abs st ->
  trace (impl_step fx prog st) = trace st -> refines_step fx prog st.
Proof. unfold refines_step. intros -> -> E. simpl. now rewrite new_events_same. Qed.

Lemma refines_halted fx prog st o : halted st = Some o -> refines_step fx prog st.
Proof. intros H. apply stutter; unfold actions_of, impl_step; rewrite H; auto. Qed.

Lemma refines_pass fx prog st : halted st = None -> md st = MPass -> refines_step fx prog st.
Proof.
  intros H M. apply stutter; unfold actions_of, impl_step; rewrite H, M; auto.
  - destruct (scheduled st); [apply abs_end_pass | apply abs_fields; reflexivity].
  - destruct (scheduled st); [apply trace_end_pass | reflexivity].
Qed.

Lemma refines_idle_norun fx prog st : halted st = None -> md st = MIdle ->
  (forall g ts, timers st <> TWake g :: ts) -> refines_step fx prog st.
Proof.
  intros H M T. apply stutter; unfold actions_of, impl_step, fire_timer; rewrite H, M;
    (destruct (timers st) as [|[id|g] ts] eqn:E; [ | | exfalso; exact (T _ _ eq_refl) ]); auto.
Qed.

Lemma impl_step_run fx prog st g : halted st = None -> md st = MRun g -> impl_step fx prog st = step_goroutine fx prog g st.
Proof. intros H M. unfold impl_step. now rewrite H, M. Qed.

(* the goroutine logs an event and moves its code pointer: the abstraction sees only the new code *)
Lemma abs_set_code_log g s e st : abs (set_code g s (log g e st)) = sset_g (abs st) g (abs_g (get_g st g <| g_code := s |>)).
Proof. exact (abs_set_g (log g e st) g _). Qed.

Lemma sget_sset_g s g y : g < length (s_gors s) -> sget_g (sset_g s g y) g = y.
Proof. intros L. unfold sget_g, sset_g. simpl. rewrite nth_upd, Nat.eqb_refl. apply Nat.ltb_lt in L. now rewrite L. Qed.

Lemma sset_sset_g s g y z : sset_g (sset_g s g y) g z = sset_g s g z.
Proof. unfold sset_g. simpl. now rewrite upd_upd. Qed.

Lemma abs_gors_length st : length (s_gors (abs st)) = length (gors st).
Proof. unfold abs. simpl. apply map_length. Qed.

Lemma abs_g_run x s : g_exit x = false -> g_blocked x = None -> abs_g (x <| g_wake := None |> <| g_code := s |>) = mkSGor s SRun.
Proof. destruct x; simpl. intros -> ->. reflexivity. Qed.

Lemma abs_g_code x s : g_exit x = false -> g_wake x = None -> g_blocked x = None -> abs_g (x <| g_code := s |>) = mkSGor s SRun.
Proof. destruct x; simpl. intros -> -> ->. unfold abs_g. simpl. now destruct s. Qed.

Lemma abs_g_idle x : g_exit x = false -> g_wake x = None -> g_blocked x = None -> abs_g x = mkSGor (g_code x) SRun.
Proof. destruct x; simpl. intros -> -> ->. unfold abs_g. simpl. now destruct g_code. Qed.

Lemma abs_g_pend x o rest w : g_exit x = false -> g_code x = o :: rest -> g_wake x = Some w ->
  abs_g x = mkSGor (o :: rest) (SPend (wake_event o w)).
Proof. destruct x; simpl. intros -> -> ->. reflexivity. Qed.

Lemma abs_g_exited x : abs_g (x <| g_exit := true |>) = mkSGor [] SDone.
Proof. destruct x; reflexivity. Qed.

Lemma obs_after_pend prog s g o rest e : g < length (s_gors s) -> sg_code (sget_g s g) = o :: rest -> e <> EvGoexit ->
  sstep prog (spend s g e) (AObs g) = Some (sset_g s g (mkSGor (after_obs o rest e) SRun), [(g, e)]).
Proof.
  intros L C N. unfold sstep, spend. rewrite sget_sset_g by exact L. simpl. rewrite C, sset_sset_g.
  destruct e; try reflexivity. now destruct N.
Qed.

Lemma obs_after_goexit prog s g o rest : g < length (s_gors s) -> sg_code (sget_g s g) = o :: rest ->
  sstep prog (spend s g EvGoexit) (AObs g) = Some (sset_g s g (mkSGor [] SDone), [(g, EvGoexit)]).
Proof. intros L C. unfold sstep, spend. rewrite sget_sset_g by exact L. simpl. now rewrite C, sset_sset_g. Qed.

Lemma wake_event_not_goexit o w : wake_event o w <> EvGoexit.
Proof. destruct o, w; simpl; try discriminate; destruct closed; discriminate. Qed.

Section Running.
Variables (fx : variant) (prog : program) (st : state) (g : gid).
Hypotheses (H : halted st = None) (M : md st = MRun g) (W : run_wf st).

(* the function returns *)
Lemma refines_finish : g_code (get_g st g) = [] -> g_wake (get_g st g) = None -> refines_step fx prog st.
Proof.
  intros C Wk. destruct (W g M) as (L & X & B).
  unfold refines_step. rewrite (impl_step_run fx prog st g H M).
  unfold actions_of. rewrite H, M, C. unfold step_goroutine. rewrite C.
  set (st1 := set_g st g (get_g st g <| g_exit := true |>)).
  set (st2 := if Nat.eqb g 0 then _ else st1).
  assert (A : abs st2 = sset_g (abs st) g (mkSGor [] SDone)).
  { transitivity (abs st1). { unfold st2. destruct (Nat.eqb g 0); [apply abs_fields; reflexivity | reflexivity]. }
    unfold st1. now rewrite abs_set_g, abs_g_exited. }
  assert (T : trace st2 = trace st) by (unfold st2; destruct (Nat.eqb g 0); reflexivity).
  rewrite abs_yield, A, new_events_same by (now rewrite trace_yield).
  unfold ssteps, sstep. rewrite sget_g_abs, (abs_g_idle _ X Wk B), C. reflexivity.
Qed.

(* resumed through $blk after a wake-up: it observes the result left for it *)
Lemma refines_resume o rest w : g_code (get_g st g) = o :: rest -> g_wake (get_g st g) = Some w -> refines_step fx prog st.
Proof.
  intros C Wk. destruct (W g M) as (L & X & B).
  unfold refines_step. rewrite (impl_step_run fx prog st g H M), (step_resume fx prog g st o rest w C Wk).
  unfold actions_of. rewrite H, M, C, Wk.
  set (e := wake_event o w).
  (* [clear_wake] is a [set_g] as well: two replacements of g's record are one *)
  rewrite abs_set_code_log. unfold clear_wake.
  rewrite abs_set_g, sset_sset_g, get_set_g_same, (abs_g_run _ _ X B) by exact L.
  rewrite (new_events_one st _ (g, e)) by reflexivity.
  assert (SP : abs st = spend (abs st) g e).
  { unfold spend. rewrite sget_g_abs, (abs_g_pend _ o rest w X C Wk). simpl.
    rewrite <- (sset_g_same (abs st) g) at 1. rewrite sget_g_abs, (abs_g_pend _ o rest w X C Wk). reflexivity. }
  unfold ssteps. rewrite SP at 1.
  rewrite (obs_after_pend prog (abs st) g o rest e).
  - reflexivity.
  - now rewrite abs_gors_length.
  - now rewrite sget_g_abs, (abs_g_pend _ o rest w X C Wk).
  - apply wake_event_not_goexit.
Qed.

(* print: completes and is observed at once *)
Lemma refines_print v rest : g_code (get_g st g) = Print v :: rest -> g_wake (get_g st g) = None -> refines_step fx prog st.
Proof.
  intros C Wk. destruct (W g M) as (L & X & B).
  unfold refines_step. rewrite (impl_step_run fx prog st g H M).
  unfold actions_of. rewrite H, M, C, Wk. unfold step_goroutine. rewrite C, Wk.
  rewrite abs_set_code_log, (abs_g_code _ _ X Wk B).
  rewrite (new_events_one st _ (g, EvPrint v)) by reflexivity.
  assert (G : sget_g (abs st) g = mkSGor (Print v :: rest) SRun) by (now rewrite sget_g_abs, (abs_g_idle _ X Wk B), C).
  assert (S1 : sstep prog (abs st) (AOp g 0) = Some (spend (abs st) g (EvPrint v), [])) by (unfold sstep; rewrite G; reflexivity).
  unfold ssteps. rewrite S1.
  rewrite (obs_after_pend prog (abs st) g (Print v) rest (EvPrint v)); try reflexivity; try discriminate.
  - now rewrite abs_gors_length.
  - now rewrite G.
Qed.

Lemma refines_goexit rest : g_code (get_g st g) = Goexit :: rest -> g_wake (get_g st g) = None -> refines_step fx prog st.
Proof.
  intros C Wk. destruct (W g M) as (L & X & B).
  unfold refines_step. rewrite (impl_step_run fx prog st g H M).
  unfold actions_of. rewrite H, M, C, Wk. unfold step_goroutine. rewrite C, Wk.
  rewrite abs_yield, abs_set_g, abs_g_exited.
  replace (abs (log g EvGoexit st)) with (abs st) by (symmetry; apply abs_fields; reflexivity).
  rewrite (new_events_one st _ (g, EvGoexit)) by (now rewrite trace_yield).
  assert (G : sget_g (abs st) g = mkSGor (Goexit :: rest) SRun) by (now rewrite sget_g_abs, (abs_g_idle _ X Wk B), C).
  assert (S1 : sstep prog (abs st) (AOp g 0) = Some (spend (abs st) g EvGoexit, [])) by (unfold sstep; rewrite G; reflexivity).
  unfold ssteps. rewrite S1.
  rewrite (obs_after_goexit prog (abs st) g Goexit rest); try reflexivity.
  - now rewrite abs_gors_length.
  - now rewrite G.
Qed.

(* Gosched: the goroutine waits for its timer; for the spec nothing has happened yet *)
Lemma refines_gosched rest : g_code (get_g st g) = Gosched :: rest -> g_wake (get_g st g) = None -> refines_step fx prog st.
Proof.
  intros C Wk. destruct (W g M) as (L & X & B).
  apply stutter.
  - unfold actions_of. now rewrite H, M, C, Wk.
  - rewrite (impl_step_run fx prog st g H M). unfold step_goroutine. rewrite C, Wk.
    rewrite abs_yield. unfold block. rewrite abs_set_g.
    set (st1 := st <| awake := (awake st + 1)%Z |> <| timers := timers st ++ [TWake g] |>).
    replace (get_g st1 g) with (get_g st g) by reflexivity.
    replace (abs st1) with (abs st) by (symmetry; apply abs_fields; reflexivity).
    assert (E : abs_g (get_g st g <| g_asleep := true |> <| g_blocked := Some BTimer |>) = abs_g (get_g st g)).
    { destruct (get_g st g); simpl in *. subst. reflexivity. }
    rewrite E, <- sget_g_abs. apply sset_g_same.
  - rewrite (impl_step_run fx prog st g H M). unfold step_goroutine. rewrite C, Wk. now rewrite trace_yield.
Qed.

End Running.

(* FULL statement: every step of every reachable state is the spec-step sequence [actions_of] *)
Definition impl_refines_spec_full_statement : Prop :=
  forall prog st, reachable repaired prog st -> refines_step repaired prog st.

(* the steps covered: every scheduler step except the firing of a Gosched timer; of the running goroutine: return,
   resumption after ANY wake-up, print, Goexit, Gosched.  NOT covered: the step in which a goroutine executes a channel
   operation itself or go, and the timer callback — these are checked per explored history by
   Corr/C03_SpecEval.spec_verdict. *)
Definition covered (st : state) : Prop :=
  halted st <> None \/ md st = MPass \/ (md st = MIdle /\ forall g ts, timers st <> TWake g :: ts) \/
  exists g, md st = MRun g /\
    match g_code (get_g st g) with
    | [] => g_wake (get_g st g) = None
    | o :: _ => g_wake (get_g st g) <> None \/ match o with Print _ | Goexit | Gosched => True | _ => False end
    end.

Theorem impl_refines_spec_covered fx prog st : run_wf st -> covered st -> refines_step fx prog st.
Proof.
  intros W [Hh|[Mp|[[Mi T]|(g & M & K)]]].
  - destruct (halted st) as [o|] eqn:H; [eapply refines_halted; eauto | now destruct Hh].
  - destruct (halted st) as [o|] eqn:H; [eapply refines_halted; eauto | now apply refines_pass].
  - destruct (halted st) as [o|] eqn:H; [eapply refines_halted; eauto | now apply refines_idle_norun].
  - destruct (halted st) as [o'|] eqn:H; [eapply refines_halted; eauto|].
    destruct (g_code (get_g st g)) as [|o rest] eqn:C.
    + eapply refines_finish; eauto.
    + destruct (g_wake (get_g st g)) as [w|] eqn:Wk.
      * eapply refines_resume; eauto.
      * destruct K as [K|K]; [now destruct K|].
        destruct o; try contradiction; [eapply refines_gosched | eapply refines_goexit | eapply refines_print]; eauto.
Qed.

(* non-vacuity of [covered]: the initial state of a program *)
Example covered_init : covered (init_state {| p_caps := []; p_scripts := [[Print 1%N]] |} [] []).
Proof. right. left. reflexivity. Qed.
