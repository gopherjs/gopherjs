(* C04 — the instance collector of Model/C04_Inst.v.  Two substitutions compose as soon as they do on the type
   parameters ([subst_subst]).  [Inv] is the invariant of the loop of Finish; with it, a collection whose cursors are
   all at the end holds exactly the least set closed under the templates ([Reach]), in whatever order packages were
   visited.  Each package's list stays duplicate-free ([placed]), so an instance's id is its position.  Without lazily
   typed objects [Reach] is the intended [ReachIdeal]; [prog_ids] shows that ids do depend on the order, [prog_local]
   an instance the lazy rule loses. *)
From Coq Require Import List NArith Bool Arith Lia.
From Verif Require Import Base.Lists Model.C04_Inst.
Import ListNotations.

Lemma map_id_in {A} (f : A -> A) l : (forall x, In x l -> f x = x) -> map f l = l.
Proof. intro H. rewrite <- (map_id l) at 2. apply map_ext_in, H. Qed.

Lemma existsb_false_forallb {A} (f g : A -> bool) l :
  (forall x, In x l -> f x = false -> g x = true) -> existsb f l = false -> forallb g l = true.
Proof.
  induction l as [|a l IH]; simpl; intros H E; auto.
  apply orb_false_iff in E. destruct E as [E1 E2]. rewrite H, IH; auto.
Qed.

Section TyInd.
  Variable P : ty -> Prop.
  Hypothesis Hb : forall b, P (TBase b).
  Hypothesis Hc : forall c l, (forall x, In x l -> P x) -> P (TCon c l).
  Hypothesis Hn : forall o l, (forall x, In x l -> P x) -> P (TNamed o l).
  Hypothesis Ho : forall i, P (TOwn i).
  Hypothesis Hv : forall i, P (TNestV i).
  Hypothesis Hf : forall i, P (TFree i).
  Fixpoint ty_ind' (t : ty) : P t :=
    let fix go (l : list ty) : forall x, In x l -> P x :=
      match l with
      | [] => fun x H => match H with end
      | y :: r => fun x H => match H with
                             | or_introl E => eq_ind y P (ty_ind' y) x E
                             | or_intror H' => go r x H'
                             end
      end in
    match t with
    | TBase b => Hb b
    | TCon c l => Hc c l (go l)
    | TNamed o l => Hn o l (go l)
    | TOwn i => Ho i
    | TNestV i => Hv i
    | TFree i => Hf i
    end.
End TyInd.

Lemma tys_eqb_spec_in l :
  (forall x, In x l -> forall y, ty_eqb x y = true <-> x = y) -> forall m, tys_eqb l m = true <-> l = m.
Proof. exact (list_eqb_eq_in ty_eqb l). Qed.

(* the list comparison local to ty_eqb is tys_eqb *)
Lemma ty_eqb_con c l c' l' : ty_eqb (TCon c l) (TCon c' l') = N.eqb c c' && tys_eqb l l'.
Proof. reflexivity. Qed.
Lemma ty_eqb_named o l o' l' : ty_eqb (TNamed o l) (TNamed o' l') = N.eqb o o' && tys_eqb l l'.
Proof. reflexivity. Qed.

Lemma ty_eqb_spec : forall a b, ty_eqb a b = true <-> a = b.
Proof.
  induction a as [b|c l IH|o l IH|i|i|i] using ty_ind'; intros [b'|c' l'|o' l'|i'|i'|i'];
    try (split; intro E; discriminate E).
  (* first TBase, TOwn, TNestV, TFree against themselves, then TCon and TNamed, whose argument lists go by IH *)
  1, 4, 5, 6: simpl; rewrite ?N.eqb_eq, ?Nat.eqb_eq; split; [intros ->; reflexivity | intro E; inversion E; reflexivity].
  all: rewrite ?ty_eqb_con, ?ty_eqb_named, andb_true_iff, N.eqb_eq, (tys_eqb_spec_in l IH);
    split; [intros [-> ->]; reflexivity | intro E; inversion E; auto].
Qed.

Lemma tys_eqb_spec : forall l m, tys_eqb l m = true <-> l = m.
Proof. intro l. apply tys_eqb_spec_in. intros x _. apply ty_eqb_spec. Qed.

Lemma inst_eqb_spec : forall a b, inst_eqb a b = true <-> a = b.
Proof.
  intros [o1 a1 n1] [o2 a2 n2]. unfold inst_eqb; simpl.
  rewrite !andb_true_iff, N.eqb_eq, !tys_eqb_spec.
  split; [intros [[-> ->] ->]; reflexivity | intro E; inversion E; auto].
Qed.

Lemma inst_eqb_refl : forall i, inst_eqb i i = true.
Proof. intro i. apply inst_eqb_spec. reflexivity. Qed.

Lemma mem_inst_spec : forall i l, mem_inst i l = true <-> In i l.
Proof. exact (existsb_eqb_In inst_eqb inst_eqb_spec). Qed.

Fixpoint closed (t : ty) : bool :=
  match t with
  | TBase _ => true
  | TCon _ l | TNamed _ l => forallb closed l
  | _ => false
  end.

Definition subst_nest (nest : list ty) := subst [] nest.
Definition subst_own (own : list ty) := subst own [].

Lemma subst_closed_id : forall own nest t, closed t = true -> subst own nest t = t.
Proof.
  intros own nest. induction t as [|c l IH|o l IH| | |] using ty_ind'; simpl; intro C; try discriminate; auto.
  all: f_equal; apply map_id_in; intros x Hx; apply IH; [exact Hx|]; rewrite forallb_forall in C; auto.
Qed.

Lemma subst_nth_closed : forall own nest l i d,
  forallb closed l = true -> subst own nest d = d -> subst own nest (nth i l d) = nth i l d.
Proof.
  intros own nest l i d C D. destruct (nth_in_or_default i l d) as [H | ->]; [|exact D].
  apply subst_closed_id. rewrite forallb_forall in C. auto.
Qed.

Lemma nth_own_nil : forall i, nth i (@nil ty) (TOwn i) = TOwn i.
Proof. destruct i; reflexivity. Qed.
Lemma nth_nest_nil : forall i, nth i (@nil ty) (TNestV i) = TNestV i.
Proof. destruct i; reflexivity. Qed.

Lemma subst_subst : forall o1 n1 o2 n2 o n,
  (forall i, subst o2 n2 (subst o1 n1 (TOwn i)) = subst o n (TOwn i)) ->
  (forall i, subst o2 n2 (subst o1 n1 (TNestV i)) = subst o n (TNestV i)) ->
  forall t, subst o2 n2 (subst o1 n1 t) = subst o n t.
Proof.
  intros o1 n1 o2 n2 o n Ho Hn. induction t as [|c l IH|o' l IH| | |] using ty_ind'; auto; simpl.
  all: f_equal; rewrite map_map; apply map_ext_in, IH.
Qed.

Definition vals_k (st : state) (k : nat) : list inst := s_vals (nth k st empty_set).
Definition cur_k (st : state) (k : nat) : nat := s_cur (nth k st empty_set).
(* a package number outside the state has the empty list, so no bound on k is needed *)
Definition In_st (i : inst) (st : state) : Prop := exists k, In i (vals_k st k).

Lemma In_st_all_vals : forall i st, In i (all_vals st) <-> In_st i st.
Proof.
  intros. unfold all_vals, In_st, vals_k. rewrite in_flat_map. split.
  - intros [s [Hs Hi]]. destruct (In_nth _ _ empty_set Hs) as [k [_ E]]. exists k. rewrite E. auto.
  - intros [k Hi]. exists (nth k st empty_set). split; auto.
    destruct (nth_in_or_default k st empty_set) as [H|E]; [exact H | rewrite E in Hi; destruct Hi].
Qed.

Lemma nth_error_vals : forall st k n i, nth_error (vals_k st k) n = Some i ->
  k < length st /\ n < length (vals_k st k).
Proof.
  intros st k n i E. assert (L : n < length (vals_k st k)) by (apply nth_error_Some; congruence).
  split; auto. destruct (Nat.lt_ge_cases k (length st)) as [|G]; auto.
  unfold vals_k in L. rewrite nth_overflow in L by exact G. simpl in L. lia.
Qed.

Lemma vals_k_repeat : forall n k, vals_k (repeat empty_set n) k = [].
Proof. unfold vals_k. induction n; destruct k; simpl; auto. Qed.
Lemma cur_k_repeat : forall n k, cur_k (repeat empty_set n) k = 0.
Proof. unfold cur_k. induction n; destruct k; simpl; auto. Qed.

Definition push (i : inst) (s : iset) : iset := mkSet (s_vals s ++ [i]) (s_cur s).   (* InstanceSet.Add *)
Definition next (s : iset) : iset := mkSet (s_vals s) (S (s_cur s)).                 (* InstanceSet.next *)

Lemma upd_set_length : forall st k f, length (upd_set st k f) = length st.
Proof. induction st; destruct k; simpl; auto. Qed.

Lemma nth_upd_set : forall st k f j,
  nth j (upd_set st k f) empty_set =
  if (j =? k) && (k <? length st) then f (nth k st empty_set) else nth j st empty_set.
Proof.
  induction st; intros k f j.
  - simpl. rewrite andb_false_r. destruct k; reflexivity.
  - destruct k, j; simpl; auto.
    rewrite IHst. reflexivity.
Qed.

Lemma cur_k_push : forall st k i j, cur_k (upd_set st k (push i)) j = cur_k st j.
Proof. intros. unfold cur_k. rewrite nth_upd_set. destruct (Nat.eqb_spec j k) as [->|]; [destruct (_ <? _)|]; reflexivity. Qed.

Lemma vals_k_next : forall st k j, vals_k (upd_set st k next) j = vals_k st j.
Proof. intros. unfold vals_k. rewrite nth_upd_set. destruct (Nat.eqb_spec j k) as [->|]; [destruct (_ <? _)|]; reflexivity. Qed.

Lemma vals_k_push : forall st k i j, vals_k (upd_set st k (push i)) j =
  if (j =? k) && (k <? length st) then vals_k st k ++ [i] else vals_k st j.
Proof. intros. unfold vals_k. rewrite nth_upd_set. destruct (_ && _); reflexivity. Qed.

Lemma cur_k_next : forall st k j, k < length st ->
  cur_k (upd_set st k next) j = if j =? k then S (cur_k st k) else cur_k st j.
Proof.
  intros st k j Hk. unfold cur_k. rewrite nth_upd_set. apply Nat.ltb_lt in Hk. rewrite Hk, andb_true_r.
  destruct (j =? k); reflexivity.
Qed.

Lemma In_st_next : forall i st k, In_st i (upd_set st k next) <-> In_st i st.
Proof. intros. unfold In_st. setoid_rewrite vals_k_next. reflexivity. Qed.

Lemma all_exhausted_spec : forall st, all_exhausted st = true -> forall k, k < length st -> length (vals_k st k) <= cur_k st k.
Proof.
  intros st H k Hk. unfold all_exhausted in H. rewrite forallb_forall in H.
  apply Nat.leb_le. apply (H (nth k st empty_set)). apply nth_In. exact Hk.
Qed.

Section Prog.
  Variable p : prog.

  Definition pkg_of (i : inst) : nat := N.to_nat (o_pkg (get_obj p (i_obj i))).

  Definition wf_prog : Prop :=
    0 < p_npkg p /\ Forall (fun o => N.to_nat (o_pkg o) < p_npkg p) (p_objs p).

  Lemma pkg_of_lt : wf_prog -> forall i, pkg_of i < p_npkg p.
  Proof.
    intros [H0 H] i. unfold pkg_of, get_obj.
    destruct (Nat.lt_ge_cases (N.to_nat (i_obj i)) (length (p_objs p))) as [L | L].
    - rewrite Forall_forall in H. apply H. apply nth_In; auto.
    - rewrite nth_overflow by auto. simpl. exact H0.
  Qed.

  Lemma add_one_eq : forall st i, add_one p st i =
    if mem_inst i (vals_k st (pkg_of i)) then st else upd_set st (pkg_of i) (push i).
  Proof. reflexivity. Qed.

  Definition goes_to (n k : nat) (i : inst) : bool := (pkg_of i =? k) && (k <? n).

  Lemma add_one_length : forall st i, length (add_one p st i) = length st.
  Proof. intros. rewrite add_one_eq. destruct (mem_inst i _); auto using upd_set_length. Qed.

  Lemma cur_k_add_one : forall st i k, cur_k (add_one p st i) k = cur_k st k.
  Proof. intros. rewrite add_one_eq. destruct (mem_inst i _); auto using cur_k_push. Qed.

  Lemma vals_k_add_one : forall st i k, vals_k (add_one p st i) k =
    if goes_to (length st) k i then oadd mem_inst (vals_k st k) i else vals_k st k.
  Proof.
    intros. rewrite add_one_eq. unfold oadd, goes_to. rewrite Nat.eqb_sym. destruct (Nat.eqb_spec k (pkg_of i)) as [->|N]; simpl.
    - destruct (mem_inst i _); [destruct (_ <? _); reflexivity|]. rewrite vals_k_push, Nat.eqb_refl. reflexivity.
    - destruct (mem_inst i _); [reflexivity|]. rewrite vals_k_push. apply Nat.eqb_neq in N. rewrite N. reflexivity.
  Qed.

  Lemma adds_length : forall l st, length (fold_left (add_one p) l st) = length st.
  Proof. induction l as [|i l IH]; intro st; simpl; [reflexivity | rewrite IH; apply add_one_length]. Qed.

  Lemma adds_cur : forall l st k, cur_k (fold_left (add_one p) l st) k = cur_k st k.
  Proof. induction l as [|i l IH]; intros st k; simpl; [reflexivity | rewrite IH; apply cur_k_add_one]. Qed.

  Lemma adds_vals : forall l st k, vals_k (fold_left (add_one p) l st) k =
    oadd_all mem_inst (vals_k st k) (filter (goes_to (length st) k) l).
  Proof.
    induction l as [|i l IH]; intros st k; simpl; [reflexivity|].
    rewrite IH, vals_k_add_one, add_one_length. destruct (goes_to _ k i); reflexivity.
  Qed.

  (* the instances one identifier contributes in context c, in the order in which they are added *)
  Definition yield_list (c : option inst) (it : item) : list inst :=
    match produced p c it with Some j => with_methods p j | None => [] end.

  Lemma steps_adds : forall c items st,
    fold_left (step p c) items st = fold_left (add_one p) (flat_map (yield_list c) items) st.
  Proof.
    intro c. induction items as [|it items IH]; intro st; simpl; [reflexivity|].
    rewrite fold_left_app, <- IH. unfold step, yield_list, add_inst. destruct (produced p c it); reflexivity.
  Qed.

  (* the loops of Finish only ever visit: the cursor of some package moves past its instance, which is then scanned *)
  Lemma collect_ind (P : state -> Prop) : P (seed_state p) ->
    (forall k st root, P st -> nth_error (vals_k st k) (cur_k st k) = Some root -> P (scan p (upd_set st k next) root)) ->
    forall fuel sched, P (collect p fuel sched).
  Proof.
    intros H0 Hv fuel sched. unfold collect. apply fold_left_inv; [|exact H0]. intros st k. revert st.
    induction fuel; simpl; intros st Ps; [exact Ps|].
    destruct (nth_error _ _) as [root|] eqn:E; [|exact Ps]. apply IHfuel, Hv; assumption.
  Qed.

  Inductive Reach : inst -> Prop :=
  | R_seed : forall it j j', In it (p_seed p) -> produced p None it = Some j -> In j' (with_methods p j) -> Reach j'
  | R_step : forall i it j j', Reach i -> In it (o_tmpl (get_obj p (i_obj i))) ->
                               produced p (Some i) it = Some j -> In j' (with_methods p j) -> Reach j'.

  Definition closed_set (S : inst -> Prop) : Prop :=
    (forall it j j', In it (p_seed p) -> produced p None it = Some j -> In j' (with_methods p j) -> S j') /\
    (forall i it j j', S i -> In it (o_tmpl (get_obj p (i_obj i))) -> produced p (Some i) it = Some j ->
                       In j' (with_methods p j) -> S j').

  Lemma Reach_closed : closed_set Reach.
  Proof. split; intros; [eapply R_seed | eapply R_step]; eauto. Qed.

  Lemma Reach_least : forall S, closed_set S -> forall i, Reach i -> S i.
  Proof. intros S [H1 H2] i R. induction R; [eapply H1 | eapply H2]; eauto. Qed.

  Lemma in_yields : forall c items x, In x (flat_map (yield_list c) items) <->
    exists it j, In it items /\ produced p c it = Some j /\ In x (with_methods p j).
  Proof.
    intros. rewrite in_flat_map. unfold yield_list. split.
    - intros (it & Hit & H). destruct (produced p c it) as [j|] eqn:E; [eauto | destruct H].
    - intros (it & j & Hit & E & H). exists it. rewrite E. auto.
  Qed.

  Lemma In_st_steps : wf_prog -> forall c items st x, length st = p_npkg p ->
    (In_st x (fold_left (step p c) items st) <-> In_st x st \/ In x (flat_map (yield_list c) items)).
  Proof.
    intros W c items st x L. rewrite steps_adds. unfold In_st. setoid_rewrite adds_vals.
    setoid_rewrite (In_oadd_all _ mem_inst_spec). setoid_rewrite filter_In. split.
    - intros [k [H | [H _]]]; eauto.
    - intros [[k H] | H]; [eauto|]. exists (pkg_of x). right. split; [exact H|].
      (* x goes to the list of its package, which the state has *)
      unfold goes_to. rewrite Nat.eqb_refl, L. apply Nat.ltb_lt, pkg_of_lt, W.
  Qed.

  Definition sound (st : state) : Prop := forall i, In_st i st -> Reach i.

  (* what the templates of an instance before the cursor produce has been added *)
  Definition closed_processed (st : state) : Prop :=
    forall k n i, n < cur_k st k -> nth_error (vals_k st k) n = Some i ->
    forall x, In x (flat_map (yield_list (Some i)) (o_tmpl (get_obj p (i_obj i)))) -> In_st x st.

  Definition seeds_in (st : state) : Prop :=
    forall x, In x (flat_map (yield_list None) (p_seed p)) -> In_st x st.

  Definition Inv (st : state) : Prop :=
    length st = p_npkg p /\ sound st /\ seeds_in st /\ closed_processed st /\
    (forall k, cur_k st k <= length (vals_k st k)).

  Lemma seed_state_Inv : wf_prog -> Inv (seed_state p).
  Proof.
    intro W. unfold seed_state. set (st0 := repeat empty_set (p_npkg p)).
    assert (L0 : length st0 = p_npkg p) by apply repeat_length.
    assert (C0 : forall k, cur_k (fold_left (step p None) (p_seed p) st0) k = 0).
    { intro k. rewrite steps_adds, adds_cur. apply cur_k_repeat. }
    split; [rewrite steps_adds, adds_length; exact L0|]. split; [|split; [|split]].
    - (* sound *) intros i Hi. apply In_st_steps in Hi; [|exact W|exact L0]. destruct Hi as [[k Hi] | Hi].
      + unfold st0 in Hi. rewrite vals_k_repeat in Hi. destruct Hi.
      + apply in_yields in Hi. destruct Hi as (it & j & Hit & Pr & Hj). eapply R_seed; eauto.
    - (* seeds_in *) intros x Y. apply In_st_steps; eauto.
    - (* closed_processed: no cursor has moved yet *) intros k n i Hn. rewrite C0 in Hn. lia.
    - intro k. rewrite C0. lia.
  Qed.

  Lemma visit_Inv : wf_prog -> forall k st root, Inv st ->
    nth_error (vals_k st k) (cur_k st k) = Some root -> Inv (scan p (upd_set st k next) root).
  Proof.
    intros W k st root (L & Snd & SD & CP & CL) E.
    destruct (nth_error_vals _ _ _ _ E) as [Hk Hcur].
    assert (L1 : length (upd_set st k next) = p_npkg p) by (rewrite upd_set_length; exact L).
    set (st' := scan p (upd_set st k next) root).
    assert (M : forall x, In_st x st' <->
                          In_st x st \/ In x (flat_map (yield_list (Some root)) (o_tmpl (get_obj p (i_obj root))))).
    { intro x. unfold st', scan. rewrite (In_st_steps W), In_st_next by exact L1. reflexivity. }
    assert (X' : forall k', cur_k st' k' = (if k' =? k then S (cur_k st k) else cur_k st k') /\
                            exists suf, vals_k st' k' = vals_k st k' ++ suf).
    { intro k'. unfold st', scan. rewrite steps_adds, adds_cur, adds_vals, (cur_k_next st k k' Hk), vals_k_next.
      split; [reflexivity | apply oadd_all_extends]. }
    split; [unfold st', scan; rewrite steps_adds, adds_length; exact L1|]. split; [|split; [|split]].
    - (* sound *) intros x Hx. apply M in Hx. destruct Hx as [Hx | Hx]; [auto|].
      apply in_yields in Hx. destruct Hx as (it & j & Hit & Pr & Hj). eapply R_step; eauto.
      apply Snd. exists k. eapply nth_error_In; eauto.
    - (* seeds_in *) intros x Y. apply M. eauto.
    - (* closed_processed: a processed position is an old one, or the one the cursor has just passed *)
      intros k' n i Hn Hnth x Y. apply M.
      destruct (X' k') as [C2 [suf V2]]. rewrite C2 in Hn. rewrite V2 in Hnth. specialize (CL k').
      assert (Hlt : n < cur_k st k' \/ k' = k /\ n = cur_k st k).
      { destruct (Nat.eqb_spec k' k) as [->|]; lia. }
      destruct Hlt as [Hlt | [-> ->]]; rewrite nth_error_app1 in Hnth by lia.
      + left. eapply (CP k' n i); eauto.
      + right. rewrite E in Hnth. inversion Hnth; subst i. eauto.
    - (* the cursor stays within the list *)
      intro k'. destruct (X' k') as [C2 [suf V2]]. rewrite C2, V2, app_length. specialize (CL k').
      destruct (Nat.eqb_spec k' k) as [->|]; lia.
  Qed.

  Lemma collect_Inv : wf_prog -> forall fuel sched, Inv (collect p fuel sched).
  Proof. intro W. exact (collect_ind Inv (seed_state_Inv W) (visit_Inv W)). Qed.

  Theorem Inv_exhausted_lfp : forall st, Inv st -> all_exhausted st = true -> forall i, In_st i st <-> Reach i.
  Proof.
    intros st [L [Snd [SD [CP CL]]]] EX i. split; [apply Snd|].
    (* every instance has been processed, so the collected set is closed and contains the least closed set *)
    revert i. apply Reach_least. split.
    - intros it j j' Hit Pr Hj. apply SD, in_yields. eauto.
    - intros i it j j' [k Hi] Hit Pr Hj. destruct (In_nth_error _ _ Hi) as [n Hn].
      apply (CP k n i); [|exact Hn|apply in_yields; eauto].
      destruct (nth_error_vals _ _ _ _ Hn) as [Hk Hlt].
      pose proof (all_exhausted_spec st EX k Hk). lia.
  Qed.

  Lemma collect_sound : wf_prog -> forall fuel sched i, In i (all_vals (collect p fuel sched)) -> Reach i.
  Proof. intros W fuel sched i H. apply In_st_all_vals in H. apply (collect_Inv W fuel sched); exact H. Qed.

  Theorem collect_lfp_lem : wf_prog -> forall fuel sched,
    all_exhausted (collect p fuel sched) = true ->
    forall i, In i (all_vals (collect p fuel sched)) <-> Reach i.
  Proof.
    intros W fuel sched EX i. rewrite In_st_all_vals. apply Inv_exhausted_lfp; auto. apply collect_Inv, W.
  Qed.

  Theorem id_injective_lem : forall st i j n,
    pkg_of i = pkg_of j -> inst_id p st i = Some n -> inst_id p st j = Some n -> i = j.
  Proof.
    unfold inst_id. intros st i j n E. fold (pkg_of i) (pkg_of j). rewrite E.
    exact (index_of_inj inst_eqb inst_eqb_spec _ i j n).
  Qed.

  (* list k holds instances of package k only, each once: what makes [inst_id] the position *)
  Definition placed (st : state) : Prop :=
    forall k, NoDup (vals_k st k) /\ forall i, In i (vals_k st k) -> pkg_of i = k.

  Lemma steps_placed : forall c items st, placed st -> placed (fold_left (step p c) items st).
  Proof.
    intros c items st Pl k. rewrite steps_adds, adds_vals. destruct (Pl k) as [ND PK]. split.
    - apply (oadd_all_NoDup _ mem_inst_spec), ND.
    - intros x Hx. apply (In_oadd_all _ mem_inst_spec) in Hx. destruct Hx as [Hx | Hx]; [auto|].
      apply filter_In in Hx. destruct Hx as [_ G]. apply andb_true_iff in G. apply Nat.eqb_eq, G.
  Qed.

  Lemma collect_placed : forall fuel sched, placed (collect p fuel sched).
  Proof.
    apply collect_ind.
    - unfold seed_state. apply steps_placed.
      intro k. rewrite vals_k_repeat. split; [constructor | intros i []].
    - intros k st root Pl _. unfold scan. apply steps_placed.
      intro k'. rewrite vals_k_next. apply Pl.
  Qed.

  (* InstanceSet.ID(values[n]) = n *)
  Theorem id_position_lem : forall st k n i, placed st ->
    nth_error (vals_k st k) n = Some i -> inst_id p st i = Some n.
  Proof.
    intros st k n i Pl Hn. destruct (Pl k) as [ND PK].
    unfold inst_id. fold (pkg_of i). rewrite (PK i (nth_error_In _ _ Hn)). apply (index_of_NoDup inst_eqb inst_eqb_spec); auto.
  Qed.

  Theorem id_total_lem : forall st i, placed st -> In_st i st -> exists n, inst_id p st i = Some n.
  Proof.
    intros st i Pl [k Hi]. destruct (Pl k) as [ND PK].
    unfold inst_id. fold (pkg_of i). rewrite (PK i Hi). apply (index_of_In inst_eqb inst_eqb_spec); auto.
  Qed.

  Corollary collect_id_position : forall fuel sched k n i,
    nth_error (vals_k (collect p fuel sched) k) n = Some i -> inst_id p (collect p fuel sched) i = Some n.
  Proof. intros fuel sched k n i. apply id_position_lem, collect_placed. Qed.

  Corollary collect_id_total : forall fuel sched i,
    In i (all_vals (collect p fuel sched)) -> exists n, inst_id p (collect p fuel sched) i = Some n.
  Proof. intros fuel sched i H. apply id_total_lem; [apply collect_placed | apply In_st_all_vals, H]. Qed.
End Prog.

(* the intended semantics: an identifier is skipped only when a type parameter is really left in its type
   arguments (no "lazy underlying" rule) *)
Definition produced_ideal (p : prog) (c : option inst) (it : item) : option inst :=
  match it with
  | RInst t es nested =>
      let targs := map (subst (ctx_own c) (ctx_nest c)) es in
      let na := if nested then ctx_nest_args p c else [] in
      if forallb closed targs then Some (mkInst t targs na) else None
  | RDef t => match ctx_own c with [] => None | own => Some (mkInst t [] own) end
  end.

Inductive ReachIdeal (p : prog) : inst -> Prop :=
| RI_seed : forall it j j', In it (p_seed p) -> produced_ideal p None it = Some j -> In j' (with_methods p j) -> ReachIdeal p j'
| RI_step : forall i it j j', ReachIdeal p i -> In it (o_tmpl (get_obj p (i_obj i))) ->
                              produced_ideal p (Some i) it = Some j -> In j' (with_methods p j) -> ReachIdeal p j'.

Definition no_lazy (p : prog) : Prop := forall o, o_lazy (get_obj p o) = false.

Lemma existsb_negb_forallb {A} (f g : A -> bool) l :
  (forall x, In x l -> f x = negb (g x)) -> existsb f l = negb (forallb g l).
Proof.
  induction l as [|a l IH]; simpl; intro H; auto.
  rewrite negb_andb, <- IH, <- H; auto.
Qed.

Lemma is_generic_closed : forall p ign t, no_lazy p -> is_generic p ign t = negb (closed t).
Proof.
  intros p ign t NL. induction t as [|c l IH|o l IH| | |] using ty_ind'; simpl; auto.
  - apply existsb_negb_forallb, IH.
  - rewrite NL. simpl. rewrite orb_false_r. apply existsb_negb_forallb, IH.
Qed.

Lemma produced_ideal_eq : forall p c it, no_lazy p -> produced p c it = produced_ideal p c it.
Proof.
  intros p c it NL. destruct it; simpl; auto.
  rewrite (existsb_negb_forallb _ closed) by (intros; apply is_generic_closed, NL).
  destruct (forallb closed _); reflexivity.
Qed.

Lemma Reach_ideal_iff : forall p, no_lazy p -> forall i, Reach p i <-> ReachIdeal p i.
Proof.
  intros p NL i. split; intro R; induction R.
  - eapply RI_seed; eauto. rewrite <- produced_ideal_eq; auto.
  - eapply RI_step; eauto. rewrite <- produced_ideal_eq; auto.
  - eapply R_seed; eauto. rewrite produced_ideal_eq; auto.
  - eapply R_step; eauto. rewrite produced_ideal_eq; auto.
Qed.

(* packages a (0), b (1), c (2); c.G[T]; a.A[T] uses c.G[[]T]; b.B[T] uses c.G[map[int]T]; main code: A[int], B[int] *)
Definition prog_ids : prog :=
  mkProg 3 [ mkObj 2 KFunc [] None false [];
             mkObj 0 KFunc [] None false [RInst 0 [TCon 0 [TOwn 0]] false];
             mkObj 1 KFunc [] None false [RInst 0 [TCon 2 [TOwn 0]] false] ]
         [RInst 1 [TBase 0] false; RInst 2 [TBase 0] false].

Lemma prog_ids_wf : wf_prog prog_ids.
Proof. split; [unfold prog_ids; simpl; lia|]. repeat constructor; simpl; lia. Qed.

Definition inst_ids : inst := mkInst 0 [TCon 0 [TBase 0]] [].
Lemma ids_order_dependent_lem :
  all_exhausted (collect prog_ids 10 [0; 1; 2]) = true /\
  all_exhausted (collect prog_ids 10 [1; 0; 2]) = true /\
  inst_id prog_ids (collect prog_ids 10 [0; 1; 2]) inst_ids = Some 0%nat /\
  inst_id prog_ids (collect prog_ids 10 [1; 0; 2]) inst_ids = Some 1%nat.
Proof. vm_compute. repeat split. Qed.

(* func G[T any](); func A[X any]() { type L struct{ x X }; G[L]() }; main: A[int]() *)
Definition prog_local : prog :=
  mkProg 1 [ mkObj 0 KFunc [] None false [];
             mkObj 0 KFunc [] None false [RDef 2; RInst 0 [TNamed 2 []] false];
             mkObj 0 KType [] (Some 1%N) true [] ]
         [RInst 1 [TBase 0] false].

Lemma prog_local_wf : wf_prog prog_local.
Proof. split; [unfold prog_local; simpl; lia|]. repeat constructor; simpl; lia. Qed.

Definition inst_local : inst := mkInst 0 [TNamed 2 []] [].
Lemma local_type_arg_dropped_lem :
  all_exhausted (collect prog_local 10 [0]) = true /\
  ReachIdeal prog_local inst_local /\
  ~ In inst_local (all_vals (collect prog_local 10 [0])).
Proof.
  split; [vm_compute; reflexivity|]. split.
  - eapply (RI_step prog_local (mkInst 1 [TBase 0] []) (RInst 0 [TNamed 2 []] false)).
    + eapply (RI_seed prog_local (RInst 1 [TBase 0] false)); [left; reflexivity | vm_compute; reflexivity | left; reflexivity].
    + right; left; reflexivity.
    + vm_compute; reflexivity.
    + left; reflexivity.
  - vm_compute. intros [H | [H | []]]; discriminate H.
Qed.
