(* C04 — the bucket model of typeparams.InstanceMap (Model/C04_P4_Map.v) refines an association-list finite map,
   for every hash function h and every history of Set/Get/Has/Delete/Len. *)
From Coq Require Import List NArith Bool Arith Lia.
From Verif Require Import Model.C04_Inst Model.C04_P4_Map Proofs.C04_Inst.
Import ListNotations.

Section MapRef.
Variable V : Type.
Variable h : ty -> N.

(* matching inside a bucket only looks at (TNest, TArgs): the object is part of the bucket key *)
Definition nk (k : inst) := (i_tnest k, i_targs k).
Definition amatch (key k : inst) : bool :=
  tys_eqb (i_tnest k) (i_tnest key) && tys_eqb (i_targs k) (i_targs key).
Arguments amatch : simpl never.

Lemma amatch_iff a b : amatch a b = true <-> nk b = nk a.
Proof.
  unfold amatch, nk. rewrite andb_true_iff, !tys_eqb_spec. split.
  - intros [-> ->]; reflexivity.
  - intros E; inversion E; auto.
Qed.
Lemma amatch_false a b : amatch a b = false -> nk b <> nk a.
Proof. intros H E. apply amatch_iff in E. congruence. Qed.

Lemma amatch_refl k : amatch k k = true.
Proof. apply amatch_iff. reflexivity. Qed.

(* turns every hypothesis on amatch into an (in)equation between the (TNest, TArgs) pairs *)
Ltac amc := repeat match goal with
  | H : amatch _ _ = true |- _ => apply amatch_iff in H
  | H : amatch _ _ = false |- _ => apply amatch_false in H end.

Lemma tys_eqb_sym a b : tys_eqb a b = tys_eqb b a.
Proof. apply eq_true_iff_eq. rewrite !tys_eqb_spec. split; congruence. Qed.

Lemma inst_amatch a b : i_obj a = i_obj b -> inst_eqb a b = amatch a b.
Proof.
  intros H. unfold inst_eqb, amatch. rewrite H, N.eqb_refl. simpl.
  rewrite (tys_eqb_sym (i_targs a)), (tys_eqb_sym (i_tnest a)). apply andb_comm.
Qed.

Fixpoint bget (key : inst) (b : bucket V) : option V :=
  match b with
  | [] => None
  | None :: r => bget key r
  | Some (k, v) :: r => if amatch key k then Some v else bget key r
  end.

Fixpoint bnodup (b : bucket V) : Prop :=
  match b with
  | [] => True
  | None :: r => bnodup r
  | Some (k, _) :: r => bget k r = None /\ bnodup r
  end.

Lemma fi_some key k v r :
  find_index V key (Some (k, v) :: r) = if amatch key k then Some 0 else option_map S (find_index V key r).
Proof. reflexivity. Qed.
Lemma fi_none key r : find_index V key (None :: r) = option_map S (find_index V key r).
Proof. reflexivity. Qed.

Lemma find_spec key b :
  match find_index V key b with
  | Some i => exists k0 v0, nth i b None = Some (k0, v0) /\ bget key b = Some v0
  | None => bget key b = None
  end.
Proof.
  induction b as [|[[k v]|] r IH].
  - reflexivity.
  - rewrite fi_some. simpl bget. destruct (amatch key k) eqn:E; [exists k, v; auto|].
    destruct (find_index V key r); exact IH.
  - rewrite fi_none. simpl bget. destruct (find_index V key r); exact IH.
Qed.

Lemma bget_nk a b l : nk a = nk b -> bget a l = bget b l.
Proof.
  intros H. induction l as [|[[k v]|] r IH]; simpl; auto.
  assert (amatch a k = amatch b k) as ->.
  { unfold nk in H. inversion H as [[H1 H2]]. unfold amatch. rewrite H1, H2. reflexivity. }
  rewrite IH. reflexivity.
Qed.

(* [bupd key f b b']: b' is b with the value of key set to f; the four bucket updates are of this kind *)
Definition bupd (key : inst) (f : option V) (b b' : bucket V) : Prop :=
  bnodup b' /\ forall k', bget k' b' = if amatch k' key then f else bget k' b.

Lemma bupd_skip_some key f k1 v1 r r' : amatch key k1 = false -> bget k1 r = None ->
  bupd key f r r' -> bupd key f (Some (k1, v1) :: r) (Some (k1, v1) :: r').
Proof.
  intros E ND1 [ND H]. split; simpl.
  - split; auto. rewrite H, ND1. destruct (amatch k1 key) eqn:E1; auto. amc; congruence.
  - intro k'. rewrite H. destruct (amatch k' k1) eqn:E1, (amatch k' key) eqn:E2; auto; amc; congruence.
Qed.

Lemma bupd_skip_none key f r r' : bupd key f r r' -> bupd key f (None :: r) (None :: r').
Proof. intro H. exact H. Qed.

(* the entry findIndex reports is overwritten: by a new value under the stored key (Set), or by nil (Delete) *)
Lemma bupd_found key (c : option V) b : forall i k0 v0, bnodup b ->
  find_index V key b = Some i -> nth i b None = Some (k0, v0) ->
  bupd key c b (set_nth V b i (option_map (pair k0) c)).
Proof.
  induction b as [|[[k1 v1]|] r IH]; intros i k0 v0 ND H N.
  - discriminate.
  - destruct ND as [ND1 ND2]. rewrite fi_some in H. destruct (amatch key k1) eqn:E.
    + inversion H; subst. simpl in N. inversion N; subst. destruct c as [v|]; (split; simpl; auto); intro k'.
      * destruct (amatch k' k0) eqn:E1, (amatch k' key) eqn:E2; auto; amc; congruence.
      * destruct (amatch k' key) eqn:E2.
        -- amc. rewrite (bget_nk k' k0) by congruence. exact ND1.
        -- destruct (amatch k' k0) eqn:E1; auto. amc; congruence.
    + destruct (find_index V key r) as [j|] eqn:F; simpl in H; inversion H; subst.
      apply bupd_skip_some; auto. apply (IH j k0 v0); auto.
  - rewrite fi_none in H. destruct (find_index V key r) as [j|] eqn:F; simpl in H; inversion H; subst.
    apply bupd_skip_none, (IH j k0 v0); auto.
Qed.

Lemma bupd_hole key v b : forall hl, bnodup b -> bget key b = None -> nth_error b hl = Some None ->
  bupd key (Some v) b (set_nth V b hl (Some (key, v))).
Proof.
  induction b as [|[[k1 v1]|] r IH]; intros hl ND G N.
  - destruct hl; discriminate.
  - destruct ND as [ND1 ND2]. simpl in G. destruct (amatch key k1) eqn:E; [discriminate|].
    destruct hl as [|hl]; simpl in N; [discriminate|]. apply bupd_skip_some; auto.
  - destruct hl as [|hl]; simpl in N.
    + split; simpl; auto.
    + apply bupd_skip_none; auto.
Qed.

Lemma bupd_app key v b : bnodup b -> bget key b = None -> bupd key (Some v) b (b ++ [Some (key, v)]).
Proof.
  induction b as [|[[k1 v1]|] r IH]; intros ND G.
  - split; simpl; auto.
  - destruct ND as [ND1 ND2]. simpl in G. destruct (amatch key k1) eqn:E; [discriminate|].
    apply bupd_skip_some; auto.
  - apply bupd_skip_none; auto.
Qed.

Lemma set_scan_fst key b : forall i hole,
  fst (set_scan V key b i hole) = option_map (Nat.add i) (find_index V key b).
Proof.
  induction b as [|[[k v]|] r IH]; intros i hole.
  - reflexivity.
  - rewrite fi_some. simpl set_scan. fold (amatch key k). destruct (amatch key k).
    + simpl. f_equal. lia.
    + rewrite IH. destruct (find_index V key r); simpl; f_equal; lia.
  - rewrite fi_none. simpl set_scan. rewrite IH. destruct (find_index V key r); simpl; f_equal; lia.
Qed.

Lemma set_scan_hole key b : forall i hole hl, snd (set_scan V key b i hole) = Some hl ->
  hole = Some hl \/ exists j, hl = i + j /\ nth_error b j = Some None.
Proof.
  induction b as [|[[k v]|] r IH]; intros i hole hl H; simpl in H.
  - auto.
  - destruct (_ && _); [auto|].
    destruct (IH _ _ _ H) as [|[j [-> N]]]; auto. right. exists (S j). split; [lia | exact N].
  - destruct (IH _ _ _ H) as [E|[j [-> N]]]; right.
    + inversion E. exists 0. split; [lia | reflexivity].
    + exists (S j). split; [lia | exact N].
Qed.

Lemma bkey_eqb_eq (a b : bkey) : bkey_eqb a b = true <-> a = b.
Proof.
  unfold bkey_eqb. destruct a, b; simpl. rewrite andb_true_iff, !N.eqb_eq. split.
  - intros [-> ->]; reflexivity.
  - intros E; inversion E; auto.
Qed.

Lemma bkey_eqb_refl (a : bkey) : bkey_eqb a a = true.
Proof. apply bkey_eqb_eq; reflexivity. Qed.

Lemma lookup_store d k b k' : lookup V (store V d k b) k' = if bkey_eqb k' k then b else lookup V d k'.
Proof.
  induction d as [|[k0 b0] r IH]; simpl.
  - destruct (bkey_eqb k' k); reflexivity.
  - destruct (bkey_eqb k k0) eqn:E; simpl.
    + apply bkey_eqb_eq in E; subst. destruct (bkey_eqb k' k0); reflexivity.
    + rewrite IH. destruct (bkey_eqb k' k) eqn:E1, (bkey_eqb k' k0) eqn:E2; auto.
      apply bkey_eqb_eq in E1, E2; subst. rewrite bkey_eqb_refl in E. discriminate.
Qed.

Lemma store_all (P : bkey -> bucket V -> Prop) d k b :
  (forall bk, P bk (lookup V d bk)) -> P k b -> forall bk, P bk (lookup V (store V d k b) bk).
Proof.
  intros H Hb bk. rewrite lookup_store. destruct (bkey_eqb bk k) eqn:E; auto.
  apply bkey_eqb_eq in E; subst; auto.
Qed.

Lemma map_get_bget m k : map_get V h m k = bget k (lookup V (m_data V m) (key_of h k)).
Proof.
  unfold map_get. pose proof (find_spec k (lookup V (m_data V m) (key_of h k))) as F.
  destruct (find_index V k _); [destruct F as (k0 & v0 & -> & ->)|rewrite F]; reflexivity.
Qed.

Lemma upd_get m key b' n (f : option V) :
  (forall k', bget k' b' = if amatch k' key then f else bget k' (lookup V (m_data V m) (key_of h key))) ->
  forall k', map_get V h (mkMap V (store V (m_data V m) (key_of h key) b') n) k'
             = if inst_eqb k' key then f else map_get V h m k'.
Proof.
  intros H k'. rewrite !map_get_bget. simpl m_data. rewrite lookup_store.
  destruct (bkey_eqb (key_of h k') (key_of h key)) eqn:E.
  - apply bkey_eqb_eq in E. rewrite H, E, (inst_amatch k' key); [reflexivity|].
    unfold key_of in E. inversion E; auto.
  - destruct (inst_eqb k' key) eqn:I; [|reflexivity].
    apply inst_eqb_spec in I; subst. rewrite bkey_eqb_refl in E. discriminate.
Qed.

(* what Keys() needs: one entry per bucket key, and every bucket holds keys of its own hash only *)
Fixpoint dnodup (d : list (bkey * bucket V)) : Prop :=
  match d with
  | [] => True
  | (k, _) :: r => ~ In k (map fst r) /\ dnodup r
  end.

Definition bucket_keys (bk : bkey) (b : bucket V) : Prop :=
  forall k v, In (Some (k, v)) b -> key_of h k = bk.

Lemma dnodup_lookup d : dnodup d -> forall bk b, In (bk, b) d -> lookup V d bk = b.
Proof.
  induction d as [|[k0 b0] r IH]; simpl; intros ND bk b HI; [contradiction|].
  destruct ND as [N1 N2]. destruct HI as [E|HI].
  - inversion E; subst. rewrite bkey_eqb_refl. reflexivity.
  - destruct (bkey_eqb bk k0) eqn:E; [|apply IH; auto].
    apply bkey_eqb_eq in E; subst. destruct N1. apply (in_map fst) in HI. exact HI.
Qed.

Lemma store_keys d k b x : In x (map fst (store V d k b)) -> x = k \/ In x (map fst d).
Proof.
  induction d as [|[k0 b0] r IH]; simpl.
  - intros [<-|[]]; auto.
  - destruct (bkey_eqb k k0) eqn:E; simpl.
    + auto.
    + intros [<-|HI]; auto. destruct (IH HI); auto.
Qed.

Lemma dnodup_store d k b : dnodup d -> dnodup (store V d k b).
Proof.
  induction d as [|[k0 b0] r IH]; simpl.
  - auto.
  - intros [N1 N2]. destruct (bkey_eqb k k0) eqn:E; simpl.
    + auto.
    + split; auto. intros HI. apply store_keys in HI. destruct HI as [->|HI]; auto.
      rewrite bkey_eqb_refl in E. discriminate.
Qed.

Lemma lookup_in d bk : lookup V d bk <> [] -> In (bk, lookup V d bk) d.
Proof.
  induction d as [|[k0 b0] r IH]; simpl.
  - intros H; contradiction.
  - destruct (bkey_eqb bk k0) eqn:E.
    + apply bkey_eqb_eq in E; subst. auto.
    + auto.
Qed.

Lemma in_set_nth (b : bucket V) c x : forall i, In x (set_nth V b i c) -> x = c \/ In x b.
Proof.
  induction b as [|y r IH]; intros i HI; simpl in *.
  - contradiction.
  - destruct i; simpl in HI.
    + destruct HI; auto.
    + destruct HI as [<-|HI]; auto. destruct (IH _ HI); auto.
Qed.

Lemma nth_in (b : bucket V) x : forall i, nth i b None = Some x -> In (Some x) b.
Proof.
  induction b as [|y r IH]; intros i H; destruct i; simpl in *; try discriminate; auto.
  right. eapply IH; eauto.
Qed.

Lemma keys_set_nth bk b i c : bucket_keys bk b ->
  (forall k v, c = Some (k, v) -> key_of h k = bk) -> bucket_keys bk (set_nth V b i c).
Proof.
  intros HB HC k v HI. apply in_set_nth in HI. destruct HI as [E|HI]; eauto.
Qed.

Lemma keys_app bk b k0 v0 : bucket_keys bk b -> key_of h k0 = bk ->
  bucket_keys bk (b ++ [Some (k0, v0)]).
Proof.
  intros HB HC k v HI. apply in_app_or in HI. destruct HI as [HI|[E|[]]]; eauto.
  inversion E; subst; auto.
Qed.

Fixpoint snodup (s : fmap V) : Prop :=
  match s with
  | [] => True
  | (k, _) :: r => spec_get V r k = None /\ snodup r
  end.

(* turns every hypothesis on inst_eqb into an equation or an inequation *)
Ltac iec := repeat match goal with
  | H : inst_eqb _ _ = true |- _ => apply inst_eqb_spec in H
  | H : inst_eqb ?a ?b = false |- _ =>
      assert (a <> b) by (let X := fresh in intro X; apply inst_eqb_spec in X; congruence); clear H
  end.

Lemma spec_get_remove s k k' :
  spec_get V (spec_remove V s k) k' = if inst_eqb k' k then None else spec_get V s k'.
Proof.
  induction s as [|[k0 v0] r IH]; simpl.
  - destruct (inst_eqb k' k); reflexivity.
  - destruct (inst_eqb k k0) eqn:E; simpl; rewrite IH.
    + destruct (inst_eqb k' k) eqn:E1; auto. destruct (inst_eqb k' k0) eqn:E2; auto. iec; congruence.
    + destruct (inst_eqb k' k) eqn:E1, (inst_eqb k' k0) eqn:E2; auto. iec; congruence.
Qed.

Lemma snodup_remove s k : snodup s -> snodup (spec_remove V s k).
Proof.
  induction s as [|[k0 v0] r IH]; simpl; auto.
  intros [N1 N2]. destruct (inst_eqb k k0); simpl; auto. split; auto.
  rewrite spec_get_remove, N1. destruct (inst_eqb k0 k); reflexivity.
Qed.

Lemma remove_absent s k : spec_get V s k = None -> spec_remove V s k = s.
Proof.
  induction s as [|[k0 v0] r IH]; simpl; auto.
  destruct (inst_eqb k k0); [discriminate|]. intros H. rewrite IH; auto.
Qed.

Lemma length_remove_present s k v : snodup s -> spec_get V s k = Some v ->
  S (length (spec_remove V s k)) = length s.
Proof.
  induction s as [|[k0 v0] r IH]; simpl; [discriminate|].
  intros [N1 N2] G. destruct (inst_eqb k k0) eqn:E.
  - iec; subst. rewrite remove_absent; auto.
  - simpl. f_equal. apply IH; auto.
Qed.

Lemma spec_get_set s k v k' :
  spec_get V (spec_set V s k v) k' = if inst_eqb k' k then Some v else spec_get V s k'.
Proof.
  unfold spec_set. simpl. rewrite spec_get_remove. destruct (inst_eqb k' k); reflexivity.
Qed.

Lemma snodup_set s k v : snodup s -> snodup (spec_set V s k v).
Proof.
  intros N. unfold spec_set. simpl. split; [|apply snodup_remove; auto].
  rewrite spec_get_remove, inst_eqb_refl. reflexivity.
Qed.

(* the refinement relation: m answers Get and Len as the finite map s does, and its buckets are in the shape the
   updates ([bnodup]) and Keys() ([dnodup], [bucket_keys]) rely on *)
Definition represents (m : imap V) (s : fmap V) : Prop :=
  (forall bk, bnodup (lookup V (m_data V m) bk)) /\ (forall k, map_get V h m k = spec_get V s k) /\
  m_len V m = length s /\ snodup s /\
  dnodup (m_data V m) /\ (forall bk, bucket_keys bk (lookup V (m_data V m) bk)).

Lemma represents_empty : represents empty_map [].
Proof. unfold represents. simpl. repeat split; auto. intros bk k v []. Qed.

Lemma represents_upd m s key b' n f s' :
  represents m s -> bupd key f (lookup V (m_data V m) (key_of h key)) b' -> bucket_keys (key_of h key) b' ->
  (forall k', spec_get V s' k' = if inst_eqb k' key then f else spec_get V s k') ->
  n = length s' -> snodup s' ->
  represents (mkMap V (store V (m_data V m) (key_of h key) b') n) s'.
Proof.
  intros (I & G & L & N & D & K) [ND HB] HK HS HL NS.
  split; [|split; [|split; [|split; [|split]]]]; auto; simpl m_data.
  - (* buckets duplicate-free *) apply (store_all (fun _ b => bnodup b)); auto.
  - (* Get *) intros k'. rewrite (upd_get m key b' n f HB), HS, G. reflexivity.
  - (* one entry per bucket key *) apply dnodup_store; auto.
  - (* buckets hold keys of their own hash *) apply store_all; auto.
Qed.

Lemma represents_bucket m s k : represents m s -> let b := lookup V (m_data V m) (key_of h k) in
  bnodup b /\ bucket_keys (key_of h k) b /\ bget k b = spec_get V s k.
Proof. intros (I & G & _ & _ & _ & K). cbv zeta. rewrite <- map_get_bget. auto. Qed.

Lemma set_ok m s k v : represents m s ->
  represents (fst (map_set V h m k v)) (spec_set V s k v) /\ snd (map_set V h m k v) = spec_get V s k.
Proof.
  intros HR. pose proof HR as (_ & _ & L & N & _). unfold map_set. cbv zeta.
  destruct (represents_bucket m s k HR) as (NDb & KB & Gk). set (b := lookup V (m_data V m) (key_of h k)) in *.
  pose proof (set_scan_fst k b 0 None) as SF. pose proof (set_scan_hole k b 0 None) as SH.
  destruct (set_scan V k b 0 None) as [j hole]. simpl in SF, SH. subst j.
  pose proof (find_spec k b) as G0. destruct (find_index V k b) as [j|] eqn:F; simpl.
  - (* the key is there: its value is replaced, the stored key stays *)
    destruct G0 as (k0 & v0 & Nj & B). rewrite Nj. rewrite B in Gk.
    split; [|exact Gk].
    apply (represents_upd m s k _ _ (Some v)); auto.
    + apply (bupd_found k (Some v) b j k0 v0); auto.
    + apply keys_set_nth; auto. intros k1 v1 E. inversion E; subst. apply (KB k1 v0), (nth_in _ _ j), Nj.
    + apply spec_get_set.
    + unfold spec_set. simpl. rewrite (length_remove_present s k v0); auto.
    + apply snodup_set; auto.
  - (* a new key goes into the last hole, or to the end when there is none *)
    rewrite G0 in Gk.
    assert (U : forall b', bupd k (Some v) b b' -> bucket_keys (key_of h k) b' ->
                represents (mkMap V (store V (m_data V m) (key_of h k) b') (S (m_len V m))) (spec_set V s k v)).
    { intros b' HB HK. apply (represents_upd m s k _ _ (Some v)); auto.
      - apply spec_get_set.
      - unfold spec_set. simpl. rewrite remove_absent; auto.
      - apply snodup_set; auto. }
    destruct hole as [hl|]; simpl; (split; [apply U | congruence]).
    + destruct (SH hl eq_refl) as [X|[j [-> Nj]]]; [discriminate|]. apply bupd_hole; auto.
    + apply keys_set_nth; auto. intros k1 v1 E. inversion E; subst; auto.
    + apply bupd_app; auto.
    + apply keys_app; auto.
Qed.

Lemma delete_ok m s k : represents m s ->
  represents (fst (map_delete V h m k)) (spec_remove V s k) /\
  snd (map_delete V h m k) = match spec_get V s k with Some _ => true | None => false end.
Proof.
  intros HR. pose proof HR as (_ & _ & L & N & _). unfold map_delete. cbv zeta.
  destruct (represents_bucket m s k HR) as (NDb & KB & Gk). set (b := lookup V (m_data V m) (key_of h k)) in *.
  pose proof (find_spec k b) as G0. destruct (find_index V k b) as [j|] eqn:F; simpl.
  - (* the key is there: its entry becomes nil *)
    destruct G0 as (k0 & v0 & Nj & B). rewrite B in Gk.
    rewrite <- Gk. split; [|reflexivity].
    apply (represents_upd m s k _ _ None); auto.
    + apply (bupd_found k None b j k0 v0); auto.
    + apply keys_set_nth; auto. intros k1 v1 E. discriminate.
    + apply spec_get_remove.
    + rewrite L, <- (length_remove_present s k v0 N (eq_sym Gk)). reflexivity.
    + apply snodup_remove; auto.
  - (* absent: nothing changes *) rewrite G0 in Gk. rewrite <- Gk, remove_absent; auto.
Qed.

Lemma step_ok m s o : represents m s ->
  represents (fst (map_step V h m o)) (fst (spec_step V s o)) /\
  snd (map_step V h m o) = snd (spec_step V s o).
Proof.
  intros HR. pose proof HR as (I & G & L & N & _). destruct o as [k v|k|k|k|]; simpl.
  - (* Set *) pose proof (set_ok m s k v HR) as [H1 H2].
    destruct (map_set V h m k v) as [m' old]. simpl in *. split; auto. congruence.
  - (* Get *) split; auto. rewrite G. reflexivity.
  - (* Has *) split; auto. unfold map_has. rewrite G. reflexivity.
  - (* Delete *) pose proof (delete_ok m s k HR) as [H1 H2].
    destruct (map_delete V h m k) as [m' bb]. simpl in *. split; auto. congruence.
  - (* Len *) split; auto; rewrite L; reflexivity.
Qed.

Lemma run_ok : forall ops m s, represents m s ->
  snd (map_run V h m ops) = snd (spec_run V s ops) /\
  represents (fst (map_run V h m ops)) (fst (spec_run V s ops)).
Proof.
  induction ops as [|o r IH]; intros m s HR; simpl.
  - auto.
  - pose proof (step_ok m s o HR) as H.
    destruct (map_step V h m o) as [m1 x], (spec_step V s o) as [s1 y]. simpl in H.
    destruct H as [HR1 ->]. specialize (IH m1 s1 HR1).
    destruct (map_run V h m1 r) as [m2 xs], (spec_run V s1 r) as [s2 ys]. simpl in *.
    destruct IH as [-> HR2]. auto.
Qed.

Lemma in_bget k v b : In (Some (k, v)) b -> bget k b <> None.
Proof.
  induction b as [|[[k1 v1]|] r IH]; simpl; intros HI.
  - contradiction.
  - destruct (amatch k k1) eqn:E; [discriminate|]. destruct HI as [E1|HI]; auto.
    inversion E1; subst. rewrite amatch_refl in E. discriminate.
  - destruct HI as [E1|HI]; [discriminate|auto].
Qed.

Lemma bget_in k b v : bget k b = Some v -> exists k0, In (Some (k0, v)) b /\ amatch k k0 = true.
Proof.
  induction b as [|[[k1 v1]|] r IH]; simpl; intros G.
  - discriminate.
  - destruct (amatch k k1) eqn:E.
    + inversion G; subst. exists k1; auto.
    + destruct (IH G) as (k0 & HI & A). exists k0; auto.
  - destruct (IH G) as (k0 & HI & A). exists k0; auto.
Qed.

(* a key listed by Keys() sits in the bucket where Get looks for it ([dnodup], [bucket_keys]); a key that Get finds
   is the stored key itself, because the bucket key fixes the object and the match fixes the type arguments *)
Lemma keys_ok m s : represents m s ->
  forall k, In k (map_keys V m) <-> spec_get V s k <> None.
Proof.
  intros (I & G & L & N & D & K) k. rewrite <- G, map_get_bget. unfold map_keys. split.
  - intros HI. apply in_flat_map in HI. destruct HI as ([bk b] & HI1 & HI2). simpl in HI2.
    apply in_flat_map in HI2. destruct HI2 as (c & HC1 & HC2).
    destruct c as [[k1 v1]|]; simpl in HC2; [|contradiction]. destruct HC2 as [->|[]].
    pose proof (dnodup_lookup _ D _ _ HI1) as Lk.
    pose proof (K bk) as KB. rewrite Lk in KB. rewrite (KB _ _ HC1), Lk.
    eapply in_bget; eauto.
  - intros HG. destruct (bget k (lookup V (m_data V m) (key_of h k))) as [v|] eqn:B; [|congruence].
    apply bget_in in B. destruct B as (k0 & HI & A).
    pose proof (K _ _ _ HI) as KK. apply amatch_iff in A.
    assert (k0 = k) as ->.
    { unfold key_of in KK. inversion KK as [[O T]]. unfold nk in A. inversion A.
      destruct k0, k; simpl in *; subst; reflexivity. }
    apply in_flat_map. exists (key_of h k, lookup V (m_data V m) (key_of h k)). split.
    + apply lookup_in. intros E. rewrite E in HI. contradiction.
    + simpl. apply in_flat_map. exists (Some (k, v)). split; simpl; auto.
Qed.

End MapRef.
