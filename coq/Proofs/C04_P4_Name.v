(* C04 — the JS reference of an instance (objectName(o)[id]) identifies the instance. *)
From Coq Require Import List NArith Bool Arith String Lia.
From Verif Require Import Model.C04_Inst Model.C04_P4_Name Proofs.C04_Inst.
Import ListNotations.
Local Open Scope string_scope.

Definition is_obj (p : prog) (o : N) : Prop := N.to_nat o < List.length (p_objs p).

(* the variable table is what funcContext.newVariable allocates: distinct objects of one package get distinct
   package-level variables (hypothesis of [js_ref_injective_lem]; checked on every compiled program by the correspondence) *)
Definition vars_distinct (p : prog) (nm : names) : Prop :=
  forall o1 o2, is_obj p o1 -> is_obj p o2 -> o_pkg (get_obj p o1) = o_pkg (get_obj p o2) ->
                assoc (n_var nm) o1 = assoc (n_var nm) o2 -> o1 = o2.

Lemma is_trivial_spec : forall i, is_trivial i = true -> i = mkInst (i_obj i) [] [].
Proof.
  intros [o a n]. unfold is_trivial; simpl. destruct a; destruct n; intro H; try discriminate; reflexivity.
Qed.

Theorem js_ref_generic_injective_lem : forall p st nm i j pk v n,
  js_ref p st nm i = Some (pk, v, Some n) -> js_ref p st nm j = Some (pk, v, Some n) -> i = j.
Proof.
  intros p st nm i j pk v n Hi Hj. unfold js_ref in *.
  destruct (is_trivial i); [discriminate|]. destruct (is_trivial j); [discriminate|].
  destruct (inst_id p st i) as [a|] eqn:Ei; [|discriminate].
  destruct (inst_id p st j) as [b|] eqn:Ej; [|discriminate].
  inversion Hi as [[Hp Hv Hn]]. inversion Hj as [[Hp' Hv' Hn']]. subst a b.
  eapply id_injective_lem; [| exact Ei | exact Ej]. unfold pkg_of. rewrite Hp, Hp'. reflexivity.
Qed.

Theorem js_ref_injective_lem : forall p st nm i j r,
  vars_distinct p nm -> is_obj p (i_obj i) -> is_obj p (i_obj j) ->
  js_ref p st nm i = Some r -> js_ref p st nm j = Some r -> i = j.
Proof.
  intros p st nm i j r VD Oi Oj Hi Hj. destruct r as [[pk v] [n|]].
  - eapply js_ref_generic_injective_lem; eauto.
  - unfold js_ref in *.
    destruct (is_trivial i) eqn:Ti; [| destruct (inst_id p st i); discriminate].
    destruct (is_trivial j) eqn:Tj; [| destruct (inst_id p st j); discriminate].
    inversion Hi as [[Hp Hv]]. inversion Hj as [[Hp' Hv']].
    apply is_trivial_spec in Ti. apply is_trivial_spec in Tj. rewrite Ti, Tj. f_equal.
    apply VD; auto; congruence.
Qed.

Theorem js_ref_position_lem : forall p fuel sched nm k n i, is_trivial i = false ->
  nth_error (vals_k (collect p fuel sched) k) n = Some i ->
  js_ref p (collect p fuel sched) nm i = Some (o_pkg (get_obj p (i_obj i)), assoc (n_var nm) (i_obj i), Some n).
Proof.
  intros p fuel sched nm k n i T H. unfold js_ref. rewrite T.
  rewrite (collect_id_position p fuel sched k n i H). reflexivity.
Qed.

(* go/types prints two types declared in different scopes of one function with the same text
   (func f() { type T int; { type T string; ... } }), so G[T] and G[T'] are different instances with one type string *)
Definition nm_shadow : names :=
  mkNames [(0%N, "int"); (20%N, "main.T"); (21%N, "main.T")] [(0%N, "main.G")] [(0%N, "main.G")] [(0%N, "main.G")] [(0%N, "G")] "T" "N" "F".

Definition inst_shadow_a : inst := mkInst 0 [TBase 20] [].
Definition inst_shadow_b : inst := mkInst 0 [TBase 21] [].

Lemma type_string_not_injective_lem :
  inst_shadow_a <> inst_shadow_b /\
  type_string nm_shadow inst_shadow_a = type_string nm_shadow inst_shadow_b /\
  inst_string nm_shadow inst_shadow_a = inst_string nm_shadow inst_shadow_b /\
  type_string nm_shadow inst_shadow_a = "main.G[main.T]".
Proof. split; [discriminate|]. vm_compute. repeat split. Qed.

(* for the same two instances the JS references differ as soon as both are collected *)
Definition prog_shadow : prog :=
  mkProg 1 [mkObj 0 KType [] None false []] [RInst 0 [TBase 20] false; RInst 0 [TBase 21] false].

Lemma shadow_refs_differ_lem :
  js_name prog_shadow (collect prog_shadow 5 [0]) nm_shadow inst_shadow_a = Some "G[0 /* main.T */]" /\
  js_name prog_shadow (collect prog_shadow 5 [0]) nm_shadow inst_shadow_b = Some "G[1 /* main.T */]".
Proof. vm_compute. split; reflexivity. Qed.

Theorem name_parts_injective_lem : forall nm i j,
  (forall a b, ty_str nm a = ty_str nm b -> a = b) ->
  (forall o1 o2, assoc (n_sym nm) o1 = assoc (n_sym nm) o2 -> o1 = o2) ->
  assoc (n_sym nm) (i_obj i) = assoc (n_sym nm) (i_obj j) ->
  map (ty_str nm) (i_targs i) = map (ty_str nm) (i_targs j) ->
  map (ty_str nm) (i_tnest i) = map (ty_str nm) (i_tnest j) -> i = j.
Proof.
  intros nm [o a n] [o' a' n'] Inj InjO Ho Ha Hn. simpl in *.
  assert (M : forall l m, map (ty_str nm) l = map (ty_str nm) m -> l = m).
  { induction l; destruct m; simpl; intro E; try discriminate; auto.
    inversion E. f_equal; auto. }
  f_equal; auto.
Qed.

Lemma shadow_vars_distinct : vars_distinct prog_shadow nm_shadow.
Proof.
  intros o1 o2 H1 H2 _ _. unfold is_obj in *. simpl in *.
  assert (N.to_nat o1 = 0) by lia. assert (N.to_nat o2 = 0) by lia. lia.
Qed.
