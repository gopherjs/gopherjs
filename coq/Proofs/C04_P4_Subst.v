(* C04 — substitution through the Resolver: groundness of what is produced and collected. *)
From Coq Require Import List NArith Bool Arith Lia.
From Verif Require Import Model.C04_Inst Proofs.C04_Inst.
Import ListNotations.

(* every type parameter of t is one the Resolver of an instance with n own / m nesting arguments replaces *)
Fixpoint scoped (n m : nat) (t : ty) : bool :=
  match t with
  | TBase _ => true
  | TCon _ l | TNamed _ l => forallb (scoped n m) l
  | TOwn i => i <? n
  | TNestV i => i <? m
  | TFree _ => false
  end.

Definition ground_inst (i : inst) : Prop := forallb closed (i_targs i) = true /\ forallb closed (i_tnest i) = true.

Lemma forallb_nth : forall (A : Type) (f : A -> bool) l i d, forallb f l = true -> i < length l -> f (nth i l d) = true.
Proof.
  intros A f l i d H L. rewrite forallb_forall in H. apply H. apply nth_In; exact L.
Qed.

Lemma forallb_map_In : forall (A B : Type) (f : B -> bool) (g : A -> bool) (s : A -> B) l,
  (forall x, In x l -> g x = true -> f (s x) = true) -> forallb g l = true -> forallb f (map s l) = true.
Proof.
  intros A B f g s l H G. rewrite forallb_forall in *. intros y Hy. apply in_map_iff in Hy.
  destruct Hy as [x [E Hx]]. subst y. apply H; auto.
Qed.

Lemma subst_ground_lem : forall own nest t,
  forallb closed own = true -> forallb closed nest = true ->
  scoped (length own) (length nest) t = true -> closed (subst own nest t) = true.
Proof.
  intros own nest t Co Cn. induction t as [|c l IH|o l IH| | |] using ty_ind'; simpl; intro S; try discriminate; auto.
  1, 2: (* TCon, TNamed *) exact (forallb_map_In _ _ _ _ _ l IH S).
  all: (* TOwn, TNestV *) apply Nat.ltb_lt in S; apply forallb_nth; auto.
Qed.

(* subst_ground_lem is sharp: a parameter outside the scope survives *)
Lemma subst_free_survives : forall own nest i, closed (subst own nest (TFree i)) = false.
Proof. reflexivity. Qed.

Lemma subst_own_out_of_range : forall own nest i, length own <= i -> subst own nest (TOwn i) = TOwn i.
Proof. intros. simpl. apply nth_overflow. exact H. Qed.

Lemma subst_nested_instance_lem : forall own nest es t,
  scoped (length es) 0 t = true ->
  subst own nest (subst es [] t) = subst (map (subst own nest) es) [] t.
Proof.
  intros own nest es t. induction t as [|c l IH|o l IH| | |] using ty_ind'; simpl; intro S; try discriminate; auto.
  1, 2: (* TCon, TNamed *) f_equal; rewrite map_map; apply map_ext_in; intros x Hx; apply IH; auto;
        rewrite forallb_forall in S; auto.
  (* TOwn *) apply Nat.ltb_lt in S. rewrite (nth_indep (map (subst own nest) es) (TOwn i) (subst own nest (TOwn i))) by (rewrite map_length; exact S).
  rewrite map_nth. reflexivity.
Qed.

(* isGeneric = false leaves no type parameter, whatever the lazy rule says *)
Lemma not_generic_closed : forall p ign t, is_generic p ign t = false -> closed t = true.
Proof.
  intros p ign. induction t as [|c l IH|o l IH| | |] using ty_ind'; simpl; intro G; try discriminate; auto.
  - apply (existsb_false_forallb (is_generic p ign)); auto.
  - apply orb_false_iff in G. apply (existsb_false_forallb (is_generic p ign)); tauto.
Qed.

Definition ground_ctx (c : option inst) : Prop := match c with Some r => ground_inst r | None => True end.

Lemma produced_ground_lem : forall p c it i, ground_ctx c -> produced p c it = Some i -> ground_inst i.
Proof.
  intros p c it i G P. destruct it as [t es nested | t]; simpl in P.
  - destruct (existsb _ _) eqn:E; [discriminate|]. inversion P; subst; clear P. split; simpl.
    + apply (existsb_false_forallb _ closed _ (fun x _ => not_generic_closed p _ x) E).
    + destruct nested; auto. unfold ctx_nest_args. destruct c as [r|]; auto.
      destruct G as [Ga Gn]. destruct (o_kind (get_obj p (i_obj r))); auto.
  - destruct c as [r|]; simpl in P; [|discriminate].
    destruct (i_targs r) eqn:E; [discriminate|]. inversion P; subst; clear P.
    destruct G as [Ga Gn]. split; simpl; auto. rewrite E in Ga. exact Ga.
Qed.

Lemma with_methods_ground : forall p i j, ground_inst i -> In j (with_methods p i) -> ground_inst j.
Proof.
  intros p i j G H. unfold with_methods in H. destruct H as [H | H]; [subst; auto|].
  apply in_map_iff in H. destruct H as [m [E _]]. subst j. exact G.
Qed.

Lemma Reach_ground : forall p i, Reach p i -> ground_inst i.
Proof.
  intros p. apply Reach_least. split.
  - intros it j j' _ P M. eapply with_methods_ground; [| exact M]. eapply produced_ground_lem; [| exact P]. exact I.
  - intros i it j j' G _ P M. eapply with_methods_ground; [| exact M]. eapply produced_ground_lem; [| exact P]. exact G.
Qed.

Lemma collected_signature_ground_lem : forall p, wf_prog p -> forall fuel sched i,
  In i (all_vals (collect p fuel sched)) ->
  ground_inst i /\
  forall t, scoped (length (i_targs i)) (length (i_tnest i)) t = true ->
            closed (subst (i_targs i) (i_tnest i) t) = true.
Proof.
  intros p W fuel sched i H. assert (G : ground_inst i) by (apply (Reach_ground p), (collect_sound p W fuel sched), H).
  split; [exact G|]. intros t S. apply subst_ground_lem; auto; apply G.
Qed.
