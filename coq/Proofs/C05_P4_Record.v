(* C05 — the recorded DCE names and dependencies cover every reference of the modelled
   syntax: specification (what a mention needs / can dispatch to, reachability) and proofs. *)
From Coq Require Import List String Ascii Bool NArith Arith Lia.
From Verif Require Import Model.C05_Select Model.C05_Record Proofs.C05_Select.
Import ListNotations.
Local Open Scope list_scope.
Local Open Scope string_scope.

(* the named types (with their type arguments) that typeName(t) reaches *)
Fixpoint named_in (a : ty) : list (string * string * tys) :=
  match a with
  | TBasic _ => []
  | TNamed p n l => [(p, n, l)]
  | TPtr x | TSlice x => named_in x
  | TMap k v => (named_in k ++ named_in v)%list
  | TFunc ps _ rs => (named_in_l ps ++ named_in_l rs)%list
  | TParam _ => []
  end
with named_in_l (a : tys) : list (string * string * tys) :=
  match a with TNil => [] | TCons x r => (named_in x ++ named_in_l r)%list end.

Fixpoint recv_named (recv : ty) : option (string * string * tys) :=
  match recv with
  | TNamed p n l => Some (p, n, l)
  | TPtr x => recv_named x
  | _ => None
  end.

(* well-formed variadic signatures: the last parameter of a variadic signature is a slice *)
Fixpoint tuple_wf (a : tys) (va : bool) : bool :=
  match a with
  | TNil => true
  | TCons x TNil => if va then match x with TSlice _ => true | _ => false end else true
  | TCons _ r => tuple_wf r va
  end.
Fixpoint ty_wf (a : ty) : bool :=
  match a with
  | TBasic _ | TParam _ => true
  | TNamed _ _ l => tys_wf l
  | TPtr x | TSlice x => ty_wf x
  | TMap k v => ty_wf k && ty_wf v
  | TFunc ps va rs => tys_wf ps && tys_wf rs && tuple_wf ps va
  end
with tys_wf (a : tys) : bool :=
  match a with TNil => true | TCons x r => ty_wf x && tys_wf r end.
Definition sig_wf (s : msig) : bool := ty_wf (sig_ty s).

(* the instance pkg.name[targs] (type arguments compared as TYPES: types.Identical) *)
Definition is_inst (p n : string) (l : tys) (g : gdecl) : Prop :=
  g_pkg g = p /\ g_name g = n /\ tys_identical (g_targs g) l = true.
Definition is_holder (p n : string) (l : tys) (g : gdecl) : Prop :=
  g_pkg g = p /\ g_name g = n /\ g_kind g = KHolder (tys_len l).

(* the type a mention hands to typeName *)
Definition ref_type (r : ref) : option ty :=
  match r with RType t => Some t | RMethExpr recv _ _ _ => Some recv | _ => None end.

(* the method object a mention selects statically (concrete receiver) *)
Definition is_method_of (recv : ty) (mp mn : string) (s' : msig) (g : gdecl) : Prop :=
  exists p n l s, recv_named recv = Some (p, n, l) /\ g_kind g = KMethod mn s /\ is_inst p n l g /\
                  mp = g_pkg g /\ sig_identical s' (sig_subst (g_targs g) s) = true.

(* Go's method-set rule for an interface method (mp.mn, s'): the concrete method has the same name,
   the same package when the name is not exported, and an identical signature *)
Definition implements_method (mp mn : string) (s' : msig) (g : gdecl) : Prop :=
  exists s, g_kind g = KMethod mn s /\ (is_exported mn = false -> mp = g_pkg g) /\
            sig_identical s' (sig_subst (g_targs g) s) = true.

(* [needs r g]: the code emitted for mention r refers to declaration g directly *)
Inductive needs : ref -> gdecl -> Prop :=
| N_func : forall p n l g, g_kind g = KFunc -> is_inst p n l g -> needs (RFunc p n l) g
| N_func_holder : forall p n l g, is_holder p n l g -> needs (RFunc p n l) g
| N_var : forall p n g, g_kind g = KVar -> g_pkg g = p -> g_name g = n -> g_targs g = TNil -> needs (RVar p n) g
| N_type : forall r t p n l g f, ref_type r = Some t -> In (p, n, l) (named_in t) ->
    g_kind g = KType f -> is_inst p n l g -> needs r g
| N_type_holder : forall r t p n l g, ref_type r = Some t -> In (p, n, l) (named_in t) ->
    is_holder p n l g -> needs r g
| N_methexpr : forall recv mp mn s' g, is_method_of recv mp mn s' g -> needs (RMethExpr recv mp mn s') g.

(* [dispatch r g]: executing mention r can run method declaration g, PROVIDED a value of g's receiver
   type exists *)
Inductive dispatch : ref -> gdecl -> Prop :=
| D_meth : forall recv vr mp mn s' g, is_method_of recv mp mn s' g -> dispatch (RMeth recv vr mp mn s') g
| D_imeth : forall i mp mn s' g, implements_method mp mn s' g -> dispatch (RIMeth i mp mn s') g
| D_imethexpr : forall i mp mn s' g, implements_method mp mn s' g -> dispatch (RIMethExpr i mp mn s') g.

(* [instantiates r g]: mention r names the receiver type instance of method declaration g (values of a
   named type only come into existence in code that names the type) *)
Definition instantiates (r : ref) (g : gdecl) : Prop :=
  exists t l, ref_type r = Some t /\ In (g_pkg g, g_name g, l) (named_in t) /\ tys_identical (g_targs g) l = true.

(* the declarations whose code can be executed / whose method can be reached by any dynamically
   possible call (rapid-type-analysis reachability over the modelled mentions) *)
Inductive Reach (p : prog) : gdecl -> Prop :=
| R_root : forall g, In g p -> g_root g = true -> Reach p g
| R_needs : forall g r g', Reach p g -> In r (body p g) -> needs r g' -> In g' p -> Reach p g'
| R_dispatch : forall g r gm g0 r0, Reach p g -> In r (body p g) -> dispatch r gm -> In gm p ->
    Reach p g0 -> In r0 (body p g0) -> instantiates r0 gm -> Reach p gm.

(* alias-free spelling (the class of the recorded byte/uint8 finding) + well-formed variadics *)
Definition ref_ok (r : ref) : bool :=
  match r with
  | RFunc _ _ l => tys_canonical l
  | RVar _ _ => true
  | RType t => ty_canonical t
  | RMeth recv _ _ _ s | RMethExpr recv _ _ s => ty_canonical recv && sig_canonical s
  | RIMeth _ _ _ s | RIMethExpr _ _ _ s => sig_canonical s
  end.
Definition decl_ok (p : prog) (g : gdecl) : bool :=
  tys_canonical (g_targs g) &&
  match g_kind g with
  | KMethod _ s => sig_wf s && sig_canonical (sig_subst (g_targs g) s)
  | _ => true
  end && forallb ref_ok (body p g).
Definition prog_ok (p : prog) : bool := forallb (decl_ok p) p.

Scheme ty_mind := Induction for ty Sort Prop
  with tys_mind := Induction for tys Sort Prop.
Combined Scheme ty_tys_ind from ty_mind, tys_mind.

Lemma nth_tys_filter : forall ta i,
  nth i (tys_filter [] ta) "any" =
  ty_filter [] (match tys_nth ta i with Some t => t | None => TParam i end).
Proof.
  induction ta as [|t r IH]; intros i.
  - simpl. destruct i; reflexivity.
  - destruct i; simpl; [reflexivity|]. rewrite IH. destruct (tys_nth r i); [reflexivity|].
    simpl. destruct i; reflexivity.
Qed.

Lemma append_cancel : forall p a b : string, p ++ a = p ++ b -> a = b.
Proof. induction p; simpl; intros a0 b H; [auto | inversion H; auto]. Qed.

Lemma tuple_filter_cons2 : forall rs x y r va,
  tuple_filter rs (TCons x (TCons y r)) va = ty_filter rs x :: tuple_filter rs (TCons y r) va.
Proof. reflexivity. Qed.

(* how a result list is printed depends on the printed results only: none, one, or a parenthesised list *)
Definition results_str (l : list string) : string :=
  match l with [] => "" | [x] => " " ++ x | _ => "(" ++ join ", " l ++ ")" end.

Lemma ty_filter_func : forall rs ps va res, ty_filter rs (TFunc ps va res) =
  "func(" ++ join ", " (tuple_filter rs ps va) ++ ")" ++ results_str (tys_filter rs res).
Proof. intros rs ps va [|r [|r' res]]; reflexivity. Qed.

(* filterGen: replacing type parameters while printing = printing the substituted type *)
Lemma filter_subst : forall ta,
  (forall a, ty_wf a = true -> ty_filter (tys_filter [] ta) a = ty_filter [] (ty_subst ta a)) /\
  (forall a, tys_wf a = true ->
     tys_filter (tys_filter [] ta) a = tys_filter [] (tys_subst ta a) /\
     (forall va, tuple_wf a va = true ->
        tuple_filter (tys_filter [] ta) a va = tuple_filter [] (tys_subst ta a) va)).
Proof.
  intro ta. apply ty_tys_ind.
  - (* TBasic *) reflexivity.
  - (* TNamed *) intros p n l IH H. simpl in *. destruct (IH H) as [E _]. rewrite E. reflexivity.
  - (* TPtr *) intros x IH H. simpl in *. rewrite IH; auto.
  - (* TSlice *) intros x IH H. simpl in *. rewrite IH; auto.
  - (* TMap *) intros k IHk v IHv H. simpl in *. apply andb_true_iff in H as [H1 H2]. rewrite IHk, IHv; auto.
  - (* TFunc *) intros ps IHp va rs IHr H. simpl in H.
    apply andb_true_iff in H as [H H3]. apply andb_true_iff in H as [H1 H2].
    destruct (IHp H1) as [_ Ep]. destruct (IHr H2) as [Er _].
    cbn [ty_subst]. rewrite !ty_filter_func, (Ep va H3), Er. reflexivity.
  - (* TParam *) intros i _. cbn [ty_filter ty_subst]. apply nth_tys_filter.
  - (* TNil *) intros _. split; [reflexivity|]. intros; reflexivity.
  - (* TCons *) intros x IHx r IHr H. simpl in H. apply andb_true_iff in H as [H1 H2].
    destruct (IHr H2) as [Er Et]. split.
    + cbn [tys_filter tys_subst]. rewrite IHx, Er; auto.
    + intros va Hva. destruct r as [|y r'].
      * cbn [tuple_filter tys_subst]. destruct va; [|rewrite IHx; auto].
        (* the variadic parameter is a slice and is printed as "..." + element *)
        simpl in Hva. destruct x; try discriminate. specialize (IHx H1).
        cbn [ty_filter ty_subst] in IHx |- *. rewrite (append_cancel "[]" _ _ IHx). reflexivity.
      * pose proof (Et va Hva) as Et'. cbn [tys_subst] in Et' |- *.
        rewrite !tuple_filter_cons2, IHx, Et'; auto.
Qed.

Lemma sig_filter_func : forall rs s, ty_filter rs (sig_ty s) = "func" ++ sig_filter rs s.
Proof. intros rs [ps va [|r [|r' res]]]; reflexivity. Qed.

Lemma sig_filter_subst : forall ta s, sig_wf s = true ->
  sig_filter (tys_filter [] ta) s = sig_filter [] (sig_subst ta s).
Proof.
  intros ta s H. apply (append_cancel "func"). rewrite <- !sig_filter_func.
  apply (proj1 (filter_subst ta) (sig_ty s) H).
Qed.

(* filterGen prints identical types alike: byte and rune are printed by their canonical names, and
   nothing else in a type can be spelled in two ways *)
Lemma identical_filter : forall rs,
  (forall a b, ty_identical a b = true -> ty_filter rs a = ty_filter rs b) /\
  (forall a b, tys_identical a b = true ->
     tys_filter rs a = tys_filter rs b /\ forall va, tuple_filter rs a va = tuple_filter rs b va).
Proof.
  intro rs. apply ty_tys_ind.
  - (* TBasic: byte/uint8 and rune/int32 are identical and printed alike *) intros x [y| | | | | |]; simpl; try discriminate. destruct x, y; simpl; intro; congruence.
  - (* TNamed *) intros p n l IH [|p' n' l'| | | | |]; simpl; try discriminate. intro H.
    apply andb_true_iff in H as [H H3]. apply andb_true_iff in H as [H1 H2].
    apply String.eqb_eq in H1, H2. subst. destruct (IH _ H3) as [-> _]. reflexivity.
  - (* TPtr *) intros x IH [| |y| | | |]; simpl; try discriminate. intro H. rewrite (IH _ H). reflexivity.
  - (* TSlice *) intros x IH [| | |y| | |]; simpl; try discriminate. intro H. rewrite (IH _ H). reflexivity.
  - (* TMap *) intros k IHk v IHv [| | | |k' v'| |]; simpl; try discriminate. intro H.
    apply andb_true_iff in H as [H1 H2]. rewrite (IHk _ H1), (IHv _ H2). reflexivity.
  - (* TFunc *) intros ps IHp va res IHr [| | | | |ps' va' res'|]; try discriminate. intro H. simpl in H.
    apply andb_true_iff in H as [H H3]. apply andb_true_iff in H as [H1 H2].
    apply Bool.eqb_prop in H2. subst va'. destruct (IHp _ H1) as [_ Ep]. destruct (IHr _ H3) as [Er _].
    rewrite !ty_filter_func, Ep, Er. reflexivity.
  - (* TParam *) intros i [| | | | | |j]; simpl; try discriminate. intro H. apply Nat.eqb_eq in H. subst; auto.
  - (* TNil *) intros [|y r']; simpl; try discriminate. auto.
  - (* TCons *) intros x IHx r IHr [|y r']; try discriminate. intro H. simpl in H. apply andb_true_iff in H as [H1 H2].
    destruct (IHr _ H2) as [Er Et]. split.
    + cbn [tys_filter]. rewrite (IHx _ H1), Er. reflexivity.
    + intro va. destruct r as [|z r0], r' as [|z' r0']; try discriminate.
      * cbn [tuple_filter]. destruct va; [|rewrite (IHx _ H1); reflexivity].
        destruct x, y; try discriminate; try (rewrite (IHx _ H1); reflexivity).
        pose proof (IHx _ H1) as E. cbn [ty_filter] in E. rewrite (append_cancel "[]" _ _ E). reflexivity.
      * rewrite !tuple_filter_cons2, (IHx _ H1), Et. reflexivity.
Qed.

Theorem method_filter_identical : forall targs mp mn s s',
  sig_identical s' (sig_subst targs s) = true -> sig_wf s = true ->
  meth_filter [] mp mn s' = meth_filter (tys_filter [] targs) mp mn s.
Proof.
  intros targs mp mn s s' Hi Hw.
  assert (E : sig_filter [] s' = sig_filter [] (sig_subst targs s)).
  { apply (append_cancel "func"). rewrite <- !sig_filter_func. apply (proj1 (identical_filter [])), Hi. }
  unfold meth_filter. rewrite sig_filter_subst, E by exact Hw. reflexivity.
Qed.

(* the two spellings of one signature in the finding dce-unexported-method-byte-uint8-spelling-mismatch *)
Definition sig_write_byte : msig := {| ms_params := TCons (TSlice (TBasic BByte)) TNil; ms_variadic := false; ms_results := TCons (TBasic BRune) TNil |}.
Definition sig_write_uint8 : msig := {| ms_params := TCons (TSlice (TBasic BUint8)) TNil; ms_variadic := false; ms_results := TCons (TBasic BInt32) TNil |}.

Lemma inst_in_mention : forall p n l, In (obj_filter p n (tys_filter [] l)) (mention_named p n l).
Proof. intros p n l. destruct l; simpl; auto. Qed.

Lemma holder_in_mention : forall p n l, In (obj_filter p n (anys (tys_len l))) (mention_named p n l).
Proof. intros p n l. destruct l; simpl; auto. Qed.

Lemma named_in_mentions :
  (forall a q, In q (named_in a) -> incl (mention_named (fst (fst q)) (snd (fst q)) (snd q)) (mentions a)) /\
  (forall a q, In q (named_in_l a) -> incl (mention_named (fst (fst q)) (snd (fst q)) (snd q)) (mentions_l a)).
Proof.
  assert (two_parts : forall (q : string * string * tys) l1 l2 (m m1 m2 : list string),
            (In q l1 -> incl m m1) -> (In q l2 -> incl m m2) -> In q (l1 ++ l2) -> incl m (m1 ++ m2)).
  { intros q l1 l2 m m1 m2 H1 H2 Hq. apply in_app_or in Hq as [Hq|Hq]; [apply incl_appl|apply incl_appr]; auto. }
  apply ty_tys_ind; simpl; try (intros; contradiction); auto.
  - (* TNamed: the type itself *) intros p n l _ q [<-|[]]. apply incl_refl.
  - (* TMap *) intros k IHk v IHv q. apply two_parts; auto.
  - (* TFunc *) intros ps IHp _ rs IHr q. apply two_parts; auto.
  - (* TCons *) intros x IHx r IHr q. apply two_parts; auto.
Qed.

Lemma ref_type_mentions : forall r t, ref_type r = Some t -> incl (mentions t) (record r).
Proof.
  intros r t H. destruct r; simpl in H; try discriminate; inversion H; subst; simpl.
  - apply incl_refl.
  - apply incl_appr. apply incl_appr. apply incl_refl.
Qed.

Lemma recv_named_filter : forall recv p n l, recv_named recv = Some (p, n, l) ->
  recv_obj_filter recv = [obj_filter p n (tys_filter [] l)].
Proof.
  induction recv; simpl; intros; try discriminate; auto.
  inversion H; subst; reflexivity.
Qed.

Lemma in_nonempty : forall s, s = "" \/ In s (nonempty s).
Proof. intro s. unfold nonempty. destruct (is_empty s) eqn:E; [left; apply is_empty_true; auto|right; simpl; auto]. Qed.

Lemma meth_filter_unexported : forall x mp mn s, In x (nonempty (meth_filter [] mp mn s)) -> is_exported mn = false.
Proof. intros x mp mn s. unfold meth_filter. destruct (is_exported mn); [intros []|reflexivity]. Qed.

Lemma method_of_implements : forall recv mp mn s' g, is_method_of recv mp mn s' g -> implements_method mp mn s' g.
Proof. intros recv mp mn s' g (p & n & l & s & _ & Hk & _ & Hmp & Hsi). exists s. auto. Qed.

Lemma Reach_in : forall p g, Reach p g -> In g p.
Proof. intros p g H. destruct H; auto. Qed.

Lemma compile_from_in : forall p l i j g, nth_error l j = Some g -> In (mk_decl p (i + j) g) (compile_from p i l).
Proof.
  induction l as [|x r IH]; intros i j g H; [destruct j; discriminate|].
  destruct j; simpl in *.
  - inversion H; subst. rewrite Nat.add_0_r. auto.
  - right. replace (i + S j) with (S i + j) by lia. apply IH; auto.
Qed.

Lemma compile_in : forall p i g, nth_error p i = Some g -> In (mk_decl p i g) (compile p).
Proof. intros. apply (compile_from_in p p 0 i g); auto. Qed.

Lemma inst_obj : forall g pk n l, is_inst pk n l g ->
  (forall k, g_kind g <> KHolder k) -> g_obj g = obj_filter pk n (tys_filter [] l).
Proof.
  intros g pk n l (E1 & E2 & E3) Hk. unfold g_obj, targ_filters.
  rewrite (proj1 (proj2 (identical_filter []) _ _ E3)). subst.
  destruct (g_kind g); try reflexivity. exfalso; eapply Hk; eauto.
Qed.

Lemma holder_obj : forall g pk n l, is_holder pk n l g -> g_obj g = obj_filter pk n (anys (tys_len l)) /\ g_meth g = "".
Proof. intros g pk n l (E1 & E2 & E3). unfold g_obj, g_meth. rewrite E3. subst. auto. Qed.

Lemma type_inst_recorded : forall r t pk n l g,
  ref_type r = Some t -> In (pk, n, l) (named_in t) -> is_inst pk n l g ->
  (forall k, g_kind g <> KHolder k) -> In (g_obj g) (record r).
Proof.
  intros r t pk n l g Ht Hin Hi Hk. rewrite (inst_obj g pk n l); auto.
  apply (ref_type_mentions _ _ Ht), (proj1 named_in_mentions _ _ Hin). simpl. apply inst_in_mention.
Qed.

Section Cover.
Variable p : prog.
(* the variadic parameter of every declared method is a slice, as go/types guarantees *)
Hypothesis Hwf : forall g mn s, In g p -> g_kind g = KMethod mn s -> sig_wf s = true.

(* method declaration g matched by the method-set rule (statically selected methods included): its method
   filter is the one recorded for an unexported method at the call *)
Lemma implements_meth_filter : forall g mp mn s', In g p -> implements_method mp mn s' g ->
  g_meth g = "" \/ In (g_meth g) (nonempty (meth_filter [] mp mn s')).
Proof.
  intros g mp mn s' Hg (s & Hk & Hp & Hi).
  unfold g_meth. rewrite Hk. unfold targ_filters.
  rewrite <- (method_filter_identical (g_targs g) (g_pkg g) mn s s') by eauto.
  unfold meth_filter. destruct (is_exported mn) eqn:E; [left; reflexivity|].
  rewrite <- (Hp eq_refl). apply in_nonempty.
Qed.

Lemma needs_recorded : forall r g, needs r g -> In g p ->
  In (g_obj g) (record r) /\ (g_meth g = "" \/ In (g_meth g) (record r)).
Proof.
  intros r g Hn Hg.
  assert (NM : forall k, g_kind g = k -> match k with KMethod _ _ => False | _ => True end -> g_meth g = "").
  { intros k E Hk. unfold g_meth. rewrite E. destruct k; auto. destruct Hk. }
  destruct Hn as [pk n l g Hk Hinst | pk n l g Hhold | pk n g Hk Hpk Hname Hta
                 | r t pk n l g f Ht Hin Hk Hinst | r t pk n l g Ht Hin Hhold | recv mp mn s' g Hmeth].
  - (* N_func *) split; [|left; apply (NM _ Hk I)]. simpl.
    rewrite (inst_obj g pk n l); auto; [apply inst_in_mention | intros k E; congruence].
  - (* N_func_holder *) destruct (holder_obj _ _ _ _ Hhold) as [-> ->]. split; auto. apply holder_in_mention.
  - (* N_var *) split; [|left; apply (NM _ Hk I)]. unfold g_obj, targ_filters. subst pk n. rewrite Hk, Hta. simpl. auto.
  - (* N_type *) split; [|left; apply (NM _ Hk I)].
    apply (type_inst_recorded _ _ _ _ _ _ Ht Hin Hinst). intros k E; congruence.
  - (* N_type_holder *) destruct (holder_obj _ _ _ _ Hhold) as [-> ->]. split; auto.
    apply (ref_type_mentions _ _ Ht), (proj1 named_in_mentions _ _ Hin). simpl. apply holder_in_mention.
  - (* N_methexpr: the receiver's named type gives the object filter, the method-set rule the method filter *)
    pose proof (method_of_implements _ _ _ _ _ Hmeth) as Himp.
    destruct Hmeth as (pk & n & l & s & Hrn & Hk & Hinst & _). simpl. split.
    + rewrite (inst_obj g pk n l), (recv_named_filter _ _ _ _ Hrn); simpl; auto. intros k E; congruence.
    + destruct (implements_meth_filter g mp mn s' Hg Himp); auto.
      right. apply in_or_app. right. apply in_or_app. left. auto.
Qed.

Lemma dispatch_recorded : forall r g, dispatch r g -> In g p ->
  (exists mn s, g_kind g = KMethod mn s) /\ (g_meth g = "" \/ In (g_meth g) (record r)).
Proof.
  intros r g Hd Hg.
  assert (exists mp mn s', implements_method mp mn s' g /\
            incl (nonempty (meth_filter [] mp mn s')) (record r)) as (mp & mn & s' & Himp & Hrec).
  { (* a call records its method filter only when mn is not exported; for an exported mn the filter is empty anyway *)
    inversion Hd; subst; simpl; exists mp, mn, s'.
    - (* D_meth *) split; [eapply method_of_implements; eauto|].
      intros x Hx. rewrite (meth_filter_unexported _ _ _ _ Hx). auto using in_or_app.
    - (* D_imeth *) split; auto. intros x Hx. rewrite (meth_filter_unexported _ _ _ _ Hx). auto using in_or_app.
    - (* D_imethexpr *) split; auto. intros x Hx. auto using in_or_app. }
  split; [destruct Himp as (s & Hk & _); eauto|].
  destruct (implements_meth_filter g mp mn s' Hg Himp); auto.
Qed.

Lemma hit_of : forall g i r f, Alive (compile p) (mk_decl p i g) -> In r (body p g) ->
  f = "" \/ In f (record r) -> Hit (compile p) f.
Proof.
  intros g i r f Ha Hr [->|Hf]; [constructor|].
  eapply H_dep; eauto. unfold mk_decl. simpl. apply in_flat_map. eauto.
Qed.

Lemma alive_intro : forall g i, nth_error p i = Some g ->
  Hit (compile p) (g_obj g) -> Hit (compile p) (g_meth g) -> Alive (compile p) (mk_decl p i g).
Proof.
  intros g i Hn Ho Hm. apply Alive_step; [apply compile_in, Hn|].
  intros f Hf. apply in_filters in Hf. destruct Hf as [_ [->| ->]]; auto.
Qed.

Theorem reach_alive_wf : forall g, Reach p g -> forall i, nth_error p i = Some g -> Alive (compile p) (mk_decl p i g).
Proof.
  induction 1 as [g Hg Hr | g r g' HR IH Hr Hn Hg' | g r gm g0 r0 HR IH Hr Hd Hgm HR0 IH0 Hr0 Hi]; intros i Hi'.
  - (* R_root *) apply A_root; [apply compile_in; auto|]. unfold is_root, is_alive, mk_decl. simpl. rewrite Hr. reflexivity.
  - (* R_needs *) destruct (In_nth_error _ _ (Reach_in _ _ HR)) as [j Hj]. specialize (IH j Hj).
    destruct (needs_recorded r g' Hn Hg') as [Ho Hm].
    apply alive_intro; auto; eapply hit_of; eauto.
  - (* R_dispatch: the object filter comes from the mention that instantiates the receiver type, the method filter from the call *)
    destruct (In_nth_error _ _ (Reach_in _ _ HR)) as [j Hj]. specialize (IH j Hj).
    destruct (In_nth_error _ _ (Reach_in _ _ HR0)) as [j0 Hj0]. specialize (IH0 j0 Hj0).
    destruct (dispatch_recorded r gm Hd Hgm) as [(mn & s & Hk) Hm].
    destruct Hi as (t & l & Ht & Hin & Hid).
    apply alive_intro; auto; [eapply (hit_of g0) | eapply (hit_of g)]; eauto.
    right. apply (type_inst_recorded r0 t (g_pkg gm) (g_name gm) l gm); auto.
    + repeat split; auto.
    + intros k E; congruence.
Qed.

Theorem reach_selected_wf : forall g i, Reach p g -> nth_error p i = Some g ->
  exists ids, select (compile p) = Some ids /\ In (N.of_nat i) ids.
Proof.
  intros g i HR Hn. destruct (select_spec (compile p)) as (ids & Hs & Hi). exists ids. split; auto.
  apply Hi. exists (mk_decl p i g). split; [apply reach_alive_wf; auto|reflexivity].
Qed.
End Cover.

(* all that section Cover needs of [prog_ok]: the variadic signatures are well formed (the alias-free spelling is not used) *)
Lemma prog_ok_wf : forall p, prog_ok p = true ->
  forall g mn s, In g p -> g_kind g = KMethod mn s -> sig_wf s = true.
Proof.
  intros p Hok g mn s H E. unfold prog_ok in Hok. rewrite forallb_forall in Hok. apply Hok in H. unfold decl_ok in H.
  apply andb_true_iff in H as [H _]. apply andb_true_iff in H as [_ H]. rewrite E in H.
  apply andb_true_iff in H. apply H.
Qed.
