(* C05 — the two programs of the byte/uint8 spelling findings, which the selection dropped a reachable declaration of
   until the DCE filters printed canonical names (fix 757816d), and a non-vacuity example. *)
From Coq Require Import List String Bool NArith Arith.
From Verif Require Import Model.C05_Select Model.C05_Record Proofs.C05_Select Proofs.C05_P4_Record.
Import ListNotations.
Local Open Scope list_scope.
Local Open Scope string_scope.

Definition mkg (k : gkind) (name : string) (targs : tys) (root : bool) (b : list ref) : gdecl :=
  {| g_kind := k; g_pkg := "main"; g_name := name; g_targs := targs; g_root := root; g_body := b |}.

(* witness 1: interface method write([]byte) rune, implementation write([]uint8) int32 *)
Definition w1_main : gdecl :=
  mkg KFunc "main" TNil true [RType (TNamed "main" "buf" TNil); RIMeth (Some ("main", "sink")) "main" "write" sig_write_byte].
Definition w1_meth : gdecl := mkg (KMethod "write" sig_write_uint8) "buf" TNil false [].
Definition w1 : prog := [w1_main; mkg (KType TNil) "buf" TNil false []; w1_meth].

Lemma w1_reach : Reach w1 w1_meth.
Proof.
  apply (R_dispatch w1 w1_main (RIMeth (Some ("main", "sink")) "main" "write" sig_write_byte) w1_meth
                    w1_main (RType (TNamed "main" "buf" TNil))).
  - apply R_root; [simpl; auto|reflexivity].
  - simpl. auto.
  - apply D_imeth. exists sig_write_uint8. split; [reflexivity|]. split; [reflexivity|reflexivity].
  - simpl. auto.
  - apply R_root; [simpl; auto|reflexivity].
  - simpl. auto.
  - exists (TNamed "main" "buf" TNil), TNil. split; [reflexivity|]. split; [simpl; auto|reflexivity].
Qed.

Definition select_sound_full_statement : Prop :=
  forall p g i, Reach p g -> nth_error p i = Some g ->
  exists ids, select (compile p) = Some ids /\ In (N.of_nat i) ids.

(* witness 2: instance F[byte] named in dead code, F[uint8] needed by main *)
Definition w2_main : gdecl := mkg KFunc "main" TNil true [RFunc "main" "F" (TCons (TBasic BUint8) TNil)].
Definition w2_inst : gdecl := mkg KFunc "F" (TCons (TBasic BByte) TNil) false [].
Definition w2 : prog := [w2_main; mkg (KHolder 1) "F" TNil false []; w2_inst].

Theorem select_sound_alias_witness_instance :
  Reach w2 w2_inst /\ exists ids, select (compile w2) = Some ids /\ In 2%N ids.
Proof.
  assert (R : Reach w2 w2_inst).
  { apply (R_needs w2 w2_main (RFunc "main" "F" (TCons (TBasic BUint8) TNil)) w2_inst).
    - apply R_root; [simpl; auto|reflexivity].
    - simpl. auto.
    - apply N_func; [reflexivity|]. repeat split; reflexivity.
    - simpl. auto. }
  split; [exact R|]. refine (reach_selected_wf w2 _ w2_inst 2 R eq_refl).
  intros g mn s [<-|[<-|[<-|[]]]] E; inversion E.
Qed.

(* non-vacuity: unexported method of a generic instance reached only through an interface *)
Definition tint : ty := TBasic BInt.
Definition sig_get_decl : msig := {| ms_params := TCons (TParam 0) TNil; ms_variadic := false; ms_results := TCons (TSlice (TParam 0)) TNil |}.
Definition sig_get_int : msig := {| ms_params := TCons tint TNil; ms_variadic := false; ms_results := TCons (TSlice tint) TNil |}.
Definition p4_example_main : gdecl :=
  mkg KFunc "main" TNil true [RType (TNamed "main" "G" (TCons tint TNil)); RIMeth (Some ("main", "I")) "main" "get" sig_get_int].
Definition p4_example_method : gdecl := mkg (KMethod "get" sig_get_decl) "G" (TCons tint TNil) false [].
Definition p4_example : prog :=
  [ p4_example_main;
    mkg (KHolder 1) "G" TNil false [];
    mkg (KType (TCons (TSlice tint) TNil)) "G" (TCons tint TNil) false [];
    p4_example_method;
    mkg (KType TNil) "U" TNil false [];
    mkg (KMethod "get" sig_get_int) "U" TNil false [] ].

Lemma p4_example_ok :
  prog_ok p4_example = true /\ Reach p4_example p4_example_method /\
  nth_error p4_example 3 = Some p4_example_method /\
  exists ids, select (compile p4_example) = Some ids /\ In 3%N ids /\ ~ In 5%N ids.
Proof.
  split; [vm_compute; reflexivity|]. split; [|split; [reflexivity|]].
  - apply (R_dispatch p4_example p4_example_main (RIMeth (Some ("main", "I")) "main" "get" sig_get_int) p4_example_method
                      p4_example_main (RType (TNamed "main" "G" (TCons tint TNil)))).
    + apply R_root; [simpl; auto|reflexivity].
    + simpl. auto.
    + apply D_imeth. exists sig_get_decl. split; [reflexivity|]. split; [reflexivity|reflexivity].
    + simpl. auto 6.
    + apply R_root; [simpl; auto|reflexivity].
    + simpl. auto.
    + exists (TNamed "main" "G" (TCons tint TNil)), (TCons tint TNil). split; [reflexivity|]. split; [simpl; auto|reflexivity].
  - eexists. split; [vm_compute; reflexivity|]. split.
    + vm_compute. auto 10.
    + vm_compute. intro Hin. repeat (destruct Hin as [Hin|Hin]; [discriminate|]). contradiction.
Qed.
