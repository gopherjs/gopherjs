(* C05 — the model of dce.Selector (Model/C05_Select.v) selects exactly [Alive].  The heap of declInfo is a function of the names
   processed so far ([info_at]): draining the bucket of f maps [clear_name f] over it ([process_bucket_spec]), and [Inv],
   which Include, the draining and the loop of AliveDecls keep, is that equation.  The selection is monotone in the
   declarations ([select_monotone]), hence independent of their order and of the order of their deps;
   [select_sound_gen] is soundness over an abstract relation of run-time references. *)
From Coq Require Import List String Bool NArith Arith Lia Permutation Relations.
From Verif Require Import Model.C05_Select.
Import ListNotations.
Local Open Scope string_scope.
Local Open Scope list_scope.

(* Specification: the least set containing the roots and closed under
   "every non-empty filter is a dependency of a member".                      *)

Inductive Alive (ds : list decl) : decl -> Prop :=
| A_root : forall d, In d ds -> is_root d = true -> Alive ds d
| A_dep : forall d, In d ds -> is_alive d = false ->
    Hit ds (d_obj d) -> Hit ds (d_meth d) -> Alive ds d
with Hit (ds : list decl) : string -> Prop :=
| H_empty : Hit ds ""
| H_dep : forall d f, Alive ds d -> In f (d_deps d) -> Hit ds f.

Scheme Alive_ind2 := Minimality for Alive Sort Prop
  with Hit_ind2 := Minimality for Hit Sort Prop.
Combined Scheme Alive_Hit_ind from Alive_ind2, Hit_ind2.

Lemma Alive_in : forall ds d, Alive ds d -> In d ds.
Proof. intros ds d H; destruct H; assumption. Qed.

Lemma is_empty_true : forall s, is_empty s = true <-> s = "".
Proof. intro s. unfold is_empty. apply String.eqb_eq. Qed.

Lemma is_empty_false : forall s, is_empty s = false <-> s <> "".
Proof. intro s. unfold is_empty. apply String.eqb_neq. Qed.

Definition closed (ds : list decl) (S : decl -> Prop) : Prop :=
  (forall d, In d ds -> is_root d = true -> S d) /\
  (forall d, In d ds -> is_alive d = false ->
     (forall f, In f (filters d) -> exists d', S d' /\ In d' ds /\ In f (d_deps d')) -> S d).

Lemma in_nonempty_filter : forall f s, In f (if is_empty s then [] else [s]) <-> f <> "" /\ f = s.
Proof.
  intros f s. destruct (is_empty s) eqn:E; simpl.
  - apply is_empty_true in E. split; [tauto | intros [H ->]; auto].
  - apply is_empty_false in E. split; [intros [<-|[]]; auto | intros [_ ->]; auto].
Qed.

Lemma in_filters : forall d f, In f (filters d) <-> f <> "" /\ (f = d_obj d \/ f = d_meth d).
Proof. intros d f. unfold filters. rewrite in_app_iff, !in_nonempty_filter. tauto. Qed.

(* the selection rule in one piece: a declaration all of whose filters are hit is alive *)
Lemma Alive_step : forall ds d, In d ds -> (forall f, In f (filters d) -> Hit ds f) -> Alive ds d.
Proof.
  intros ds d Hd Hf. destruct (is_alive d) eqn:E.
  - apply A_root; auto. unfold is_root. rewrite E. reflexivity.
  - assert (Hh : forall f, f = d_obj d \/ f = d_meth d -> Hit ds f).
    { intros f Hx. destruct (string_dec f "") as [->|Hne]; [constructor|]. apply Hf, in_filters; auto. }
    apply A_dep; auto.
Qed.

Lemma Alive_closed : forall ds, closed ds (Alive ds).
Proof.
  intro ds. split.
  - intros; apply A_root; auto.
  - intros d Hd _ Hf. apply Alive_step; auto.
    intros f Hin. destruct (Hf f Hin) as (d' & Ha & _ & Hdep). eapply H_dep; eauto.
Qed.

Lemma Alive_least : forall ds (S : decl -> Prop), closed ds S -> forall d, Alive ds d -> S d.
Proof.
  intros ds S [Hroot Hstep].
  assert (H : (forall d, Alive ds d -> S d /\ In d ds) /\
              (forall f, Hit ds f -> f = "" \/ exists d', S d' /\ In d' ds /\ In f (d_deps d'))).
  { apply Alive_Hit_ind.
    - (* A_root *) intros; split; auto.
    - (* A_dep *) intros d Hd Hna _ IHo _ IHm. split; auto. apply Hstep; auto.
      intros f Hf. apply in_filters in Hf. destruct Hf as [Hne [->| ->]].
      + destruct IHo; [congruence|auto].
      + destruct IHm; [congruence|auto].
    - (* H_empty *) left; auto.
    - (* H_dep *) intros d f _ [HS Hin] Hf. right. exists d; auto. }
  intros d Hd. apply H; auto.
Qed.

Lemma lookup_append : forall k a by_ k', by_lookup k' (by_append k a by_) =
  if String.eqb k' k then Some (match by_lookup k by_ with Some v => v ++ [a] | None => [a] end)
  else by_lookup k' by_.
Proof.
  induction by_ as [|[k2 v] r IH]; intro k'; simpl.
  - destruct (String.eqb k' k); reflexivity.
  - destruct (String.eqb_spec k k2) as [<-|Hne]; simpl.
    + destruct (String.eqb k' k); reflexivity.
    + rewrite IH. destruct (String.eqb_spec k' k), (String.eqb_spec k' k2); congruence.
Qed.

Lemma lookup_delete : forall k by_ k', by_lookup k' (by_delete k by_) =
  if String.eqb k' k then None else by_lookup k' by_.
Proof.
  induction by_ as [|[k2 v] r IH]; intro k'; simpl.
  - destruct (String.eqb k' k); reflexivity.
  - destruct (String.eqb_spec k k2) as [<-|Hne]; simpl; rewrite IH.
    + destruct (String.eqb k' k); reflexivity.
    + destruct (String.eqb_spec k' k), (String.eqb_spec k' k2); congruence.
Qed.

Lemma by_size_delete : forall k by_ v, by_lookup k by_ = Some v ->
  by_size (by_delete k by_) + List.length v <= by_size by_.
Proof.
  induction by_ as [|[k' v'] r IH]; simpl; intros v H; [discriminate|].
  destruct (String.eqb k k') eqn:E.
  - inversion H; subst. clear IH.
    assert (by_size (by_delete k r) <= by_size r).
    { clear. induction r as [|[k2 v2] r IH]; simpl; auto.
      destruct (String.eqb k k2); simpl; lia. }
    unfold by_size in *. simpl. lia.
  - simpl. specialize (IH _ H). unfold by_size in *. simpl. lia.
Qed.

Lemma heap_set_length : forall a x h, List.length (heap_set a x h) = List.length h.
Proof. intros a x h. revert a. induction h as [|z h IH]; destruct a; simpl; auto. Qed.

Lemma heap_set_same : forall h a x y, nth_error h a = Some y -> nth_error (heap_set a x h) a = Some x.
Proof.
  induction h as [|z h IH]; intros a x y H; destruct a; simpl in *; try discriminate.
  - reflexivity.
  - eapply IH; eauto.
Qed.

Lemma heap_set_other : forall h a b x, a <> b -> nth_error (heap_set a x h) b = nth_error h b.
Proof.
  induction h as [|z h IH]; intros a b x Hne; destruct a; destruct b; simpl; auto; try congruence.
Qed.

Lemma map_heap_set : forall (B : Type) (f : dinfo -> B) h a x y,
  nth_error h a = Some y -> f x = f y -> map f (heap_set a x h) = map f h.
Proof.
  induction h as [|z h IH]; intros [|a] x y H E; simpl in *; try discriminate.
  - inversion H; subst. rewrite E. reflexivity.
  - f_equal. eauto.
Qed.

Definition bucket (k : string) (by_ : list (string * list nat)) : list nat :=
  match by_lookup k by_ with Some v => v | None => [] end.

Definition has_info (d : decl) : bool := negb (is_alive d).

(* a filter slot after the names [P] have been processed *)
Definition slot_at (P : list string) (k : string) : string := if existsb (String.eqb k) P then "" else k.

Definition info_at (P : list string) (d : decl) : dinfo :=
  {| di_decl := d; di_obj := slot_at P (d_obj d); di_meth := slot_at P (d_meth d) |}.

(* what the loop over a bucket does to one declInfo when the name f is hit *)
Definition clear_name (f : string) (i : dinfo) : dinfo :=
  {| di_decl := di_decl i;
     di_obj := if String.eqb (di_obj i) f then "" else di_obj i;
     di_meth := if String.eqb (di_meth i) f then "" else di_meth i |}.

Definition cleared (i : dinfo) : bool := is_empty (di_obj i) && is_empty (di_meth i).

Lemma slot_at_empty : forall P k, slot_at P k = "" <-> k = "" \/ In k P.
Proof.
  intros P k. unfold slot_at. destruct (existsb _ P) eqn:E.
  - apply existsb_exists in E. destruct E as (x & Hx & E). apply String.eqb_eq in E. subst x. tauto.
  - split; auto. intros [H|H]; auto.
    assert (X : existsb (String.eqb k) P = true) by (apply existsb_exists; exists k; rewrite String.eqb_refl; auto). congruence.
Qed.

Lemma clear_name_info_at : forall f P d, clear_name f (info_at P d) = info_at (f :: P) d.
Proof.
  assert (H : forall f P k, (if String.eqb (slot_at P k) f then "" else slot_at P k) = slot_at (f :: P) k).
  { intros f P k. unfold slot_at. simpl. destruct (existsb _ P); [rewrite orb_true_r; destruct (String.eqb "" f); reflexivity|].
    rewrite orb_false_r. reflexivity. }
  intros f P d. unfold clear_name, info_at. simpl. rewrite !H. reflexivity.
Qed.

Lemma info_at_skip : forall f P d, (In f (filters d) -> In f P) -> info_at (f :: P) d = info_at P d.
Proof.
  assert (H : forall f P k, (k = f -> k = "" \/ In f P) -> slot_at (f :: P) k = slot_at P k).
  { intros f P k H. unfold slot_at at 1. simpl. destruct (String.eqb_spec k f) as [E|]; [|reflexivity].
    symmetry. apply slot_at_empty. subst k. auto. }
  intros f P d Hf. unfold info_at.
  f_equal; apply H; intros E; (destruct (string_dec f "") as [->|Hne]; [left|right; apply Hf, in_filters]; auto).
Qed.

Lemma cleared_info_at : forall P d, cleared (info_at P d) = true <->
  (d_obj d = "" \/ In (d_obj d) P) /\ (d_meth d = "" \/ In (d_meth d) P).
Proof. intros P d. unfold cleared. simpl. rewrite andb_true_iff, !is_empty_true, !slot_at_empty. reflexivity. Qed.

Lemma cleared_cons : forall f P d, cleared (info_at P d) = true -> cleared (info_at (f :: P) d) = true.
Proof. intros f P d. rewrite !cleared_info_at. simpl. tauto. Qed.

Lemma clear_name_idem : forall f i, clear_name f (clear_name f i) = clear_name f i.
Proof.
  assert (H : forall f k, let c := if String.eqb k f then "" else k in (if String.eqb c f then "" else c) = c).
  { intros f k. simpl. destruct (String.eqb k f) eqn:E; [destruct (String.eqb "" f)|rewrite E]; reflexivity. }
  intros f i. unfold clear_name. simpl. rewrite !H. reflexivity.
Qed.

(* the loop over a bucket, when every declInfo outside it is untouched by [clear_name f] *)
Lemma process_bucket_spec : forall f addrs h p,
  (forall b i, nth_error h b = Some i -> In b addrs \/ clear_name f i = i) ->
  fst (process_bucket f addrs h p) = map (clear_name f) h /\
  forall x, In x (snd (process_bucket f addrs h p)) <->
    In x p \/ exists a i, In a addrs /\ nth_error (map (clear_name f) h) a = Some i /\ cleared i = true /\ di_decl i = x.
Proof.
  intro f. induction addrs as [|a r IH]; intros h p Hfix; simpl.
  - split.
    + rewrite <- (map_id h) at 1. apply map_ext_in. intros i Hi. destruct (In_nth_error _ _ Hi) as [b Hb].
      destruct (Hfix b i Hb) as [[]|E]; auto.
    + intro x. split; auto. intros [H|(a & i & [] & _)]; auto.
  - destruct (nth_error h a) as [i|] eqn:En.
    + (* an address that stands twice in the bucket (object filter = method filter) is visited twice: [clear_name f]
         is idempotent *)
      assert (Em : map (clear_name f) (heap_set a (clear_name f i) h) = map (clear_name f) h)
        by (apply (map_heap_set _ _ _ _ _ _ En), clear_name_idem).
      destruct (IH (heap_set a (clear_name f i) h) (if cleared (clear_name f i) then di_decl i :: p else p)) as [Hh Hp].
      { intros b j Hb. destruct (Nat.eq_dec a b) as [<-|Hne].
        - rewrite (heap_set_same _ _ _ _ En) in Hb. inversion Hb. right. apply clear_name_idem.
        - rewrite heap_set_other in Hb by auto. destruct (Hfix b j Hb) as [[|]|]; auto; congruence. }
      rewrite Em in Hh, Hp. split; auto. intro x. rewrite Hp. clear Hp Hh IH.
      pose proof (map_nth_error (clear_name f) _ _ En) as Ea.
      split.
      * intros [H|(a' & j & Ha' & Hj)]; [|right; exists a', j; auto].
        destruct (cleared (clear_name f i)) eqn:Ec; [destruct H as [<-|H]|]; auto.
        right. exists a, (clear_name f i). auto.
      * intros [H|(a' & j & [<-|Ha'] & Hj)]; [left; destruct (cleared _); [right|]; auto | | right; exists a', j; auto].
        rewrite Ea in Hj. destruct Hj as (Hj & Hc & <-). inversion Hj; subst j. rewrite Hc. left; left; auto.
    + destruct (IH h p) as [Hh Hp].
      { intros b j Hb. destruct (Hfix b j Hb) as [[|]|]; auto; congruence. }
      split; auto. intro x. rewrite Hp. split; (intros [H|(a' & j & Ha' & Hj)]; [auto|right]).
      * exists a', j; auto.
      * destruct Ha' as [<-|Ha']; [|exists a', j; auto]. rewrite nth_error_map, En in Hj. destruct Hj; discriminate.
Qed.

Lemma not_alive_named : forall d, is_alive d = false -> ~ (d_obj d = "" /\ d_meth d = "").
Proof.
  intros d H [Ho Hm]. unfold is_alive, unnamed in H. apply orb_false_iff in H. destruct H as [_ H].
  rewrite Ho, Hm in H. discriminate.
Qed.

(* [P]: the names processed so far, most recent first; [pre]: the declarations included.  The heap is a function of the
   two, and so is what is pending or selected ([done]).  Of the buckets only that they cover every slot not yet cleared:
   that the bucket of a processed name is deleted matters for the measure alone. *)
Record Inv (pre : list decl) (P : list string) (s : sel) (done : list decl) : Prop := {
  i_heap : s_infos s = map (info_at P) (filter has_info pre);
  i_by : forall b d k, nth_error (filter has_info pre) b = Some d -> In k (filters d) ->
           In k P \/ In b (bucket k (s_by s));
  i_out : forall x, In x done \/ In x (s_pending s) <->
            In x pre /\ (is_root x = true \/ is_alive x = false /\ cleared (info_at P x) = true)
}.

Definition by_add (k : string) (a : nat) (by_ : list (string * list nat)) :=
  if is_empty k then by_ else by_append k a by_.

Lemma bucket_add : forall k a by_ k', bucket k' (by_add k a by_) =
  bucket k' by_ ++ (if is_empty k then [] else if String.eqb k' k then [a] else []).
Proof.
  intros k a by_ k'. unfold by_add, bucket. destruct (is_empty k); [symmetry; apply app_nil_r|].
  rewrite lookup_append. destruct (String.eqb_spec k' k) as [->|]; [|symmetry; apply app_nil_r].
  destruct (by_lookup k by_); reflexivity.
Qed.

Lemma include_eq : forall s d, include s d =
  {| s_infos := s_infos s ++ (if is_alive d then [] else [info_at [] d]);
     s_by := if is_alive d then s_by s
             else by_add (d_meth d) (List.length (s_infos s)) (by_add (d_obj d) (List.length (s_infos s)) (s_by s));
     s_pending := if is_root d then d :: s_pending s else s_pending s |}.
Proof.
  intros s d. unfold include, is_root, by_add. destruct (is_alive d); simpl; [rewrite app_nil_r|]; reflexivity.
Qed.

Lemma include_inv : forall pre s d, Inv pre [] s [] -> Inv (pre ++ [d]) [] (include s d) [].
Proof.
  intros pre s d [Hh Hb Ho]. rewrite include_eq.
  assert (Hd : has_info d = negb (is_alive d)) by reflexivity.
  constructor; simpl; rewrite ?filter_app; simpl; rewrite ?Hd.
  - rewrite map_app, Hh. destruct (is_alive d); reflexivity.
  - intros b x k Hn Hk. right. destruct (is_alive d) eqn:Ea; simpl in Hn.
    + rewrite app_nil_r in Hn. destruct (Hb b x k Hn Hk) as [[]|]; auto.
    + rewrite !bucket_add. rewrite Hh, map_length. apply in_or_app.
      destruct (Nat.lt_ge_cases b (List.length (filter has_info pre))) as [Hlt|Hge].
      * rewrite nth_error_app1 in Hn by exact Hlt. left. apply in_or_app. left. destruct (Hb b x k Hn Hk) as [[]|]; auto.
      * (* the declInfo just allocated *)
        rewrite nth_error_app2 in Hn by exact Hge.
        destruct (b - _) as [|n] eqn:Ed; [|destruct n; discriminate]. inversion Hn; subst x.
        assert (b = List.length (filter has_info pre)) by lia. subst b.
        apply in_filters in Hk. destruct Hk as [Hne [->| ->]]; apply is_empty_false in Hne.
        -- left. apply in_or_app. right. rewrite Hne, String.eqb_refl. left; auto.
        -- right. rewrite Hne, String.eqb_refl. left; auto.
  - intro x.
    assert (Hr : is_root x = true \/ is_alive x = false /\ cleared (info_at [] x) = true <-> is_root x = true).
    { split; auto. intros [|[Ha Hu]]; auto. apply cleared_info_at in Hu. destruct Hu as [[Eo|[]] [Em|[]]].
      destruct (not_alive_named x Ha (conj Eo Em)). }
    assert (Hp : In x (if is_root d then d :: s_pending s else s_pending s) <->
                 In x (s_pending s) \/ d = x /\ is_root x = true).
    { destruct (is_root d) eqn:Er; simpl; [split; [intros [<-|]|intros [|[<- _]]]; auto|].
      split; auto. intros [|[<- H]]; [auto|congruence]. }
    rewrite Hp, <- or_assoc, Ho, Hr, in_app_iff. clear. simpl. tauto.
Qed.

Lemma include_all_inv : forall pre, Inv pre [] (include_all pre) [].
Proof.
  induction pre as [|d pre IH] using rev_ind.
  - constructor; simpl; [reflexivity | intros [|b]; discriminate | tauto].
  - unfold include_all. rewrite fold_left_app. apply include_inv, IH.
Qed.

(* one dependency name: its bucket is drained; nothing else of the map changes *)
Lemma drain_inv : forall pre P s done f by',
  Inv pre P s done -> (forall k, k <> f -> bucket k by' = bucket k (s_by s)) ->
  Inv pre (f :: P) {| s_infos := fst (process_bucket f (bucket f (s_by s)) (s_infos s) (s_pending s));
                      s_by := by';
                      s_pending := snd (process_bucket f (bucket f (s_by s)) (s_infos s) (s_pending s)) |} done.
Proof.
  intros pre P s done f by' [Hh Hb Ho] Hby.
  (* a declInfo outside the bucket of f has no slot f left *)
  assert (Hfix : forall b d, nth_error (filter has_info pre) b = Some d ->
            In b (bucket f (s_by s)) \/ info_at (f :: P) d = info_at P d).
  { intros b d Hn. destruct (in_dec Nat.eq_dec b (bucket f (s_by s))) as [|Hnb]; [left; auto|right].
    apply info_at_skip. intro Hf. destruct (Hb b d f Hn Hf); tauto. }
  destruct (process_bucket_spec f (bucket f (s_by s)) (s_infos s) (s_pending s)) as [Eh Ep].
  { intros b i Hn. rewrite Hh, nth_error_map in Hn. destruct (nth_error _ b) as [d|] eqn:En; [|discriminate].
    inversion Hn. rewrite clear_name_info_at. auto. }
  assert (Em : map (clear_name f) (s_infos s) = map (info_at (f :: P)) (filter has_info pre)).
  { rewrite Hh, map_map. apply map_ext. intro d. apply clear_name_info_at. }
  rewrite Em in Eh, Ep. constructor; simpl.
  - exact Eh.
  - intros b d k Hn Hk. destruct (String.eqb_spec k f) as [->|Hne]; [left; left; auto|]. rewrite (Hby k Hne).
    destruct (Hb b d k Hn Hk); [left; right|right]; auto.
  - intro x. rewrite Ep, <- or_assoc, Ho. split.
    + intros [(Hx & [Hr|[Ha Hc]])|(a & i & Ha & Hn & Hc & <-)]; [auto using cleared_cons..|].
      rewrite nth_error_map in Hn. destruct (nth_error _ a) as [d|] eqn:En; [|discriminate]. inversion Hn; subst i.
      apply nth_error_In, filter_In in En. destruct En as [Hx Hi]. apply negb_true_iff in Hi. simpl. auto.
    + intros [Hx [Hr|[Ha Hc]]]; [auto|].
      assert (Hin : In x (filter has_info pre)) by (apply filter_In; unfold has_info; rewrite Ha; auto).
      destruct (In_nth_error _ _ Hin) as [b Hn]. destruct (Hfix b x Hn) as [Hbk|E].
      * right. exists b, (info_at (f :: P) x). auto using map_nth_error.
      * rewrite E in Hc. auto.
Qed.

Lemma process_deps_inv : forall deps pre P s done,
  Inv pre P s done -> Inv pre (rev deps ++ P) (process_deps deps s) done.
Proof.
  induction deps as [|f r IH]; intros pre P s done HI; simpl; auto.
  rewrite <- app_assoc. simpl.
  pose proof (drain_inv pre P s done f) as D. unfold bucket in D.
  destruct (by_lookup f (s_by s)) as [addrs|] eqn:El.
  - destruct (process_bucket f addrs (s_infos s) (s_pending s)) as [h p]. apply IH, D; auto.
    intros k Hk. rewrite lookup_delete. apply String.eqb_neq in Hk. rewrite Hk. reflexivity.
  - (* no bucket under f: the drain of an empty one *)
    apply IH. destruct s. apply (D _ HI). reflexivity.
Qed.

Lemma process_bucket_pending : forall f rem h p,
  List.length (snd (process_bucket f rem h p)) <= List.length p + List.length rem.
Proof.
  intros f. induction rem as [|a r IH]; intros h p; simpl; [lia|].
  destruct (nth_error h a) as [info|].
  - match goal with |- context [process_bucket f r ?h' ?p'] => specialize (IH h' p') end.
    destruct (is_empty _ && is_empty _) in *; simpl in *; lia.
  - specialize (IH h p). lia.
Qed.

Lemma process_deps_measure : forall deps s, measure (process_deps deps s) <= measure s.
Proof.
  induction deps as [|f r IH]; intros s; simpl; auto.
  destruct (by_lookup f (s_by s)) as [addrs|] eqn:El; auto.
  destruct (process_bucket f addrs (s_infos s) (s_pending s)) as [h p] eqn:Ep.
  eapply Nat.le_trans; [apply IH|]. unfold measure; simpl.
  pose proof (process_bucket_pending f addrs (s_infos s) (s_pending s)) as Hp. rewrite Ep in Hp. simpl in Hp.
  pose proof (by_size_delete _ _ _ El). lia.
Qed.

(* between two iterations of AliveDecls the names processed are the dependencies of the selected declarations; at the
   end the selection is closed under the selection rule, so it contains the least closed set *)
Lemma alive_loop_spec : forall ds fuel P s done,
  Inv ds P s done -> (forall f, In f P -> Hit ds f) -> incl (flat_map d_deps done) P -> measure s < fuel ->
  exists res, alive_loop fuel s done = Some res /\ (forall d, In d res <-> Alive ds d).
Proof.
  induction fuel as [|fuel IH]; intros P s done [Hh Hb Ho] Hhit Hdone Hm; [lia|]. simpl.
  assert (Hal : forall x, In x done \/ In x (s_pending s) -> Alive ds x).
  { intros x Hx. apply Ho in Hx. destruct Hx as [Hx [Hr|[Ha Hc]]]; [apply A_root; auto|].
    assert (Hk : forall k, k = "" \/ In k P -> Hit ds k) by (intros k [->|Hk]; [constructor|auto]).
    apply cleared_info_at in Hc. destruct Hc. apply A_dep; auto. }
  destruct (s_pending s) as [|d p] eqn:Ep.
  - exists done. split; auto. intro x. split; [auto|]. apply (Alive_least ds (fun y => In y done)). split.
    + intros y Hy Hr. destruct (proj2 (Ho y)) as [|[]]; auto.
    + intros y Hy Ha Hf. destruct (proj2 (Ho y)) as [|[]]; auto. split; auto. right. split; auto.
      (* both names have been processed, so both slots are cleared *)
      assert (HP : forall k, k = d_obj y \/ k = d_meth y -> k = "" \/ In k P).
      { intros k Hk. destruct (string_dec k "") as [|Hne]; [auto|right].
        destruct (Hf k) as (d' & Hd' & _ & Hin); [apply in_filters; auto|]. apply Hdone, in_flat_map. eauto. }
      apply cleared_info_at. auto.
  - set (s0 := {| s_infos := s_infos s; s_by := s_by s; s_pending := p |}).
    apply (IH (rev (d_deps d) ++ P)).
    + apply process_deps_inv. constructor; auto.
      (* popping d moves it from pending to the selection *)
      intro x. rewrite <- Ho. simpl. clear. tauto.
    + intros f Hf. apply in_app_or in Hf. destruct Hf as [Hf|]; auto. apply in_rev in Hf.
      apply (H_dep _ d); auto. apply Hal. right; left; auto.
    + simpl. intros f Hf. apply in_or_app. apply in_app_or in Hf. destruct Hf; [left; apply in_rev in H|right]; auto.
    + pose proof (process_deps_measure (d_deps d) s0). unfold measure in *. unfold s0 in *. simpl in *.
      rewrite Ep in Hm. simpl in Hm. lia.
Qed.

Theorem select_decls_spec : forall ds,
  exists res, select_decls ds = Some res /\ (forall d, In d res <-> Alive ds d).
Proof.
  intro ds. unfold select_decls. apply (alive_loop_spec _ _ []); [apply include_all_inv | intros f [] | intros f [] | lia].
Qed.

Theorem select_spec : forall ds,
  exists ids, select ds = Some ids /\
              (forall id, In id ids <-> exists d, Alive ds d /\ d_id d = id).
Proof.
  intro ds. destruct (select_decls_spec ds) as (res & Hs & Hr).
  exists (map d_id res). unfold select. rewrite Hs. split; auto.
  intro id. rewrite in_map_iff. split.
  - intros (d & Hid & Hin). exists d. split; auto. apply Hr; auto.
  - intros (d & Ha & Hid). exists d. split; auto. apply Hr; auto.
Qed.

Definition decl_le (d d' : decl) : Prop :=
  d_id d = d_id d' /\ incl (d_deps d) (d_deps d') /\ (d_link d = true -> d_link d' = true) /\
  (is_alive d' = true \/
   (is_alive d = false /\ is_alive d' = false /\ d_obj d = d_obj d' /\ d_meth d = d_meth d')).

Definition decls_le (ds ds' : list decl) : Prop :=
  forall d, In d ds -> exists d', In d' ds' /\ decl_le d d'.

Lemma Alive_mono : forall ds ds', decls_le ds ds' ->
  forall d, Alive ds d -> exists d', decl_le d d' /\ Alive ds' d'.
Proof.
  intros ds ds' Hle. apply Alive_least. split.
  - intros d Hd Hr. destruct (Hle d Hd) as (d' & Hd' & He). exists d'. split; auto.
    apply A_root; auto. destruct He as (_ & _ & Hl & Hal). unfold is_root in *.
    apply orb_true_iff in Hr. destruct Hr as [Hr|Hr].
    + destruct Hal as [->|(X & _)]; [auto|congruence].
    + rewrite (Hl Hr). apply orb_true_r.
  - intros d Hd Hna Hf. destruct (Hle d Hd) as (d' & Hd' & He). exists d'. split; auto.
    destruct He as (_ & _ & _ & [Hal|(_ & _ & Eo & Em)]).
    + apply A_root; auto. unfold is_root. rewrite Hal. auto.
    + (* d' has the filters of d, and each is a dependency of the counterpart of the member it was one of *)
      apply Alive_step; auto. unfold filters. rewrite <- Eo, <- Em. intros f Hin.
      destruct (Hf f Hin) as (d1 & (d1' & (_ & Hi & _) & Ha) & _ & Hdep). eapply H_dep; eauto.
Qed.

Lemma select_some : forall ds ids, select ds = Some ids ->
  forall id, In id ids <-> exists d, Alive ds d /\ d_id d = id.
Proof. intros ds ids H. destruct (select_spec ds) as (i & E & S). rewrite H in E. inversion E; subst. exact S. Qed.

Theorem select_monotone : forall ds ds' ids ids',
  decls_le ds ds' -> select ds = Some ids -> select ds' = Some ids' ->
  forall id, In id ids -> In id ids'.
Proof.
  intros ds ds' ids ids' Hle H1 H2 id Hin.
  apply (select_some _ _ H1) in Hin. destruct Hin as (d & Ha & <-).
  destruct (Alive_mono _ _ Hle d Ha) as (d' & He & Ha').
  apply (select_some _ _ H2). exists d'. split; auto. symmetry. apply He.
Qed.

Definition decl_equiv (d d' : decl) : Prop :=
  d_id d = d_id d' /\ d_alive d = d_alive d' /\ d_obj d = d_obj d' /\ d_meth d = d_meth d' /\
  d_link d = d_link d' /\ (forall f, In f (d_deps d) <-> In f (d_deps d')).

Definition same_decls (ds ds' : list decl) : Prop :=
  (forall d, In d ds -> exists d', In d' ds' /\ decl_equiv d d') /\
  (forall d', In d' ds' -> exists d, In d ds /\ decl_equiv d d').

Lemma decl_equiv_sym : forall d d', decl_equiv d d' -> decl_equiv d' d.
Proof. intros d d' (A & B & C & D & E & F). repeat split; auto; apply F. Qed.

(* equivalent declaration lists are below each other: order independence is monotonicity in both directions *)
Lemma decl_equiv_le : forall d d', decl_equiv d d' -> decl_le d d'.
Proof.
  intros d d' (A & B & C & D & E & F).
  assert (Ea : is_alive d = is_alive d') by (unfold is_alive, unnamed; rewrite B, C, D; reflexivity).
  split; [exact A|]. split; [intros f; apply F|]. split; [congruence|].
  destruct (is_alive d'); auto.
Qed.

(* the deps of every declaration reordered / duplicated by an arbitrary function that keeps the set *)
Definition with_deps (g : decl -> list string) (d : decl) : decl :=
  {| d_id := d_id d; d_alive := d_alive d; d_obj := d_obj d; d_meth := d_meth d; d_deps := g d; d_link := d_link d |}.

Section Sound.
Variable ds : list decl.
Variable refs : decl -> decl -> Prop.     (* d's code can reach d' at run time *)
Variable entry : decl -> Prop.            (* what the run-time system invokes by itself *)

Hypothesis entry_root : forall d, In d ds -> entry d -> is_root d = true.
Hypothesis refs_closed : forall d d', In d ds -> refs d d' -> In d' ds.
Hypothesis deps_overapprox : forall d d' f, In d ds -> refs d d' -> In f (filters d') -> In f (d_deps d).

Lemma reachable_alive : forall d0 d, In d0 ds -> entry d0 -> clos_refl_trans_n1 _ refs d0 d -> Alive ds d.
Proof.
  intros d0 d H0 He Hp. induction Hp as [|y z Hyz Hp IH].
  - apply A_root; auto.
  - assert (Hy : In y ds) by (apply Alive_in with (ds := ds); auto).
    apply Alive_step; [eauto|]. intros f Hf. eapply H_dep; eauto.
Qed.

Theorem select_sound_gen : forall d0 d, In d0 ds -> entry d0 -> clos_refl_trans _ refs d0 d ->
  exists ids, select ds = Some ids /\ In (d_id d) ids.
Proof.
  intros d0 d H0 He Hp. destruct (select_spec ds) as (ids & Hs & Hi). exists ids. split; auto.
  apply Hi. exists d. split; auto. eapply reachable_alive; eauto.
  apply clos_rt_rtn1_iff; auto.
Qed.
End Sound.
