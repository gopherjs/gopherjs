(* C05 — analysis.HasSideEffect (Model/C05_SideEffect.v) misses no call and no receive; the rule that makes a variable
   with such an initialiser a DCE root, and what it leaves out (an initialiser that can only panic). *)
From Coq Require Import List Bool NArith.
From Verif Require Import Model.C05_SideEffect.
Import ListNotations.

Lemma orb_mono : forall a a' b b' : bool,
  (a = true -> a' = true) -> (b = true -> b' = true) -> a || b = true -> a' || b' = true.
Proof. intros a a' b b' Ha Hb H. apply orb_true_iff in H. apply orb_true_iff. tauto. Qed.

Theorem hse_conservative : forall e, evaluates_call_or_recv e = true -> has_side_effect e = true.
Proof.
  (* structural recursion on e; [any] is the same recursion along a list of arguments, elements or statements
     (the local list loops [any] of the two functions are convertible to existsb) *)
  fix IH 1.
  assert (any : forall l, existsb evaluates_call_or_recv l = true -> existsb has_side_effect l = true).
  { fix IHl 1. intros [|x r]; simpl; [discriminate | apply orb_mono; auto]. }
  intros [| |e|k f args|op e|e|op a b|a i|a lo hi|e|e|elts|body]; simpl; auto.
  - (* call: every kind that is a call is recognised by its signature *)
    repeat apply orb_mono; auto. destruct k; simpl; auto.
  - (* unary: <- is a receive *) destruct op; auto.
  - (* binary *) apply orb_mono; auto.
  - (* index *) apply orb_mono; auto.
  - (* slice *) repeat apply orb_mono; auto.
  - (* function literal: its body is not evaluated *) discriminate.
Qed.

(* The rule of decls.go:289, full statement: an initialiser whose evaluation can have an observable
   effect (call, receive, or run-time panic) makes its variable a DCE root. *)
Definition initialiser_root_full_statement : Prop :=
  forall n e, can_have_effect e = true -> var_is_root n e = true.

(* ... is false for the code as it is: `var unused = a[idx]` *)
Theorem initialiser_root_refuted : exists e, can_have_effect e = true /\ var_is_root 1 e = false.
Proof. exists (EIndex EIdent EIdent). vm_compute. split; reflexivity. Qed.

Theorem initialiser_root_excluding_panics : forall n e,
  may_panic e = false -> can_have_effect e = true -> var_is_root n e = true.
Proof.
  intros n e Hp Hc. unfold can_have_effect in Hc. rewrite Hp, orb_false_r in Hc.
  unfold var_is_root. rewrite (hse_conservative e Hc). apply orb_true_r.
Qed.
