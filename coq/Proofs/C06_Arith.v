(* C06 — [wrap] and [in_range] of a kind as the residue and the range of Base/Word ([wrap_wres], [in_range_wrange]);
   ToInt32/ToUint32, the 32-bit shifts and bitwise operators, the fixNumber suffixes, and the words the helpers form when
   they shift a pair ([shl_words], [shr_lo_value]). *)
From Coq Require Import ZArith Znumtheory Bool List Lia ZifyBool.
From Verif Require Import Base.Word Base.C06_JsNum Model.C06_Spec.
Import ListNotations.
Local Open Scope Z_scope.
(* lia and nia see / and mod of Z in every file that requires this one; C06_Div32 replaces the hook, for itself and
   for the files that require it, by the one that also knows Z.quot and Z.rem *)
Ltac Zify.zify_post_hook ::= Z.div_mod_to_equations.

Lemma two32_eq : two32 = 2 ^ 32. Proof. reflexivity. Qed.
Lemma two31_eq : two31 = 2 ^ 31. Proof. reflexivity. Qed.

Lemma wraps_alt : forall w z, 0 < w -> wraps w z = sres w z.
Proof. exact sres_alt. Qed.

Lemma to_int32_wres : forall z, to_int32 z = wres true 32 z.
Proof. exact (fun z => wraps_alt 32 z eq_refl). Qed.

Lemma to_uint32_range : forall z, 0 <= to_uint32 z < two32.
Proof. exact (fun z => wres_range false 32 z eq_refl). Qed.

Lemma to_int32_range : forall z, - two31 <= to_int32 z < two31.
Proof. intro z. rewrite to_int32_wres. exact (wres_range true 32 z eq_refl). Qed.

Lemma to_int32_id : forall z, - two31 <= z < two31 -> to_int32 z = z.
Proof. intros z H. rewrite to_int32_wres. exact (wres_id true 32 z eq_refl H). Qed.

Lemma to_uint32_id : forall z, 0 <= z < two32 -> to_uint32 z = z.
Proof. exact (fun z => wres_id false 32 z eq_refl). Qed.

Lemma to_int32_mod : forall z, to_int32 z mod two32 = z mod two32.
Proof. intro z. rewrite to_int32_wres. exact (wres_mod true 32 z ltac:(lia)). Qed.

Lemma to_uint32_of_int32 : forall z, to_uint32 (to_int32 z) = to_uint32 z.
Proof. intro z; unfold to_uint32; apply to_int32_mod. Qed.

Lemma to_int32_congr : forall a b, a mod two32 = b mod two32 -> to_int32 a = to_int32 b.
Proof. intros a b H; unfold to_int32; rewrite H; reflexivity. Qed.

Lemma to_int32_of_uint32 : forall z, to_int32 (to_uint32 z) = to_int32 z.
Proof. intro z; apply to_int32_congr; unfold to_uint32, two32; lia. Qed.

Lemma bits_pos : forall k, 0 < bits k. Proof. destruct k; reflexivity. Qed.
Lemma bits_le_32 : forall k, is64 k = false -> 0 < bits k <= 32.
Proof. intros k H; destruct k; try discriminate H; cbn; lia. Qed.

Lemma wrap_wres : forall k z, wrap k z = wres (signed k) (bits k) z.
Proof. intros k z. unfold wrap, wres, wrapu. rewrite wraps_alt by apply bits_pos. reflexivity. Qed.
Lemma in_range_wrange : forall k z, in_range k z <-> wrange (signed k) (bits k) z.
Proof. intros k z. unfold in_range, kmin, kmax, wrange. destruct (signed k); lia. Qed.

Lemma in_range_wrap : forall k z, in_range k (wrap k z).
Proof. intros k z. rewrite in_range_wrange, wrap_wres. apply wres_range, bits_pos. Qed.

Lemma wrap_id : forall k z, in_range k z -> wrap k z = z.
Proof. intros k z R. rewrite wrap_wres. apply wres_id; [apply bits_pos | apply in_range_wrange, R]. Qed.

Lemma wrap_congr : forall k a b, a mod 2 ^ bits k = b mod 2 ^ bits k -> wrap k a = wrap k b.
Proof. intros k a b E. pose proof (bits_pos k). rewrite !wrap_wres. apply (wres_congr _ _ (bits k)); [lia | exact E]. Qed.

Lemma in_range_0 : forall k, in_range k 0.
Proof. intro k. apply in_range_wrange, wrange_0, bits_pos. Qed.

Lemma wrap_mod32 : forall k a b, is64 k = false -> a mod two32 = b mod two32 -> wrap k a = wrap k b.
Proof. intros k a b H E. pose proof (bits_le_32 k H). rewrite !wrap_wres. apply (wres_congr _ _ 32); [lia | exact E]. Qed.

Lemma wrap_to_int32 : forall k z, is64 k = false -> wrap k (to_int32 z) = wrap k z.
Proof. intros k z H. apply wrap_mod32; [assumption | apply to_int32_mod]. Qed.

Lemma wrap_to_uint32 : forall k z, is64 k = false -> wrap k (to_uint32 z) = wrap k z.
Proof. intros k z H. apply wrap_mod32; [assumption | apply Z.mod_mod; discriminate]. Qed.

Lemma cnt_small : forall n, 0 <= n < 32 -> cnt n = n.
Proof. intros n H; unfold cnt, to_uint32, two32; lia. Qed.

Lemma shr32_0 : forall z, shr32 z 0 = to_int32 z.
Proof. intro z; unfold shr32; rewrite cnt_small by lia; apply Z.shiftr_0_r. Qed.
Lemma ushr32_0 : forall z, ushr32 z 0 = to_uint32 z.
Proof. intro z; unfold ushr32; rewrite cnt_small by lia; apply Z.shiftr_0_r. Qed.

Lemma shl32_mod : forall a n, 0 <= n < 32 -> shl32 a n mod two32 = (a * 2 ^ n) mod two32.
Proof.
  intros a n Hn. unfold shl32. rewrite cnt_small by assumption. rewrite to_int32_mod.
  rewrite Z.mul_mod by (unfold two32; lia). rewrite to_int32_mod. rewrite <- Z.mul_mod by (unfold two32; lia). reflexivity.
Qed.
Lemma ushr32_div : forall a n, 0 <= n < 32 -> ushr32 a n = (a mod two32) / 2 ^ n.
Proof. intros a n Hn. unfold ushr32, to_uint32. rewrite cnt_small by assumption. apply Z.shiftr_div_pow2; lia. Qed.
Lemma ushr32_small : forall l j, 0 <= j < 32 -> 0 <= l < two32 -> ushr32 l j = l / 2 ^ j.
Proof. intros l j Hj Hl. rewrite ushr32_div, Z.mod_small by assumption. reflexivity. Qed.
Lemma shr32_small : forall h j, 0 <= j < 32 -> - two31 <= h < two31 -> shr32 h j = h / 2 ^ j.
Proof. intros h j Hj Hh. unfold shr32. rewrite cnt_small by assumption. rewrite to_int32_id by assumption. apply Z.shiftr_div_pow2; lia. Qed.

(* z << n >> n: the sign-extending wrap to the low 32 - n bits (fixNumber for int8, int16) *)
Lemma shl_shr_wraps : forall s z, 0 <= s < 32 -> shr32 (shl32 z s) s = wraps (32 - s) z.
Proof.
  intros s z Hs. unfold shr32, shl32. rewrite !cnt_small by lia.
  rewrite to_int32_id by apply to_int32_range. rewrite Z.shiftr_div_pow2, wraps_alt by lia.
  rewrite (sres_congr (32 - s) z (to_int32 z)) by (symmetry; apply (mod_pow_le _ _ (32 - s) 32); [lia | apply to_int32_mod]).
  generalize (to_int32 z); intro a. rewrite to_int32_wres. apply (shl_sres 32 s a), Hs.
Qed.

(* z << n >>> n: the low 32 - n bits (fixNumber for uint8, uint16) *)
Lemma shl_ushr_wrapu : forall s z, 0 <= s < 32 -> ushr32 (shl32 z s) s = wrapu (32 - s) z.
Proof.
  intros s z Hs. unfold ushr32, shl32. rewrite !cnt_small by lia.
  rewrite to_uint32_of_int32, Z.shiftr_div_pow2 by lia.
  unfold to_uint32. rewrite (shl_mod 32), Z.div_mul by (try apply Z.pow_nonzero; lia). unfold wrapu.
  apply (mod_pow_le _ _ (32 - s) 32); [lia | apply to_int32_mod].
Qed.

Section Op32.
Variables (f : Z -> Z -> Z) (fb : bool -> bool -> bool).
Hypothesis f_spec : forall a b i, Z.testbit (f a b) i = fb (Z.testbit a i) (Z.testbit b i).
Hypothesis fb_00 : fb false false = false.

Lemma op32_eq : forall a b, f (to_int32 a) (to_int32 b) = to_int32 (f a b).
Proof.
  intros a b. rewrite <- (to_int32_id (f (to_int32 a) (to_int32 b))).
  - apply to_int32_congr. rewrite two32_eq, !(bitop_mod f fb) by (assumption || lia). rewrite <- two32_eq, !to_int32_mod. reflexivity.
  - apply (bitop_srange f fb f_spec 32); [lia | apply to_int32_range | apply to_int32_range].
Qed.

Lemma bitop_in_range : forall k a b, in_range k a -> in_range k b -> in_range k (f a b).
Proof. intros k a b. rewrite !in_range_wrange. apply (bitop_wrange f fb f_spec fb_00), bits_pos. Qed.
End Op32.

Lemma and32_eq : forall a b, and32 a b = to_int32 (Z.land a b). Proof. exact (op32_eq Z.land andb Z.land_spec eq_refl). Qed.
Lemma or32_eq : forall a b, or32 a b = to_int32 (Z.lor a b). Proof. exact (op32_eq Z.lor orb Z.lor_spec eq_refl). Qed.
Lemma or32_mod : forall a b, or32 a b mod two32 = Z.lor (a mod two32) (b mod two32).
Proof. intros a b. rewrite or32_eq, to_int32_mod, two32_eq. apply (bitop_mod Z.lor orb Z.lor_spec eq_refl); lia. Qed.
Lemma xor32_eq : forall a b, xor32 a b = to_int32 (Z.lxor a b). Proof. exact (op32_eq Z.lxor xorb Z.lxor_spec eq_refl). Qed.
Lemma not32_eq : forall a, not32 a = to_int32 (Z.lnot a).
Proof.
  intro a. unfold not32. pose proof (to_int32_range a). rewrite <- (to_int32_id (Z.lnot (to_int32 a))) by (unfold Z.lnot; lia).
  apply to_int32_congr. rewrite two32_eq. apply lnot_mod_congr. rewrite <- two32_eq. apply to_int32_mod.
Qed.

Lemma andnot32_eq : forall a b, and32 a (not32 b) = to_int32 (Z.land a (Z.lnot b)).
Proof.
  intros a b. unfold and32, not32. pose proof (to_int32_range b). rewrite (to_int32_id (Z.lnot _)) by (unfold Z.lnot; lia).
  exact (op32_eq (fun a b => Z.land a (Z.lnot b)) (fun a b => a && negb b) andnot_spec eq_refl a b).
Qed.

Lemma or_words : forall a b n, 0 <= n < 32 -> 0 <= b < 2 ^ n ->
  or32 (shl32 a n) b mod two32 = (a mod 2 ^ (32 - n)) * 2 ^ n + b.
Proof.
  intros a b n Hn Hb. assert (2 ^ n <= two32) by (apply (Z.pow_le_mono_r 2 n 32); lia).
  rewrite or32_mod, shl32_mod, (shl_mod 32), (Z.mod_small b) by lia. apply lor_shift_add; lia.
Qed.

Lemma top_bits : forall l n, 0 < n < 32 -> 0 <= l < two32 -> 0 <= ushr32 l (32 - n) < 2 ^ n.
Proof. intros l n Hn Hl. rewrite ushr32_small by lia. apply top_bits_range; [lia | exact Hl]. Qed.

(* (h, l) << n as the shift helpers and $div64 form it: the low word modulo 2^32, its top n bits moved into the high word *)
Lemma shl_words : forall h l n, 0 < n < 32 -> 0 <= l < two32 ->
  to_uint32 (shl32 l n) = (l * 2 ^ n) mod two32 /\
  or32 (shl32 h n) (ushr32 l (32 - n)) mod two32 = (h * 2 ^ n + l / 2 ^ (32 - n)) mod two32.
Proof.
  intros h l n Hn Hl. split; [apply shl32_mod; lia |].
  rewrite <- Z.mod_mod, or_words, ushr32_small, <- (shl_mod 32) by (discriminate || lia || apply top_bits; assumption).
  apply Zplus_mod_idemp_l.
Qed.

(* (l >>> n | h << (32 - n)) >>> 0: the low word of a pair shifted right by n *)
Lemma shr_lo_value : forall h l n, 0 < n < 32 -> 0 <= l < two32 ->
  to_uint32 (or32 (ushr32 l n) (shl32 h (32 - n))) = (h mod 2 ^ n) * 2 ^ (32 - n) + l / 2 ^ n.
Proof.
  intros h l n Hn Hl. pose proof (top_bits l (32 - n) ltac:(lia) Hl) as Hb. replace (32 - (32 - n)) with n in Hb by lia.
  unfold to_uint32, or32 at 1. rewrite Z.lor_comm. fold (or32 (shl32 h (32 - n)) (ushr32 l n)).
  rewrite or_words, ushr32_small by (assumption || lia). replace (32 - (32 - n)) with n by lia. reflexivity.
Qed.

Definition land_in_range := bitop_in_range Z.land andb Z.land_spec eq_refl.
Definition lor_in_range := bitop_in_range Z.lor orb Z.lor_spec eq_refl.
Definition lxor_in_range := bitop_in_range Z.lxor xorb Z.lxor_spec eq_refl.

Lemma in_range_w32 : forall k z, is64 k = false -> in_range k z -> wrange (signed k) 32 z.
Proof. intros k z H R. apply (wrange_le _ (bits k)); [apply bits_le_32, H | apply in_range_wrange, R]. Qed.
Lemma in_range_s32 : forall k z, is64 k = false -> signed k = true -> in_range k z -> - two31 <= z < two31.
Proof. intros k z H S R. apply (in_range_w32 k z H) in R. rewrite S in R. exact R. Qed.
Lemma in_range_u32 : forall k z, is64 k = false -> signed k = false -> in_range k z -> 0 <= z < two32.
Proof. intros k z H S R. apply (in_range_w32 k z H) in R. rewrite S in R. exact R. Qed.
Lemma in_range_32 : forall k z, is64 k = false -> in_range k z -> - two31 <= z < two32.
Proof. intros k z H R. apply (in_range_w32 k z H) in R. unfold two31, two32. destruct (signed k); cbn in R; lia. Qed.

(* the 32-bit word in which the templates leave a number of kind k: ToInt32 (any 32-bit operator) for the signed kinds,
   ToUint32 (a trailing >>> 0) for the unsigned ones *)
Definition trunc32 (k : kind) (z : Z) : Z := if signed k then to_int32 z else to_uint32 z.

Lemma trunc32_wres : forall k z, trunc32 k z = wres (signed k) 32 z.
Proof. intros k z. unfold trunc32. rewrite to_int32_wres. reflexivity. Qed.

Lemma trunc32_id : forall k z, is64 k = false -> in_range k z -> trunc32 k z = z.
Proof. intros k z H R. rewrite trunc32_wres. apply wres_id; [reflexivity | apply in_range_w32; assumption]. Qed.

Lemma wrap_trunc32 : forall k z, is64 k = false -> wrap k (trunc32 k z) = wrap k z.
Proof. intros k z H. rewrite trunc32_wres. apply wrap_mod32; [assumption | exact (wres_mod _ 32 z ltac:(lia))]. Qed.
