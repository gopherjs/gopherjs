(* C06 — & | ^ &^ and unary - ^ for the kinds of at most 32 bits *)
From Coq Require Import ZArith Znumtheory Bool List Lia ZifyBool.
From Verif Require Import Base.Word Base.C06_JsNum Model.C06_Prelude64 Model.C06_Spec Gen.C06_Tables Model.C06_Templates Proofs.C06_Arith Proofs.C06_Fix.
Import ListNotations.
Local Open Scope Z_scope.

(* & and |: the 32-bit operator gives ToInt32 of the exact result, which is in range; unsigned kinds add >>> 0 *)
Lemma and32_correct : forall V k x y, is64 k = false -> in_range k x -> in_range k y ->
  bin32 V k And (Fin x) (Fin y) = Ret (Fin (Z.land x y)).
Proof.
  intros V k x y H Rx Ry. rewrite <- (trunc32_id k (Z.land x y)) by (assumption || apply land_in_range; assumption).
  cbn [bin32]. unfold trunc32. destruct (signed k); js32; rewrite ?ushr32_0, and32_eq, ?to_uint32_of_int32; reflexivity.
Qed.
Lemma or32_correct : forall V k x y, is64 k = false -> in_range k x -> in_range k y ->
  bin32 V k Or (Fin x) (Fin y) = Ret (Fin (Z.lor x y)).
Proof.
  intros V k x y H Rx Ry. rewrite <- (trunc32_id k (Z.lor x y)) by (assumption || apply lor_in_range; assumption).
  cbn [bin32]. unfold trunc32. destruct (signed k); js32; rewrite ?ushr32_0, or32_eq, ?to_uint32_of_int32; reflexivity.
Qed.

Lemma xor32_correct : forall V k x y, is64 k = false ->
  bin32 V k Xor (Fin x) (Fin y) = Ret (Fin (wrap k (Z.lxor x y))).
Proof. intros V k x y H. cbn [bin32]. js32. rewrite fixnum_fin, xor32_eq, wrap_to_int32 by assumption. reflexivity. Qed.

Lemma andnot32_correct : forall V k x y, is64 k = false ->
  bin32 V k AndNot (Fin x) (Fin y) = Ret (Fin (wrap k (Z.land x (Z.lnot y)))).
Proof. intros V k x y H. cbn [bin32]. js32. rewrite fixnum_fin, andnot32_eq, wrap_to_int32 by assumption. reflexivity. Qed.

Lemma not32_correct : forall V k x, is64 k = false ->
  un32 V k Not (Fin x) = Ret (Fin (wrap k (Z.lnot x))).
Proof.
  intros V k x H. cbn [un32]. js32. rewrite fixnum_fin, not32_eq, wrap_to_int32 by assumption. reflexivity.
Qed.

Lemma fixnum_js_neg : forall k x, is64 k = false -> fixnum k (js_neg (Fin x)) = Fin (wrap k (- x)).
Proof.
  intros k x H. destruct x as [| p | p]; cbn [js_neg].
  - rewrite fixnum_nz by assumption. change (- 0) with 0. rewrite (wrap_id k 0 (in_range_0 k)). reflexivity.
  - apply fixnum_fin; assumption.
  - apply fixnum_fin; assumption.
Qed.

Definition neg_defect_free (V : variant) (k : kind) (x : Z) : Prop :=
  v_neg V = true \/ signed k = false \/ (x <> 0 /\ x <> kmin k).

Lemma neg32_correct : forall V k x, is64 k = false -> in_range k x -> neg_defect_free V k x ->
  un32 V k Neg (Fin x) = Ret (Fin (wrap k (- x))).
Proof.
  intros V k x H R D. cbn [un32]. destruct (signed k && negb (v_neg V)) eqn:F.
  - apply andb_prop in F. destruct F as [S F]. apply negb_true_iff in F.
    destruct D as [D | [D | [N0 Nm]]]; [rewrite D in F; discriminate F | rewrite D in S; discriminate S |].
    assert (Rn : in_range k (- x)).
    { unfold in_range, kmin, kmax in *. rewrite S in *. lia. }
    rewrite (wrap_id k _ Rn). destruct x; [exfalso; apply N0; reflexivity | reflexivity | reflexivity].
  - rewrite fixnum_js_neg by assumption. reflexivity.
Qed.

Lemma neg_zero_refuted : forall V, v_neg V = false -> un32 V Int32 Neg (Fin 0) = Ret NZ.
Proof. intros V E. cbn [un32]. rewrite E. reflexivity. Qed.
Lemma neg_minint_refuted : forall V, v_neg V = false ->
  un32 V Int32 Neg (Fin (-2147483648)) = Ret (Fin 2147483648) /\ go_un Int32 Neg (-2147483648) = -2147483648.
Proof. intros V E. cbn [un32]. rewrite E. split; reflexivity. Qed.
