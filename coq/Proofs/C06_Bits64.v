(* C06 — & | ^ &^ and unary ^ of the 64-bit kinds, and the conversion of a 64-bit value to a kind of at most 32 bits *)
From Coq Require Import ZArith Znumtheory Bool List Lia ZifyBool.
From Verif Require Import Base.Word Base.C06_JsNum Model.C06_Prelude64 Model.C06_Spec Gen.C06_Tables Model.C06_Templates
  Proofs.C06_Arith Proofs.C06_Fix Proofs.C06_Bits32 Proofs.C06_Shift32 Proofs.C06_Ops64.
Import ListNotations.
Local Open Scope Z_scope.

Lemma new64_words : forall tr k A L v, is64 k = true -> - two31 <= A < two31 ->
  A mod two32 = (v / two32) mod two32 -> L = v mod two32 ->
  new64v tr (signed k) (Fin A) (Fin L) = enc64 k (wrap k v).
Proof.
  intros tr k A L v H BA EA EL. apply new64_enc; [assumption | unfold two31, two32, two53 in *; lia |].
  change (2 ^ 64) with 18446744073709551616. unfold two32 in *. lia.
Qed.

(* & | ^ word by word: the high word through ToInt32, the low word through >>> 0 *)
Section Bitwise64.
Variables (f : Z -> Z -> Z) (fb : bool -> bool -> bool).
Hypothesis f_spec : forall a b i, Z.testbit (f a b) i = fb (Z.testbit a i) (Z.testbit b i).
Hypothesis fb_00 : fb false false = false.

Lemma bitop64 : forall tr k x y, is64 k = true ->
  new64v tr (signed k) (Fin (to_int32 (f (x / two32) (y / two32)))) (Fin (to_uint32 (f (x mod two32) (y mod two32))))
  = enc64 k (wrap k (f x y)).
Proof.
  intros tr k x y H. apply new64_words; [assumption | apply to_int32_range | |].
  - rewrite to_int32_mod, two32_eq, <- !Z.shiftr_div_pow2, (bitop_shiftr f fb) by (assumption || lia). reflexivity.
  - transitivity (f x y mod 2 ^ 32 mod 2 ^ 32); [rewrite (bitop_mod f fb f_spec fb_00 x y 32) by lia; reflexivity | apply Z.mod_mod; discriminate].
Qed.
End Bitwise64.

Lemma and64_correct : forall V k x y, is64 k = true -> in_range k x -> in_range k y ->
  bin64 V k And (enc64 k x) (enc64 k y) = Ret (enc64 k (Z.land x y)).
Proof.
  intros V k x y H Rx Ry. cbn [bin64 enc64 o_hi o_lo]. unfold N64. js32.
  rewrite ushr32_0, !and32_eq, to_uint32_of_int32, (bitop64 Z.land andb Z.land_spec eq_refl) by assumption.
  rewrite wrap_id by (apply land_in_range; assumption). reflexivity.
Qed.
Lemma or64_correct : forall V k x y, is64 k = true -> in_range k x -> in_range k y ->
  bin64 V k Or (enc64 k x) (enc64 k y) = Ret (enc64 k (Z.lor x y)).
Proof.
  intros V k x y H Rx Ry. cbn [bin64 enc64 o_hi o_lo]. unfold N64. js32.
  rewrite ushr32_0, !or32_eq, to_uint32_of_int32, (bitop64 Z.lor orb Z.lor_spec eq_refl) by assumption.
  rewrite wrap_id by (apply lor_in_range; assumption). reflexivity.
Qed.
Lemma xor64_correct : forall V k x y, is64 k = true ->
  bin64 V k Xor (enc64 k x) (enc64 k y) = Ret (enc64 k (wrap k (Z.lxor x y))).
Proof.
  intros V k x y H. cbn [bin64 enc64 o_hi o_lo]. unfold N64. js32.
  rewrite ushr32_0, !xor32_eq, to_uint32_of_int32, (bitop64 Z.lxor xorb Z.lxor_spec eq_refl) by assumption. reflexivity.
Qed.

Lemma lnot_div32 : forall z, Z.lnot z / two32 = Z.lnot (z / two32).
Proof. intro z. unfold Z.lnot, two32. lia. Qed.
Lemma lnot_in_range_s : forall k z, signed k = true -> in_range k z -> in_range k (Z.lnot z).
Proof. intros k z S R. unfold in_range, kmin, kmax, Z.lnot in *. rewrite S in *. lia. Qed.

Lemma not64_correct : forall V k x, is64 k = true ->
  un64 V k Not (enc64 k x) = Ret (enc64 k (wrap k (Z.lnot x))).
Proof.
  intros V k x H. cbn [un64 enc64 o_hi o_lo]. unfold N64. js32. rewrite ushr32_0, !not32_eq, to_uint32_of_int32. f_equal.
  apply new64_words; [assumption | apply to_int32_range | |].
  - rewrite to_int32_mod, lnot_div32. reflexivity.
  - unfold to_uint32. rewrite two32_eq. apply lnot_mod_congr, Z.mod_mod, Z.pow_nonzero; lia.
Qed.

Lemma andnot64_correct : forall V k x y, is64 k = true ->
  bin64 V k AndNot (enc64 k x) (enc64 k y) = Ret (enc64 k (wrap k (Z.land x (Z.lnot y)))).
Proof.
  intros V k x y H. cbn [bin64 enc64 o_hi o_lo]. unfold N64. js32.
  rewrite ushr32_0, !andnot32_eq, to_uint32_of_int32,
    (bitop64 (fun a b => Z.land a (Z.lnot b)) (fun a b => a && negb b) andnot_spec eq_refl) by assumption.
  reflexivity.
Qed.

Lemma conv_on_correct : forall k1 k2 x, is64 k1 = true -> is64 k2 = false -> in_range k1 x ->
  conv_on k1 k2 (enc64 k1 x) = Ret (Fin (go_conv k2 x)).
Proof.
  intros k1 k2 x H1 H2 R. unfold conv_on, go_conv. cbn [enc64 o_hi o_lo].
  (* fixNumber sees only the residue modulo 2^32 *)
  assert (F : forall z, z mod two32 = x mod two32 -> Ret (fixnum k2 (Fin z)) = Ret (Fin (wrap k2 x))).
  { intros z E. rewrite fixnum_fin by assumption. do 2 f_equal. apply wrap_mod32; assumption. }
  destruct (signed k2 && signed k1) eqn:S; [| apply F, Z.mod_mod; discriminate].
  (* low + (high >> 31) * 2^32: the sign word is 0 or -1 *)
  apply andb_prop in S. destruct S as [_ S1].
  assert (Hh : - two31 <= x / two32 < two31).
  { destruct k1; try discriminate H1; try discriminate S1. unfold in_range, kmin, kmax in R. cbn in R. unfold two31, two32. lia. }
  pose proof (Z.mod_pos_bound x two32 eq_refl) as Hl.
  js32. unfold shr32. rewrite cnt_small, to_int32_id, shiftr_sat by (assumption || lia).
  (* the product is -2^32 or 0, exactly; either way the sum is low modulo 2^32 *)
  destruct (x / two32 <? 0);
    [change (js_mul (Fin (-1)) (Fin 4294967296)) with (Fin (-1 * two32)) | change (js_mul (Fin 0) (Fin 4294967296)) with (Fin (0 * two32))];
    cbn [js_add]; rewrite chk_ok by (clear - Hl; unfold two32, two53 in *; lia); apply F; rewrite Z_mod_plus_full; apply Z.mod_mod; discriminate.
Qed.
