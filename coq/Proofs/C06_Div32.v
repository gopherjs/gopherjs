(* C06 — / and % templates of the kinds of at most 32 bits *)
From Coq Require Import ZArith Znumtheory Bool List Lia ZifyBool.
From Verif Require Import Base.Word Base.C06_JsNum Model.C06_Prelude64 Model.C06_Spec Gen.C06_Tables Model.C06_Templates Proofs.C06_Arith Proofs.C06_Fix.
Import ListNotations.
Local Open Scope Z_scope.

Ltac Zify.zify_post_hook ::= Z.to_euclidean_division_equations.

Lemma inf_eq : inf = PInf. Proof. reflexivity. Qed.
Lemma ninf_eq : ninf = NInf. Proof. reflexivity. Qed.

Lemma quo_core_fin : forall k x y, - two53 <= x <= two53 -> - two53 <= y <= two53 ->
  quo_core k (Fin x) (Fin y) = if y =? 0 then Throw DivideByZero else Ret (Fin (trunc32 k (Z.quot x y))).
Proof.
  intros k x y Bx By. unfold quo_core, js_div. cbn [jval jneg_sign]. rewrite inf_eq, ninf_eq.
  destruct (Z.eqb_spec y 0) as [Ey | Ey].
  - destruct (Z.eqb_spec x 0); [reflexivity |]. destruct (xorb (x <? 0) (y <? 0)); reflexivity.
  - destruct (Z.eqb_spec x 0) as [Ex | Ex].
    + subst x. rewrite Z.quot_0_l by assumption. unfold trunc32.
      destruct (xorb (0 <? 0) (y <? 0)); destruct (signed k); reflexivity.
    + assert (G : (Z.abs x <=? two53) && (Z.abs y <=? two53) = true) by (unfold two53 in *; lia).
      rewrite G. unfold trunc32.
      destruct (Z.eqb_spec (Z.rem x y) 0).
      * cbn [js_seq js_sne ext_of ext_eq jb_not option_map jb_and]. rewrite Z.eqb_refl. cbn [negb js_ite].
        destruct (signed k); reflexivity.
      * cbn [js_seq js_sne jb_not option_map jb_and]. rewrite !Z.eqb_refl. cbn [andb negb js_ite option_map].
        destruct (signed k); reflexivity.
Qed.

Lemma quot_abs_le : forall x y d, 0 < d <= Z.abs y -> Z.abs (Z.quot x y) <= Z.abs x / d.
Proof.
  intros x y d Hd. rewrite <- Z.quot_abs by lia. rewrite Z.quot_div_nonneg by lia. apply Z.div_le_compat_l; lia.
Qed.

(* the quotient of two values of a kind is in range, except min / -1 for signed kinds:
   a divisor other than 1 and -1 at least halves the magnitude *)
Lemma quot_in_range : forall k x y, in_range k x -> in_range k y -> y <> 0 ->
  ~ (signed k = true /\ x = kmin k /\ y = -1) -> in_range k (Z.quot x y).
Proof.
  intros k x y Rx Ry Hy Hn. unfold in_range, kmin, kmax in *. pose proof (bits_pos k) as Bp.
  destruct (signed k).
  - pose proof (pow2_pos (bits k - 1) ltac:(lia)) as P. set (m := 2 ^ (bits k - 1)) in *. clearbody m. clear Bp.
    destruct (Z.eq_dec y (-1)) as [-> | N1]; [| destruct (Z.eq_dec y 1) as [-> | P1]].
    + change (-1) with (- (1)). rewrite Z.quot_opp_r, Z.quot_1_r by discriminate.
      assert (x <> - m) by (intro; apply Hn; auto). lia.
    + rewrite Z.quot_1_r. lia.
    + pose proof (quot_abs_le x y 2 ltac:(lia)). lia.
  - set (m := 2 ^ bits k) in *. clearbody m. split; [apply Z.quot_pos; lia |].
    pose proof (quot_abs_le x y 1 ltac:(lia)) as A. rewrite Z.div_1_r in A. lia.
Qed.

Definition quo_defect_free (V : variant) (k : kind) (x y : Z) : Prop :=
  v_quo V = true \/ small_signed k = false \/ ~ (x = kmin k /\ y = -1).

Lemma quo32_correct : forall V k x y, is64 k = false -> in_range k x -> in_range k y ->
  quo_defect_free V k x y ->
  bin32 V k Quo (Fin x) (Fin y) = embed (go_bin k Quo x y).
Proof.
  intros V k x y H Rx Ry D. cbn [bin32 go_bin].
  rewrite quo_core_fin by (apply (in_range_53 k); assumption).
  destruct (Z.eqb_spec y 0) as [Ey | Ey]; [destruct (v_quo V && small_signed k); reflexivity |].
  cbn [embed]. destruct (v_quo V && small_signed k) eqn:F.
  - cbn [bind]. rewrite fixnum_fin, wrap_trunc32 by assumption. reflexivity.
  - do 2 f_equal. destruct (small_signed k) eqn:SS; [| destruct (signed k) eqn:S].
    + (* int8 / int16: in range unless (min, -1) *)
      assert (N : ~ (x = kmin k /\ y = -1)).
      { destruct D as [D | [D | D]]; [rewrite D in F; discriminate F | congruence | exact D]. }
      rewrite wrap_id, trunc32_id by (assumption || apply quot_in_range; tauto). reflexivity.
    + (* int32 / int: ToInt32 is the wrap *)
      destruct k; try discriminate H; try discriminate S; try discriminate SS; reflexivity.
    + (* unsigned: the quotient is in range *)
      rewrite wrap_id, trunc32_id by (assumption || apply quot_in_range; try assumption; intros [A _]; congruence). reflexivity.
Qed.

(* the defect: with the original translation, int8/int16 MinInt / -1 leaves the range *)
Lemma quo_int8_refuted : forall V, v_quo V = false ->
  bin32 V Int8 Quo (Fin (-128)) (Fin (-1)) = Ret (Fin 128) /\ go_bin Int8 Quo (-128) (-1) = GVal (-128).
Proof. intros V E. cbn [bin32]. rewrite E. split; reflexivity. Qed.
Lemma quo_int16_refuted : forall V, v_quo V = false ->
  bin32 V Int16 Quo (Fin (-32768)) (Fin (-1)) = Ret (Fin 32768) /\ go_bin Int16 Quo (-32768) (-1) = GVal (-32768).
Proof. intros V E. cbn [bin32]. rewrite E. split; reflexivity. Qed.

Lemma rem_in_range : forall k x y, in_range k x -> in_range k y -> y <> 0 -> in_range k (Z.rem x y).
Proof.
  intros k x y Rx Ry Hy. unfold in_range, kmin, kmax in *.
  pose proof (Z.rem_bound_abs x y Hy). pose proof (Z.rem_sign_nz x y).
  destruct (signed k).
  - set (m := 2 ^ (bits k - 1)) in *. clearbody m.
    destruct (Z.eq_dec (Z.rem x y) 0) as [E | E]; [rewrite E; lia |].
    assert (Z.sgn (Z.rem x y) = Z.sgn x) by (apply Z.rem_sign_nz; assumption). lia.
  - set (m := 2 ^ bits k) in *. clearbody m.
    assert (0 <= Z.rem x y) by (apply Z.rem_nonneg; lia). lia.
Qed.

Lemma rem_core_fin : forall x y,
  rem_core (Fin x) (Fin y) =
  if y =? 0 then Throw DivideByZero
  else Ret (if Z.rem x y =? 0 then (if x <? 0 then NZ else Fin 0) else Fin (Z.rem x y)).
Proof.
  intros x y. unfold rem_core, js_rem. cbn [jval jneg_sign].
  destruct (Z.eqb_spec y 0); [reflexivity |].
  destruct (Z.eqb_spec (Z.rem x y) 0).
  - destruct (x <? 0); reflexivity.
  - cbn [js_seq ext_of ext_eq]. rewrite Z.eqb_refl. reflexivity.
Qed.

Definition rem_defect_free (V : variant) (x y : Z) : Prop := v_rem V = true \/ ~ (x < 0 /\ Z.rem x y = 0).

Lemma rem32_correct : forall V k x y, is64 k = false -> in_range k x -> in_range k y ->
  rem_defect_free V x y ->
  bin32 V k Rem (Fin x) (Fin y) = embed (go_bin k Rem x y).
Proof.
  intros V k x y H Rx Ry D. cbn [bin32 go_bin]. rewrite rem_core_fin.
  destruct (Z.eqb_spec y 0) as [Ey | Ey]; [destruct (v_rem V); reflexivity |].
  cbn [embed]. destruct (v_rem V) eqn:F.
  - cbn [bind]. f_equal.
    destruct (Z.eqb_spec (Z.rem x y) 0) as [E | E].
    + rewrite E. destruct (x <? 0); [apply fixnum_nz; assumption |].
      rewrite fixnum_fin by assumption. f_equal. apply wrap_id, in_range_0.
    + rewrite fixnum_fin by assumption. f_equal. apply wrap_id. apply rem_in_range; assumption.
  - do 2 f_equal. destruct (Z.eqb_spec (Z.rem x y) 0) as [E | E]; [| reflexivity].
    rewrite E. destruct (Z.ltb_spec x 0); [| reflexivity].
    exfalso. destruct D as [D | D]; [rewrite F in D; discriminate D | apply D; split; assumption].
Qed.

(* numerically the remainder is always right: the only deviation is the sign of a zero *)
Definition res_value (r : res jsnum) : option (gres Z) :=
  match r with
  | Ret a => match jval a with Some v => Some (GVal v) | None => None end
  | Throw DivideByZero => Some GPanicDivide
  | _ => None
  end.

Lemma rem32_value_correct : forall V k x y, is64 k = false -> in_range k x -> in_range k y ->
  res_value (bin32 V k Rem (Fin x) (Fin y)) = Some (go_bin k Rem x y).
Proof.
  intros V k x y H Rx Ry. destruct (v_rem V) eqn:F.
  - rewrite rem32_correct by (try assumption; left; assumption). cbn [go_bin]. destruct (y =? 0); reflexivity.
  - cbn [bin32 go_bin]. rewrite F, rem_core_fin. destruct (Z.eqb_spec y 0); [reflexivity |].
    cbn [res_value]. destruct (Z.eqb_spec (Z.rem x y) 0) as [E | E]; [rewrite E; destruct (x <? 0); reflexivity | reflexivity].
Qed.

Lemma rem_refuted : forall V, v_rem V = false ->
  bin32 V Int32 Rem (Fin (-4)) (Fin 2) = Ret NZ /\ go_bin Int32 Rem (-4) 2 = GVal 0.
Proof. intros V E. cbn [bin32]. rewrite E. split; reflexivity. Qed.
