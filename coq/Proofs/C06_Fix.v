(* C06 — the kinds of at most 32 bits (Model/C06_Templates.v, any repair variant V) against the Go specification
   (Model/C06_Spec.v): fixNumber through the regenerated suffix table, and the + - * templates. *)
From Coq Require Import ZArith Znumtheory Bool List Lia ZifyBool.
From Verif Require Import Base.C06_JsNum Model.C06_Prelude64 Model.C06_Spec Gen.C06_Tables Model.C06_Templates Proofs.C06_Arith.
Import ListNotations.
Local Open Scope Z_scope.

Definition embed (g : gres Z) : res jsnum :=
  match g with GVal v => Ret (Fin v) | GPanicDivide => Throw DivideByZero end.

Lemma chk_ok : forall z, - two53 <= z <= two53 -> chk z = Fin z.
Proof. intros z H; unfold chk; destruct (Z.leb_spec (Z.abs z) two53); [reflexivity | lia]. Qed.

(* the 32-bit JavaScript operators on integer arguments *)
Ltac js32 := cbn [js_shl js_shr js_ushr js_and js_or js_xor js_not js_imul lift1 lift2 trunc_of].

(* fixNumber, through the regenerated table: brings any integer into the kind's range.
   The four suffix shapes are v << n >> n, v << n >>> n, v >> 0 and v >>> 0. *)
Lemma fixnum_fin : forall k z, is64 k = false -> fixnum k (Fin z) = Fin (wrap k z).
Proof.
  intros k z H; destruct k; try discriminate H; unfold fixnum; cbn [lookup_suffix fix_suffix_table kind_eqb apply_suffix];
    js32; apply f_equal; unfold wrap; cbn [signed bits];
    lazymatch goal with
    | |- shr32 (shl32 _ ?n) ?n = _ => apply (shl_shr_wraps n); lia
    | |- ushr32 (shl32 _ ?n) ?n = _ => apply (shl_ushr_wrapu n); lia
    | |- shr32 _ 0 = _ => rewrite shr32_0; reflexivity
    | |- ushr32 _ 0 = _ => rewrite ushr32_0; reflexivity
    end.
Qed.

Lemma fixnum_nz : forall k, is64 k = false -> fixnum k NZ = Fin 0.
Proof. intros k H; destruct k; try discriminate H; reflexivity. Qed.

Lemma in_range_53 : forall k z, is64 k = false -> in_range k z -> - two53 <= z <= two53.
Proof. intros k z H R. pose proof (in_range_32 k z H R). unfold two31, two32, two53 in *; lia. Qed.

Lemma add32_correct : forall V k x y, is64 k = false -> in_range k x -> in_range k y ->
  bin32 V k Add (Fin x) (Fin y) = Ret (Fin (wrap k (x + y))).
Proof.
  intros V k x y H Rx Ry. pose proof (in_range_32 k x H Rx). pose proof (in_range_32 k y H Ry).
  cbn [bin32 js_add]. rewrite chk_ok, fixnum_fin by (assumption || (unfold two31, two32, two53 in *; lia)). reflexivity.
Qed.

Lemma js_sub_fin : forall x y, - two53 <= x - y <= two53 -> js_sub (Fin x) (Fin y) = Fin (x - y).
Proof.
  intros x y H. unfold js_sub. destruct y as [| p | p]; cbn [js_neg js_add].
  - f_equal; lia.
  - rewrite chk_ok by lia. f_equal.
  - rewrite chk_ok by lia. f_equal.
Qed.

Lemma sub32_correct : forall V k x y, is64 k = false -> in_range k x -> in_range k y ->
  bin32 V k Sub (Fin x) (Fin y) = Ret (Fin (wrap k (x - y))).
Proof.
  intros V k x y H Rx Ry. pose proof (in_range_32 k x H Rx). pose proof (in_range_32 k y H Ry).
  cbn [bin32]. rewrite js_sub_fin, fixnum_fin by (assumption || (unfold two31, two32, two53 in *; lia)). reflexivity.
Qed.

(* x * y: the suffix erases the sign of a zero product *)
Lemma fixnum_js_mul : forall k x y, is64 k = false -> - two53 <= x * y <= two53 ->
  fixnum k (js_mul (Fin x) (Fin y)) = Fin (wrap k (x * y)).
Proof.
  intros k x y H B. unfold js_mul. cbn [jval jneg_sign].
  destruct (Z.eqb_spec (x * y) 0) as [E | E].
  - rewrite E, (wrap_id k 0 (in_range_0 k)). destruct (xorb (x <? 0) (y <? 0)); [apply fixnum_nz; assumption |].
    rewrite fixnum_fin, (wrap_id k 0 (in_range_0 k)) by assumption. reflexivity.
  - rewrite chk_ok by assumption. apply fixnum_fin; assumption.
Qed.

Lemma imul32_to_int32 : forall x y, imul32 x y = to_int32 (x * y).
Proof.
  intros x y. unfold imul32. apply to_int32_congr.
  transitivity (((to_int32 x mod two32) * (to_int32 y mod two32)) mod two32); [apply Zmult_mod |].
  transitivity (((x mod two32) * (y mod two32)) mod two32); [| symmetry; apply Zmult_mod].
  f_equal. f_equal; apply to_int32_mod.
Qed.

Lemma in_range_16 : forall k z, bits k <= 16 -> in_range k z -> -65536 <= z <= 65535.
Proof. intros k z B R. destruct k; unfold in_range, kmin, kmax in R; cbn in R, B; lia. Qed.

Lemma mul_small_bound : forall k x y, bits k <= 16 -> in_range k x -> in_range k y -> - two53 <= x * y <= two53.
Proof.
  intros k x y B Rx Ry. pose proof (in_range_16 k x B Rx). pose proof (in_range_16 k y B Ry).
  assert (A : Z.abs (x * y) <= 65536 * 65536) by (rewrite Z.abs_mul; apply Z.mul_le_mono_nonneg; lia).
  unfold two53. clear - A. lia.
Qed.

(* int8..uint16: the plain product, exact; the 32-bit kinds: Math.imul, with >>> 0 for the unsigned ones *)
Lemma mul32_correct : forall V k x y, is64 k = false -> in_range k x -> in_range k y ->
  bin32 V k Mul (Fin x) (Fin y) = Ret (Fin (wrap k (x * y))).
Proof.
  intros V k x y H Rx Ry. destruct (Z.leb_spec (bits k) 16) as [B | B].
  - transitivity (Ret (fixnum k (js_mul (Fin x) (Fin y)))); [destruct k; try discriminate H; try (exfalso; cbn in B; lia); reflexivity |].
    rewrite fixnum_js_mul by (assumption || apply (mul_small_bound k); assumption). reflexivity.
  - destruct k; try discriminate H; try (exfalso; cbn in B; lia);
      cbn [bin32]; js32; rewrite ?ushr32_0, imul32_to_int32, ?to_uint32_of_int32; generalize (x * y); reflexivity.
Qed.
