(* C06 — 64-bit kinds: constructor normalisation, + - * unary -, comparisons, conversions to a 64-bit kind.
   Every operator of the 64-bit kinds ends in a constructor call; [new64_enc] is the form in which the
   other files use its normalisation: halves that are right modulo 2^64 give the wrapped value. *)
From Coq Require Import ZArith Znumtheory Bool List Lia ZifyBool.
From Verif Require Import Base.Word Base.C06_JsNum Model.C06_Prelude64 Model.C06_Spec Gen.C06_Tables Model.C06_Templates
  Proofs.C06_Arith Proofs.C06_Fix.
Import ListNotations.
Local Open Scope Z_scope.

Definition k64 (sg : bool) : kind := if sg then Int64 else Uint64.

Lemma new64_jval : forall tr sg a b h l, jval a = Some h -> jval b = Some l ->
  new64v tr sg a b = new64v tr sg (Fin h) (Fin l).
Proof.
  intros tr sg a b h l Ha Hb. unfold new64v. rewrite Ha. cbn [jval].
  destruct b; try discriminate Hb; cbn [jval] in Hb; injection Hb as <-; reflexivity.
Qed.

Lemma in_range_64 : forall k x, in_range k x -> - 9223372036854775808 <= x <= 18446744073709551615.
Proof. intros k x R. destruct k; unfold in_range, kmin, kmax in R; cbn in R; lia. Qed.

Lemma k64_signed : forall k, is64 k = true -> k64 (signed k) = k.
Proof. intros k H; destruct k; try discriminate H; reflexivity. Qed.

Lemma is64_k64 : forall sg, is64 (k64 sg) = true.
Proof. destruct sg; reflexivity. Qed.

Lemma bits64 : forall k, is64 k = true -> bits k = 64.
Proof. intros k H; destruct k; try discriminate H; reflexivity. Qed.

Lemma wrap_congr64 : forall k a b, is64 k = true -> a mod 2 ^ 64 = b mod 2 ^ 64 -> wrap k a = wrap k b.
Proof. intros k a b H E. apply wrap_congr. rewrite bits64 by assumption. exact E. Qed.

Lemma hi_mod64 : forall h h' l, h' mod two32 = h mod two32 -> (h' * two32 + l) mod 2 ^ 64 = (h * two32 + l) mod 2 ^ 64.
Proof.
  intros h h' l E. rewrite (Z.add_mod (h' * two32)), (Z.add_mod (h * two32)) by (apply Z.pow_nonzero; lia).
  change (2 ^ 64) with (two32 * two32). rewrite !Z.mul_mod_distr_r, E by discriminate. reflexivity.
Qed.

Lemma enc64_val : forall k h l, 0 <= l < two32 -> enc64 k (h * two32 + l) = O64 (signed k) h l.
Proof. intros k h l Hl. unfold enc64. f_equal; unfold two32 in *; lia. Qed.

(* the constructor stores exactly the 64-bit wrap of high * 2^32 + low: the stored words denote a value of the kind
   that is congruent to it modulo 2^64 *)
Lemma new64_norm : forall tr sg h l, - two53 <= h + l / two32 <= two53 ->
  new64v tr sg (Fin h) (Fin l) = enc64 (k64 sg) (wrap (k64 sg) (h * two32 + l)).
Proof.
  intros tr sg h l B. unfold new64v. cbn [jval]. rewrite chk_ok by assumption.
  set (s := h + l / two32). set (hi := if sg then to_int32 s else to_uint32 s).
  pose proof (to_uint32_range l) as Rl.
  assert (R : in_range (k64 sg) (hi * two32 + to_uint32 l)).
  { unfold hi. destruct sg; [pose proof (to_int32_range s) | pose proof (to_uint32_range s)];
      unfold in_range, kmin, kmax; cbn; unfold two31, two32 in *; lia. }
  assert (E : (hi * two32 + to_uint32 l) mod 2 ^ 64 = (h * two32 + l) mod 2 ^ 64).
  { rewrite (hi_mod64 s) by (unfold hi; destruct sg; [apply to_int32_mod | apply Z.mod_mod; discriminate]).
    f_equal. unfold s, to_uint32, two32. lia. }
  rewrite <- (wrap_congr64 _ _ _ (is64_k64 sg) E), (wrap_id _ _ R), enc64_val by assumption.
  destruct sg; reflexivity.
Qed.

Lemma new64_enc : forall tr k h l v, is64 k = true -> - two53 <= h + l / two32 <= two53 ->
  (h * two32 + l) mod 2 ^ 64 = v mod 2 ^ 64 ->
  new64v tr (signed k) (Fin h) (Fin l) = enc64 k (wrap k v).
Proof.
  intros tr k h l v H B E. rewrite new64_norm, k64_signed by assumption. f_equal. apply wrap_congr64; assumption.
Qed.

Lemma enc64_words : forall k x, exists h l, enc64 k x = O64 (signed k) h l /\ x = h * two32 + l /\ 0 <= l < two32.
Proof. intros k x. exists (x / two32), (x mod two32). unfold enc64, two32. repeat split; lia. Qed.

(* + and -: the operands as pairs of words, so that the arithmetic that is left is linear *)
Lemma add64_correct : forall V k x y, is64 k = true -> in_range k x -> in_range k y ->
  bin64 V k Add (enc64 k x) (enc64 k y) = Ret (enc64 k (wrap k (x + y))).
Proof.
  intros V k x y H Rx Ry. pose proof (in_range_64 k x Rx). pose proof (in_range_64 k y Ry).
  destruct (enc64_words k x) as (hx & lx & -> & Ex & Lx). destruct (enc64_words k y) as (hy & ly & -> & Ey & Ly).
  cbn [bin64 o_hi o_lo js_add]. unfold N64. rewrite !chk_ok by (unfold two32, two53 in *; lia).
  rewrite (new64_enc _ k _ _ (x + y)); [reflexivity | assumption | unfold two32, two53 in *; lia | f_equal; lia].
Qed.

Lemma sub64_correct : forall V k x y, is64 k = true -> in_range k x -> in_range k y ->
  bin64 V k Sub (enc64 k x) (enc64 k y) = Ret (enc64 k (wrap k (x - y))).
Proof.
  intros V k x y H Rx Ry. pose proof (in_range_64 k x Rx). pose proof (in_range_64 k y Ry).
  destruct (enc64_words k x) as (hx & lx & -> & Ex & Lx). destruct (enc64_words k y) as (hy & ly & -> & Ey & Ly).
  cbn [bin64 o_hi o_lo]. unfold N64. rewrite !js_sub_fin by (unfold two32, two53 in *; lia).
  rewrite (new64_enc _ k _ _ (x - y)); [reflexivity | assumption | unfold two32, two53 in *; lia | f_equal; lia].
Qed.

Lemma jval_js_neg : forall z, jval (js_neg (Fin z)) = Some (- z).
Proof. intro z; destruct z; reflexivity. Qed.

Lemma neg64_correct : forall V k x, is64 k = true -> in_range k x ->
  un64 V k Neg (enc64 k x) = Ret (enc64 k (wrap k (- x))).
Proof.
  intros V k x H Rx. pose proof (in_range_64 k x Rx). destruct (enc64_words k x) as (hx & lx & -> & Ex & Lx).
  cbn [un64 o_hi o_lo]. unfold N64.
  rewrite (new64_jval _ _ _ _ _ _ (jval_js_neg _) (jval_js_neg _)).
  rewrite (new64_enc _ k _ _ (- x)); [reflexivity | assumption | unfold two32, two53 in *; lia | f_equal; lia].
Qed.

(* conversions to a 64-bit kind: `new $Int64(0, x)` is right for every integer x the constructor can take *)
Lemma conv_no_any : forall V k2 x, is64 k2 = true -> - two53 <= x / two32 <= two53 ->
  conv_no V k2 (Fin x) = Ret (enc64 k2 (go_conv k2 x)).
Proof.
  intros V k2 x H B. unfold conv_no, N64, go_conv.
  rewrite (new64_enc _ k2 _ _ x); [reflexivity | assumption | rewrite Z.add_0_l; exact B | reflexivity].
Qed.

(* comparisons: lexicographic on (high, low); gt2 and ge2 are the comparisons $div64 uses on its word pairs *)
Lemma eq2_spec : forall ah al bh bl, 0 <= al < two32 -> 0 <= bl < two32 ->
  (ah =? bh) && (al =? bl) = (ah * two32 + al =? bh * two32 + bl).
Proof. intros ah al bh bl Ha Hb. unfold two32 in *. lia. Qed.
Lemma gt2_spec : forall ah al bh bl, 0 <= al < two32 -> 0 <= bl < two32 ->
  gt2 ah al bh bl = (bh * two32 + bl <? ah * two32 + al).
Proof. intros ah al bh bl Ha Hb. unfold gt2, two32 in *. lia. Qed.
Lemma ge2_spec : forall ah al bh bl, 0 <= al < two32 -> 0 <= bl < two32 ->
  ge2 ah al bh bl = (bh * two32 + bl <=? ah * two32 + al).
Proof. intros ah al bh bl Ha Hb. unfold ge2, two32 in *. lia. Qed.

Lemma jb_and_some : forall a b, jb_and (Some a) (Some b) = Some (a && b).
Proof. destruct a; reflexivity. Qed.
Lemma jb_or_some : forall a b, jb_or (Some a) (Some b) = Some (a || b).
Proof. destruct a; reflexivity. Qed.

Lemma cmp64_correct : forall c k x y, cmp64 c (enc64 k x) (enc64 k y) = Ret (Some (go_cmp c x y)).
Proof.
  intros c k x y.
  destruct (enc64_words k x) as (hx & lx & -> & -> & Lx). destruct (enc64_words k y) as (hy & ly & -> & -> & Ly).
  pose proof (eq2_spec hx lx hy ly Lx Ly) as E.
  destruct c; unfold cmp64, eq64; cbn [o_hi o_lo js_seq js_lt js_le js_gt js_ge ext_of ext_eq ext_lt go_cmp];
    rewrite ?jb_and_some, ?jb_or_some; cbn [jb_not option_map]; do 2 f_equal.
  - (* Eql *) exact E.
  - (* Neq *) f_equal. exact E.
  - (* Lss: y > x *) rewrite (Z.eqb_sym hx hy). apply (gt2_spec hy ly hx lx); assumption.
  - (* Leq: y >= x *) rewrite (Z.eqb_sym hx hy), <- Z.leb_antisym. apply (ge2_spec hy ly hx lx); assumption.
  - (* Gtr *) apply (gt2_spec hx lx hy ly); assumption.
  - (* Geq *) rewrite <- Z.leb_antisym. apply (ge2_spec hx lx hy ly); assumption.
Qed.

Lemma lo16_eq : forall v, lo16 v = v mod 65536.
Proof.
  intro v. unfold lo16, and32. change (to_int32 65535) with (Z.ones 16). rewrite Z.land_ones by lia.
  change 65536 with (2 ^ 16).
  apply (mod_pow_le _ _ 16 32); [lia | apply to_int32_mod].
Qed.
Lemma hi16_eq : forall v, hi16 v = (v mod two32) / 65536.
Proof. intro v. unfold hi16, ushr32. rewrite cnt_small by lia. rewrite Z.shiftr_div_pow2 by lia. reflexivity. Qed.

Lemma join16 : forall a b, 0 <= a < 65536 -> 0 <= b < 65536 -> to_uint32 (or32 (shl32 a 16) b) = a * 65536 + b.
Proof. intros a b Ha Hb. unfold to_uint32. rewrite (or_words a b 16), Z.mod_small by (cbn; lia). reflexivity. Qed.

Lemma dig_mul_bound : forall a b, 0 <= a < 65536 -> 0 <= b < 65536 -> 0 <= a * b <= 4294836225.   (* 65535^2 *)
Proof. intros a b Ha Hb. nia. Qed.

(* the arithmetic core, on digits in [0, 2^16): [hi v] is v >>> 16, [v mod 65536] is v & 0xFFFF.  Every partial sum is
   a carry below 2^17 plus one digit product, hence below 2^32 and untouched by ToUint32; the rest is the identity
   of schoolbook multiplication, linear in the digit products *)
Lemma schoolbook : forall a0 a1 a2 a3 b0 b1 b2 b3,
  0 <= a0 < 65536 -> 0 <= a1 < 65536 -> 0 <= a2 < 65536 ->
  0 <= b0 < 65536 -> 0 <= b1 < 65536 -> 0 <= b2 < 65536 ->
  let hi := fun v => (v mod two32) / 65536 in
  let p0 := a0 * b0 in
  let s1 := hi p0 + a1 * b0 in
  let s2 := s1 mod 65536 + a0 * b1 in
  let s3 := hi s1 + hi s2 + a2 * b0 in
  let s4 := s3 mod 65536 + a1 * b1 in
  let s5 := s4 mod 65536 + a0 * b2 in
  let s6 := hi s3 + hi s4 + hi s5 + (a3 * b0 + a2 * b1 + a1 * b2 + a0 * b3) in
  (((s6 mod 65536) * 65536 + s5 mod 65536) * two32 + ((s2 mod 65536) * 65536 + p0 mod 65536)) mod 2 ^ 64 =
  (((a3 * 65536 + a2) * two32 + (a1 * 65536 + a0)) * ((b3 * 65536 + b2) * two32 + (b1 * 65536 + b0))) mod 2 ^ 64.
Proof.
  intros a0 a1 a2 a3 b0 b1 b2 b3 A0 A1 A2 B0 B1 B2 hi p0 s1 s2 s3 s4 s5 s6.
  assert (Hhi : forall v, 0 <= v < two32 -> hi v = v / 65536) by (intros v Hv; unfold hi; rewrite Z.mod_small by exact Hv; reflexivity).
  pose proof (dig_mul_bound a0 b0 A0 B0) as M00. pose proof (dig_mul_bound a1 b0 A1 B0) as M10.
  pose proof (dig_mul_bound a0 b1 A0 B1) as M01. pose proof (dig_mul_bound a2 b0 A2 B0) as M20.
  pose proof (dig_mul_bound a1 b1 A1 B1) as M11. pose proof (dig_mul_bound a0 b2 A0 B2) as M02.
  assert (S0 : 0 <= p0 < two32) by (unfold p0, two32; clear - M00; lia).
  assert (S1 : 0 <= s1 < two32) by (unfold s1; rewrite Hhi by exact S0; clearbody p0; clear - S0 M10; unfold two32 in *; lia).
  assert (S2 : 0 <= s2 < two32) by (unfold s2; clearbody s1; clear - M01; unfold two32; lia).
  assert (S3 : 0 <= s3 < two32) by (unfold s3; rewrite !Hhi by assumption; clearbody s1 s2; clear - S1 S2 M20; unfold two32 in *; lia).
  assert (S4 : 0 <= s4 < two32) by (unfold s4; clearbody s3; clear - M11; unfold two32; lia).
  assert (S5 : 0 <= s5 < two32) by (unfold s5; clearbody s4; clear - M02; unfold two32; lia).
  (* [t]: the part of the product from bit 64 up, which the four stored digits drop *)
  set (t := s6 / 65536 + a3 * b1 + a2 * b2 + a1 * b3 + 65536 * (a3 * b2 + a2 * b3) + two32 * (a3 * b3)).
  rewrite <- (Z_mod_plus_full _ t (2 ^ 64)). f_equal.
  unfold t, s6. rewrite !Hhi by assumption. unfold s5, s4, s3. rewrite !Hhi by assumption. unfold s2, s1. rewrite !Hhi by assumption.
  clear. unfold p0, two32. change (2 ^ 64) with 18446744073709551616. lia.
Qed.

Lemma join_bound : forall a b c d, 0 <= a < 65536 -> 0 <= b < 65536 -> 0 <= c < 65536 -> 0 <= d < 65536 ->
  - two53 <= (a * 65536 + b) + (c * 65536 + d) / two32 <= two53.
Proof. intros. unfold two32, two53. lia. Qed.

(* the two 16-bit digits of the word a number denotes *)
Lemma digits16 : forall v, exists a b,
  v mod two32 = a * 65536 + b /\ 0 <= a < 65536 /\ 0 <= b < 65536 /\ hi16 v = a /\ lo16 v = b.
Proof.
  intro v. exists ((v mod two32) / 65536), (v mod 65536). rewrite hi16_eq, lo16_eq.
  replace (v mod 65536) with ((v mod two32) mod 65536) by (rewrite two32_eq; apply (mod_mod_pow v 16 32); lia).
  pose proof (Z.mod_pos_bound v two32 eq_refl). unfold two32 in *. repeat split; lia.
Qed.

Lemma mul64_value : forall tr sg sg' xh xl yh yl,
  0 <= xl < two32 -> 0 <= yl < two32 ->
  mul64 tr (O64 sg xh xl) (O64 sg' yh yl) =
  enc64 (k64 sg) (wrap (k64 sg) (((xh mod two32) * two32 + xl) * ((yh mod two32) * two32 + yl))).
Proof.
  intros tr sg sg' xh xl yh yl Hxl Hyl. unfold mul64. cbv zeta.
  destruct (digits16 xh) as (a3 & a2 & EX & _ & A2 & -> & ->). destruct (digits16 xl) as (a1 & a0 & Ex & A1 & A0 & -> & ->).
  destruct (digits16 yh) as (b3 & b2 & EY & _ & B2 & -> & ->). destruct (digits16 yl) as (b1 & b0 & Ey & B1 & B0 & -> & ->).
  rewrite Z.mod_small in Ex, Ey by assumption. rewrite !lo16_eq, !hi16_eq.
  rewrite !join16 by (apply Z.mod_pos_bound; reflexivity).
  unfold new64. rewrite new64_norm by (apply join_bound; apply Z.mod_pos_bound; reflexivity).
  f_equal. apply wrap_congr64; [apply is64_k64 |].
  rewrite EX, Ex, EY, Ey. exact (schoolbook a0 a1 a2 a3 b0 b1 b2 b3 A0 A1 A2 B0 B1 B2).
Qed.

Lemma mul64_correct : forall tr k x y, is64 k = true ->
  mul64 tr (enc64 k x) (enc64 k y) = enc64 k (wrap k (x * y)).
Proof.
  intros tr k x y H.
  change (enc64 k x) with (O64 (signed k) (x / two32) (x mod two32)).
  change (enc64 k y) with (O64 (signed k) (y / two32) (y mod two32)).
  rewrite mul64_value by (apply Z.mod_pos_bound; reflexivity).
  rewrite k64_signed by assumption. f_equal. apply wrap_congr64; [assumption |]. change (2 ^ 64) with 18446744073709551616.
  rewrite Zmult_mod, (Zmult_mod x y). f_equal. f_equal; unfold two32; lia.
Qed.
