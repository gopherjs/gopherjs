(* C06 — float64 <-> int64/uint64: the emitted templates are the models ([tie_conv_fo], [tie_conv_of]); the statement for
   float64 -> int64/uint64 through the constructor (truncation toward zero, any in-range value; Props/C06.v proves it from
   [new64_real_trunc]); int64/uint64 -> float64 through $flatten64 is exact for |x| <= 2^53. *)
From Coq Require Import ZArith Znumtheory Bool List Lia ZifyBool.
From Verif Require Import Base.C06_JsNum Model.C06_Prelude64 Model.C06_Spec Gen.C06_Tables Model.C06_Templates Model.C06_P4_Conv
  Proofs.C06_Arith Proofs.C06_Fix Proofs.C06_Ops64.
Import ListNotations.
Local Open Scope Z_scope.

Lemma tie_conv_fo : forall k2, is64 k2 = true -> g_conv_fo k2 = Some (conv_fo current k2).
Proof. intros k2 H; destruct k2; try discriminate H; reflexivity. Qed.
Lemma tie_conv_of : forall k1, is64 k1 = true -> g_conv_of k1 = Some conv_of.
Proof. intros k1 H; destruct k1; try discriminate H; reflexivity. Qed.

(* with Math.trunc in the constructor a non-integer low behaves exactly like its truncation *)
Lemma new64_real_trunc : forall sg n d,
  new64v true sg (Fin 0) (jreal n d) = new64v true sg (Fin 0) (Fin (Z.quot n d)).
Proof. intros sg n d. unfold jreal. destruct (Z.rem n d =? 0); reflexivity. Qed.

Definition conv_fo_full_statement (V : variant) : Prop :=
  forall k2 n d, is64 k2 = true -> d <> 0 -> in_range k2 (Z.quot n d) ->
  conv_fo V k2 (jreal n d) = Ret (enc64 k2 (go_conv_real n d)).

Lemma conv_of_exact : forall k x, - two53 <= x <= two53 -> conv_of (enc64 k x) = Ret (Fin x).
Proof.
  intros k x B. destruct (enc64_words k x) as (h & l & -> & -> & Bl).
  assert (Bh : - two53 <= h * two32 <= two53) by (unfold two32, two53 in *; lia).
  unfold conv_of, flatten64. cbn [o_hi o_lo]. f_equal. unfold js_mul. cbn [jval jneg_sign].
  destruct (Z.eqb_spec (h * two32) 0) as [Z0 | NZ0].
  - assert (h = 0) by (unfold two32 in *; lia). subst h.
    change (xorb (0 <? 0) (two32 <? 0)) with false. cbv iota.
    unfold js_add. rewrite chk_ok by (unfold two53, two32 in *; lia). reflexivity.
  - rewrite chk_ok by assumption. unfold js_add. rewrite chk_ok by lia. reflexivity.
Qed.
