(* C06 — $div64: pairs of 32-bit words as numbers, the one-bit shifts of the divisor, one step of the quotient loop
   (its comparison is [ge2_spec] of Proofs/C06_Ops64.v), the invariants of the two loops, and the helper itself:
   quotient truncated toward zero and remainder with the sign of the dividend, signed and unsigned,
   MinInt64 / -1 wrapping to MinInt64. *)
From Coq Require Import ZArith Znumtheory Bool List Lia ZifyBool.
From Verif Require Import Base.Word Base.C06_JsNum Model.C06_Prelude64 Model.C06_Spec Gen.C06_Tables Model.C06_Templates
  Proofs.C06_Arith Proofs.C06_Fix Proofs.C06_Ops64 Proofs.C06_Bits64.
Import ListNotations.
Local Open Scope Z_scope.

Definition val2 (h l : Z) : Z := h * two32 + l.
Definition two64 : Z := 18446744073709551616.

(* y <<= 1 of the first loop *)
Lemma shl1_pair : forall yh yl, 0 <= yh < two31 -> 0 <= yl < two32 ->
  let yh' := to_uint32 (or32 (shl32 yh 1) (ushr32 yl 31)) in
  let yl' := to_uint32 (shl32 yl 1) in
  val2 yh' yl' = 2 * val2 yh yl /\ 0 <= yh' < two32 /\ 0 <= yl' < two32.
Proof.
  intros yh yl Hh Hl yh' yl'. destruct (shl_words yh yl 1 ltac:(lia) Hl) as [E1 E2]. change (32 - 1) with 31 in E2.
  unfold yh', yl'. rewrite E1. unfold to_uint32. rewrite E2. unfold val2, two31, two32 in *. lia.
Qed.

(* y >>>= 1 of the second loop *)
Lemma shr1_pair : forall yh yl, 0 <= yh < two32 -> 0 <= yl < two32 ->
  let yh' := ushr32 yh 1 in
  let yl' := to_uint32 (or32 (ushr32 yl 1) (shl32 yh 31)) in
  val2 yh' yl' = val2 yh yl / 2 /\ 0 <= yh' < two32 /\ 0 <= yl' < two32.
Proof.
  intros yh yl Hh Hl yh' yl'.
  assert (E1 : yh' = yh / 2).
  { unfold yh'. rewrite ushr32_div by lia. rewrite Z.mod_small by assumption. reflexivity. }
  assert (E2 : yl' = (yh mod 2 ^ 1) * 2 ^ (32 - 1) + yl / 2 ^ 1) by (apply shr_lo_value; (lia || assumption)).
  change (2 ^ 1) with 2 in E2. change (2 ^ (32 - 1)) with 2147483648 in E2.
  rewrite E1, E2. unfold val2, two32 in *. lia.
Qed.

(* negation of a pair (absolute value of a negative operand) *)
Lemma negpair_spec : forall h l, 0 <= l < two32 ->
  val2 (fst (negpair h l)) (snd (negpair h l)) = - val2 h l /\ 0 <= snd (negpair h l) < two32.
Proof.
  intros h l Hl. unfold negpair. destruct (Z.eqb_spec l 0); cbn [fst snd]; unfold val2, two32 in *; lia.
Qed.

(* the quotient register: (high, low) represents Q modulo 2^64; high is a signed 32-bit word *)
Definition qrep (h l Q : Z) : Prop :=
  (val2 h l) mod two64 = Q mod two64 /\ 0 <= l < two32 /\ - two31 <= h < two31.

(* high = high << 1 | low >>> 31; low = (low << 1) >>> 0 doubles the register; the new low word is even *)
Lemma qrep_double : forall h l Q, qrep h l Q ->
  let h' := or32 (shl32 h 1) (ushr32 l 31) in
  let l' := to_uint32 (shl32 l 1) in
  qrep h' l' (2 * Q) /\ l' mod 2 = 0.
Proof.
  intros h l Q [E [Hl _]] h' l'. destruct (shl_words h l 1 ltac:(lia) Hl) as [E1 E2]. change (32 - 1) with 31 in E2. fold h' in E2. fold l' in E1.
  split; [split; [| split] |].
  - (* val2 h' l' = 2 * val2 h l modulo 2^64, and val2 h l = Q modulo 2^64 *)
    unfold val2 at 1. change two64 with (2 ^ 64). rewrite (hi_mod64 _ _ _ E2). change (2 ^ 64) with two64.
    rewrite <- Z.mul_mod_idemp_r, <- E, Z.mul_mod_idemp_r by discriminate.
    f_equal. rewrite E1. clear - Hl. unfold val2, two31, two32 in *. lia.
  - rewrite E1. apply Z.mod_pos_bound. reflexivity.
  - unfold h'. rewrite or32_eq. apply to_int32_range.
  - rewrite E1. clear. unfold two32. lia.
Qed.

Lemma qrep_succ : forall h l Q, qrep h l Q -> l mod 2 = 0 -> qrep h (l + 1) (Q + 1).
Proof.
  intros h l Q [E [Hl Hh]] Ev. split; [| split; [clear - Hl Ev; unfold two32 in *; lia | exact Hh]].
  replace (val2 h (l + 1)) with (val2 h l + 1) by (unfold val2; ring).
  rewrite <- Z.add_mod_idemp_l, E, Z.add_mod_idemp_l by discriminate. reflexivity.
Qed.

(* the registers of the quotient loop: what is left of the dividend is X, the shifted divisor is Y, both as pairs of
   unsigned words, and the quotient register represents Q *)
Definition drep (s : dstate) (X Y Q : Z) : Prop :=
  val2 (d_xh s) (d_xl s) = X /\ 0 <= d_xl s < two32 /\
  val2 (d_yh s) (d_yl s) = Y /\ 0 <= d_yh s < two32 /\ 0 <= d_yl s < two32 /\
  qrep (d_high s) (d_low s) Q.

(* one round: b = [Y <= X] is taken off x as b * Y and shifted into q; y halves *)
Lemma div_step_rep : forall s X Y Q, drep s X Y Q ->
  let b := if Y <=? X then 1 else 0 in drep (div_step s) (X - b * Y) (Y / 2) (2 * Q + b).
Proof.
  intros s X Y Q (EX & Hxl & EY & Hyh & Hyl & Hq) b. subst X Y.
  set (X := val2 (d_xh s) (d_xl s)) in *. set (Y := val2 (d_yh s) (d_yl s)) in *.
  destruct (qrep_double _ _ _ Hq) as [Q2 Ev].
  destruct (shr1_pair _ _ Hyh Hyl) as [Yv [Yh Yl]].
  unfold drep, div_step, b. rewrite (ge2_spec _ _ _ _ Hxl Hyl : _ = (Y <=? X)).
  destruct (Z.leb_spec Y X) as [LE | GT].
  - (* x -= y with borrow; low + 1 cannot carry: low is even *)
    pose proof (qrep_succ _ _ _ Q2 Ev) as Q3.
    assert (NE : (to_uint32 (shl32 (d_low s) 1) + 1 =? two32) = false) by (apply Z.eqb_neq; destruct Q3 as [_ [B _]]; clear - B; lia).
    rewrite NE.
    destruct (Z.ltb_spec (d_xl s - d_yl s) 0) as [B | B]; cbn [d_xh d_xl d_yh d_yl d_high d_low];
      (split; [unfold X, Y, val2; clear - B; lia |]); (split; [clear - Hxl Hyl B; lia |]);
      exact (conj Yv (conj Yh (conj Yl Q3))).
  - cbn [d_xh d_xl d_yh d_yl d_high d_low]. rewrite Z.add_0_r.
    split; [unfold X, Y, val2; clear; lia |]. exact (conj Hxl (conj Yv (conj Yh (conj Yl Q2)))).
Qed.

(* first loop: while (yHigh < 2^31 && x > y) { y <<= 1; n++ }.
   Invariant: y = y0 * 2^(n - n0).  With fuel f such that y * 2^f >= 2^63 the loop has left through its
   condition; at the exit x < 2 * y. *)
Lemma div_norm_spec : forall f xh xl yh yl n,
  0 <= xl < two32 -> 0 <= yh < two32 -> 0 <= yl < two32 ->
  0 < val2 yh yl -> val2 xh xl < two64 -> two64 <= 2 * (val2 yh yl * 2 ^ Z.of_nat f) ->
  exists j : nat,
    snd (div_norm f xh xl yh yl n) = n + Z.of_nat j /\
    let yh' := fst (fst (div_norm f xh xl yh yl n)) in
    let yl' := snd (fst (div_norm f xh xl yh yl n)) in
    val2 yh' yl' = val2 yh yl * 2 ^ Z.of_nat j /\ 0 <= yh' < two32 /\ 0 <= yl' < two32 /\
    val2 xh xl < 2 * val2 yh' yl'.
Proof.
  induction f as [| f IH]; intros xh xl yh yl n Hxl Hyh Hyl Hpos HX Hf.
  - exists 0%nat. cbn [div_norm fst snd Z.of_nat]. rewrite Z.pow_0_r in *. repeat split; lia.
  - cbn [div_norm]. rewrite (gt2_spec _ _ _ _ Hxl Hyl : _ = (val2 yh yl <? val2 xh xl)).
    destruct (Z.ltb_spec yh two31) as [Hlt | Hge]; cbn [andb].
    + destruct (Z.ltb_spec (val2 yh yl) (val2 xh xl)) as [Hgt | Hle].
      * destruct (shl1_pair yh yl ltac:(lia) Hyl) as [Ev [Rh Rl]].
        set (yh1 := to_uint32 (or32 (shl32 yh 1) (ushr32 yl 31))) in *.
        set (yl1 := to_uint32 (shl32 yl 1)) in *.
        assert (Hf' : two64 <= 2 * (val2 yh1 yl1 * 2 ^ Z.of_nat f)).
        { rewrite Ev. rewrite Nat2Z.inj_succ, Z.pow_succ_r in Hf by lia. lia. }
        destruct (IH xh xl yh1 yl1 (n + 1) Hxl Rh Rl ltac:(lia) HX Hf') as [j [En [Ey R]]].
        exists (S j). split; [rewrite En, Nat2Z.inj_succ; lia |]. cbv zeta in *. split; [| exact R].
        rewrite Ey, Ev, Nat2Z.inj_succ, Z.pow_succ_r by lia. ring.
      * exists 0%nat. cbn [fst snd Z.of_nat]. rewrite Z.pow_0_r. repeat split; lia.
    + (* yHigh >= 2^31: 2 * y >= 2^64 > x *)
      exists 0%nat. cbn [fst snd Z.of_nat]. rewrite Z.pow_0_r. repeat split; try lia.
      clear - Hge Hyl HX. unfold val2, two64, two31, two32 in *. lia.
Qed.

(* second loop: n rounds from x < D * 2^n and y = D * 2^n / 2 (for n = 0 the divisor register plays no part).  Each round
   (div_step_rep) takes b * y off x, shifts b into q and halves y exactly, so that x mod D is unchanged and x / D loses
   b * 2^(n-1).  After the loop x = x0 mod D and q = q0 * 2^n + x0 / D. *)
Lemma div_iter_rep : forall (n : nat) s D X Q, 0 <= X < D * 2 ^ Z.of_nat n ->
  drep s X (D * 2 ^ Z.of_nat n / 2) Q ->
  drep (div_iter n s) (X mod D) (D / 2) (Q * 2 ^ Z.of_nat n + X / D).
Proof.
  induction n as [| n IH]; intros s D X Q HX R.
  - cbn [div_iter Z.of_nat] in *. rewrite Z.pow_0_r, Z.mul_1_r in *. rewrite (Z.mod_small X D), (Z.div_small X D), Z.add_0_r by assumption. exact R.
  - rewrite Nat2Z.inj_succ, Z.pow_succ_r in * by lia. set (P := 2 ^ Z.of_nat n) in *.
    replace (D * (2 * P)) with (D * P * 2) in HX, R by ring. rewrite Z.div_mul in R by discriminate.
    pose proof (div_step_rep s _ _ _ R) as R1. cbv zeta in R1. set (b := if D * P <=? X then 1 else 0) in *.
    assert (HX1 : 0 <= X - b * (D * P) < D * P) by (unfold b; destruct (Z.leb_spec (D * P) X); lia).
    cbn [div_iter]. specialize (IH (div_step s) D _ _ HX1 R1).
    replace (X - b * (D * P)) with (X + - (b * P) * D) in IH by ring. rewrite Z_mod_plus_full, Z.div_add in IH by lia.
    replace (Q * (2 * P) + X / D) with ((2 * Q + b) * P + (X / D + - (b * P))) by ring. exact IH.
Qed.

(* as the helper runs it: j + 1 rounds from the y = D * 2^j that the first loop leaves *)
Lemma div_iter_run : forall (j : nat) s D X Q, 0 <= X < 2 * (D * 2 ^ Z.of_nat j) ->
  drep s X (D * 2 ^ Z.of_nat j) Q ->
  drep (div_iter (S j) s) (X mod D) (D / 2) (Q * 2 ^ (Z.of_nat j + 1) + X / D).
Proof.
  intros j s D X Q HX R. replace (Z.of_nat j + 1) with (Z.of_nat (S j)) by lia.
  assert (E : D * 2 ^ Z.of_nat (S j) = D * 2 ^ Z.of_nat j * 2) by (rewrite Nat2Z.inj_succ, Z.pow_succ_r by lia; ring).
  apply div_iter_rep; [rewrite E; lia | rewrite E, Z.div_mul by discriminate; exact R].
Qed.

(* the magnitudes and signs the helper takes apart with two sign tests and destructuring lets *)
Definition absp (h l : Z) : Z * Z := if h <? 0 then negpair h l else (h, l).
Definition sg1 (x : Z) : Z := if x <? 0 then -1 else 1.

Lemma sign_x : forall h l, (if h <? 0 then let '(h', l') := negpair h l in (-1, -1, h', l') else (1, 1, h, l)) =
  (sg1 h, sg1 h, fst (absp h l), snd (absp h l)).
Proof. intros h l. unfold sg1, absp. destruct (h <? 0); [destruct (negpair h l) |]; reflexivity. Qed.
Lemma sign_y : forall s h l, (if h <? 0 then let '(h', l') := negpair h l in (s * -1, h', l') else (s, h, l)) =
  (s * sg1 h, fst (absp h l), snd (absp h l)).
Proof. intros s h l. unfold sg1, absp. destruct (h <? 0); [destruct (negpair h l) | rewrite Z.mul_1_r]; reflexivity. Qed.

Lemma val2_enc : forall x, val2 (x / two32) (x mod two32) = x.
Proof. intro x. unfold val2, two32. lia. Qed.

Lemma absp_spec : forall h l, 0 <= l < two32 ->
  val2 (fst (absp h l)) (snd (absp h l)) = Z.abs (val2 h l) /\ 0 <= snd (absp h l) < two32.
Proof.
  intros h l Hl. unfold absp. destruct (Z.ltb_spec h 0).
  - destruct (negpair_spec h l Hl) as [E R]. split; [| exact R]. rewrite E. unfold val2, two32 in *. lia.
  - cbn [fst snd]. split; [| assumption]. unfold val2, two32 in *. lia.
Qed.

(* both loops on the magnitudes X, Y < 2^64 of the operands: remainder and quotient of the floor division *)
Lemma div64_mag : forall axh axl ayh ayl X Y,
  0 <= axl < two32 -> 0 <= ayl < two32 -> val2 axh axl = X -> val2 ayh ayl = Y -> 0 <= X < two64 -> 0 < Y < two64 ->
  let nm := div_norm 64 axh axl ayh ayl 0 in
  let st := div_iter (Z.to_nat (snd nm + 1))
              {| d_xh := axh; d_xl := axl; d_yh := fst (fst nm); d_yl := snd (fst nm); d_high := 0; d_low := 0 |} in
  drep st (X mod Y) (Y / 2) (X / Y).
Proof.
  intros axh axl ayh ayl X Y RXl RYl EX EY AX AY nm st.
  assert (RYh : 0 <= ayh < two32) by (clear - RYl EY AY; unfold val2, two64, two32 in *; lia).
  destruct (div_norm_spec 64 axh axl ayh ayl 0 RXl RYh RYl) as [j [En [Ey [Rh [Rl Hlt]]]]]; [lia | lia | |].
  { rewrite EY. change (2 ^ Z.of_nat 64) with two64. clear - AY. unfold two64 in *; lia. }
  cbv zeta in Ey, Rh, Rl, Hlt. fold nm in En, Ey, Rh, Rl, Hlt.
  unfold st. rewrite En. replace (Z.to_nat (0 + Z.of_nat j + 1)) with (S j) by lia. rewrite EY in Ey. rewrite Ey, EX in Hlt.
  assert (Q0 : qrep 0 0 0) by (unfold qrep, val2, two31, two32; repeat split; lia).
  rewrite <- (Z.add_0_l (X / Y)), <- (Z.mul_0_l (2 ^ (Z.of_nat j + 1))).
  apply div_iter_run; [lia |]. exact (conj EX (conj RXl (conj Ey (conj Rh (conj Rl Q0))))).
Qed.

Lemma sg1_hi : forall x, sg1 (x / two32) = sg1 x.
Proof. intro x. unfold sg1, two32. destruct (Z.ltb_spec (x / 4294967296) 0); destruct (Z.ltb_spec x 0); lia. Qed.
Lemma sg1_cases : forall x, sg1 x = 1 \/ sg1 x = -1.
Proof. intro x. unfold sg1. destruct (x <? 0); auto. Qed.
Lemma sg1_sgn : forall x t, (x = 0 -> t = 0) -> sg1 x * t = Z.sgn x * t.
Proof. intros x t H0. unfold sg1. destruct (Z.ltb_spec x 0); [rewrite Z.sgn_neg by assumption; reflexivity |]. destruct (Z.eq_dec x 0) as [E | E]; [rewrite (H0 E); ring | rewrite Z.sgn_pos by lia; reflexivity]. Qed.

Lemma quot_sgn : forall x y, y <> 0 -> Z.quot x y = sg1 x * sg1 y * (Z.abs x / Z.abs y).
Proof.
  intros x y Hy. rewrite Z.quot_div, <- !Z.mul_assoc by assumption. symmetry. rewrite sg1_sgn.
  - f_equal. apply sg1_sgn. intro; contradiction.
  - intros ->. rewrite Z.div_0_l by lia. ring.
Qed.
Lemma rem_sgn : forall x y, y <> 0 -> Z.rem x y = sg1 x * (Z.abs x mod Z.abs y).
Proof. intros x y Hy. rewrite Z.rem_mod by assumption. symmetry. apply sg1_sgn. intros ->. apply Z.mod_0_l. lia. Qed.

Lemma signed_words_bound : forall h l s, s = 1 \/ s = -1 -> - two32 <= h <= two32 -> 0 <= l < two32 ->
  - two53 <= h * s + l * s / two32 <= two53.
Proof. intros h l s [-> | ->] Hh Hl; unfold two32, two53 in *; lia. Qed.

(* the last step of the helper: the signs go back on, the constructor wraps *)
Lemma div64_signs : forall tr k x y (rem : bool) st Y', is64 k = true -> y <> 0 -> 0 < Z.abs y < two64 ->
  drep st (Z.abs x mod Z.abs y) Y' (Z.abs x / Z.abs y) ->
  (if rem then Ret (new64v tr (signed k) (Fin (d_xh st * sg1 x)) (Fin (d_xl st * sg1 x)))
   else Ret (new64v tr (signed k) (Fin (d_high st * (sg1 x * sg1 y))) (Fin (d_low st * (sg1 x * sg1 y))))) =
  Ret (enc64 k (wrap k (if rem then Z.rem x y else Z.quot x y))).
Proof.
  intros tr k x y rem st Y' H Hy AY (Fx & Fxl & _ & _ & _ & Fv & Fl & Fh). destruct rem; f_equal.
  - assert (Bh : 0 <= d_xh st < two32).
    { pose proof (Z.mod_pos_bound (Z.abs x) (Z.abs y)) as MB. clear - MB AY Fx Fxl. unfold val2, two64, two32 in *. lia. }
    apply new64_enc; [assumption | apply signed_words_bound; [apply sg1_cases | clear - Bh; lia | assumption] |].
    replace (d_xh st * sg1 x * two32 + d_xl st * sg1 x) with (sg1 x * val2 (d_xh st) (d_xl st)) by (unfold val2; ring).
    rewrite Fx, <- rem_sgn by assumption. reflexivity.
  - apply new64_enc; [assumption | apply signed_words_bound; [| clear - Fh; unfold two31, two32 in *; lia | assumption] |].
    { destruct (sg1_cases x) as [-> | ->]; destruct (sg1_cases y) as [-> | ->]; auto. }
    replace (d_high st * (sg1 x * sg1 y) * two32 + d_low st * (sg1 x * sg1 y))
      with ((sg1 x * sg1 y) * val2 (d_high st) (d_low st)) by (unfold val2; ring).
    rewrite quot_sgn by assumption. change (2 ^ 64) with two64.
    rewrite <- Z.mul_mod_idemp_r, Fv, Z.mul_mod_idemp_r by discriminate. reflexivity.
Qed.

Lemma div64_value : forall tr k x y rem, is64 k = true -> in_range k x -> in_range k y -> y <> 0 ->
  div64 tr (enc64 k x) (enc64 k y) rem =
  Ret (enc64 k (wrap k (if rem then Z.rem x y else Z.quot x y))).
Proof.
  intros tr k x y rem H Rx Ry Hy. unfold enc64, div64. rewrite sign_x, sign_y. cbv beta iota.
  pose proof (in_range_64 k x Rx) as Bx. pose proof (in_range_64 k y Ry) as By.
  assert (Lx : 0 <= x mod two32 < two32) by (apply Z.mod_pos_bound; reflexivity).
  assert (Ly : 0 <= y mod two32 < two32) by (apply Z.mod_pos_bound; reflexivity).
  assert (Z0 : (y / two32 =? 0) && (y mod two32 =? 0) = false) by (clear - Hy; unfold two32; lia).
  rewrite Z0, !sg1_hi.
  destruct (absp_spec (x / two32) (x mod two32) Lx) as [EX RXl].
  destruct (absp_spec (y / two32) (y mod two32) Ly) as [EY RYl].
  rewrite val2_enc in EX, EY.
  (* |x|, |y| < 2^64 (MinInt64 gives exactly 2^63) *)
  assert (AX : 0 <= Z.abs x < two64) by (clear - Bx; unfold two64; lia).
  assert (AY : 0 < Z.abs y < two64) by (clear - By Hy; unfold two64; lia).
  pose proof (div64_mag _ _ _ _ _ _ RXl RYl EX EY AX AY) as M. cbv zeta in M.
  destruct (div_norm 64 _ _ _ _ 0) as [[yh' yl'] n]. cbn [fst snd] in M.
  exact (div64_signs tr k x y rem _ (Z.abs y / 2) H Hy AY M).
Qed.
