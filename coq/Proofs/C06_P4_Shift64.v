(* C06 — the 64-bit shift helpers $shiftLeft64, $shiftRightInt64, $shiftRightUint64 are correct for
   every non-negative shift count (0, 1..31, 32..63, >= 64). *)
From Coq Require Import ZArith Znumtheory Bool List Lia ZifyBool.
From Verif Require Import Base.Word Base.C06_JsNum Model.C06_Prelude64 Model.C06_Spec Gen.C06_Tables Model.C06_Templates
  Proofs.C06_Arith Proofs.C06_Fix Proofs.C06_Ops64 Proofs.C06_Bits64 Proofs.C06_Shift32.
Import ListNotations.
Local Open Scope Z_scope.

Lemma js_seq_fin : forall a b, js_seq (Fin a) (Fin b) = Some (a =? b).
Proof. reflexivity. Qed.

Lemma to_uint32_ex : forall z, exists c, to_uint32 z = z + c * two32.
Proof. intro z. exists (- (z / two32)). unfold to_uint32, two32. lia. Qed.

Lemma shr32_range : forall z j, - two31 <= shr32 z j < two31.
Proof.
  intros z j. apply (wrange_shiftr true 32); [reflexivity | unfold cnt; apply Z.mod_pos_bound; reflexivity | apply to_int32_range].
Qed.

Lemma hi_range : forall k h l, in_range k (h * two32 + l) -> 0 <= l < two32 ->
  if signed k then - two31 <= h < two31 else 0 <= h < two32.
Proof.
  intros k h l R Hl. destruct k; unfold in_range, kmin, kmax in R; cbn in R |- *; unfold two31, two32 in *; lia.
Qed.

Lemma shl_lt32_value : forall h l n, 0 < n < 32 -> 0 <= l < two32 ->
  (or32 (shl32 h n) (ushr32 l (32 - n)) * two32 + ushr32 (shl32 l n) 0) mod 2 ^ 64 = ((h * two32 + l) * 2 ^ n) mod 2 ^ 64.
Proof.
  intros h l n Hn Hl. destruct (shl_words h l n Hn Hl) as [E1 E2].
  rewrite two32_eq, (shl_pair 32 n h l), <- two32_eq, ushr32_0, E1 by lia. apply hi_mod64, E2.
Qed.

Lemma shl_ge32_value : forall h l n, 32 <= n < 64 ->
  (shl32 l (n - 32) * two32 + 0) mod 2 ^ 64 = ((h * two32 + l) * 2 ^ n) mod 2 ^ 64.
Proof.
  intros h l n Hn. rewrite (hi_mod64 (l * 2 ^ (n - 32))) by (apply shl32_mod; lia).
  rewrite (pow2_split n 32), <- two32_eq by lia.
  change (2 ^ 64) with (two32 * two32).
  replace ((h * two32 + l) * (2 ^ (n - 32) * two32)) with (l * 2 ^ (n - 32) * two32 + 0 + h * 2 ^ (n - 32) * (two32 * two32)) by ring.
  symmetry. apply Z_mod_plus_full.
Qed.

(* the two halves handed to the constructor by the shift helpers are 32-bit words *)
Lemma words_bound : forall h l, - two31 <= h < two32 -> 0 <= l < two32 -> - two53 <= h + l / two32 <= two53.
Proof. intros h l Hh Hl. unfold two31, two32, two53 in *. lia. Qed.

Lemma shl64_correct : forall V k x n, is64 k = true -> in_range k x -> 0 <= n ->
  sh64 V k Shl (enc64 k x) (Fin n) = Ret (enc64 k (go_shift k Shl x n)).
Proof.
  intros V k x n H R Hn. cbn [sh64 go_shift]. f_equal.
  destruct (enc64_words k x) as (h & l & -> & Ex & Rl).
  unfold shl64. rewrite js_seq_fin. destruct (Z.eqb_spec n 0) as [Z0 | NZ0].
  - subst n. rewrite Z.pow_0_r, Z.mul_1_r, wrap_id, Ex by assumption. symmetry. apply enc64_val; assumption.
  - rewrite !js_lt_fin. destruct (Z.ltb_spec n 32) as [L32 | G32]; [| destruct (Z.ltb_spec n 64) as [L64 | G64]]; unfold new64.
    + rewrite js_sub_fin by (unfold two53; lia). js32.
      apply new64_enc; [assumption | apply words_bound | rewrite Ex; apply shl_lt32_value; (assumption || lia)].
      * rewrite or32_eq. pose proof (to_int32_range (Z.lor (shl32 h n) (ushr32 l (32 - n)))). unfold two31, two32 in *; lia.
      * rewrite ushr32_0. apply to_uint32_range.
    + rewrite js_sub_fin by (unfold two53; lia). js32.
      apply new64_enc; [assumption | apply words_bound | rewrite Ex; apply shl_ge32_value; lia].
      * pose proof (to_int32_range (to_int32 l * 2 ^ cnt (n - 32))). unfold shl32, two31, two32 in *; lia.
      * unfold two32; lia.
    + apply new64_enc; [assumption | unfold two32, two53; lia |]. rewrite (mul_pow2_mod x 64) by lia. reflexivity.
Qed.

Lemma div_pow_ge32 : forall h l n, 32 <= n -> 0 <= l < two32 -> (h * two32 + l) / 2 ^ n = h / 2 ^ (n - 32).
Proof.
  intros h l n Hn Hl. pose proof (pow2_pos (n - 32) ltac:(lia)) as Pm.
  rewrite (pow2_split n 32), <- two32_eq, (Z.mul_comm (2 ^ (n - 32))) by lia.
  rewrite <- Z.div_div by (unfold two32; lia). f_equal.
  symmetry. apply Z.div_unique with l; [left; exact Hl | ring].
Qed.

(* counts below 32, either kind: the high word is h / 2^n once its own shift is resolved *)
Lemma shr_lt32_enc : forall tr k h l n, is64 k = true -> 0 < n < 32 -> 0 <= l < two32 -> - two31 <= h < two32 ->
  new64v tr (signed k) (Fin (h / 2 ^ n)) (Fin (ushr32 (or32 (ushr32 l n) (shl32 h (32 - n))) 0)) =
  enc64 k (wrap k ((h * two32 + l) / 2 ^ n)).
Proof.
  intros tr k h l n H Hn Hl Hh.
  apply new64_enc; [assumption | apply words_bound; [| rewrite ushr32_0; apply to_uint32_range] |].
  - pose proof (pow2_pos n ltac:(lia)) as Pp. set (p := 2 ^ n) in *. clearbody p. unfold two31, two32 in *.
    split; [apply Z.div_le_lower_bound; nia | apply Z.div_lt_upper_bound; nia].
  - rewrite ushr32_0, shr_lo_value, two32_eq, <- (shr_pair 32) by (assumption || lia). reflexivity.
Qed.

(* counts 32..63 of the signed shift: the high word is the sign, the low word is h >> (n - 32) as a word *)
Lemma shr_ge32_value : forall h l n, 32 <= n < 64 -> - two31 <= h < two31 -> 0 <= l < two32 ->
  shr32 h 31 * two32 + ushr32 (shr32 h (n - 32)) 0 = (h * two32 + l) / 2 ^ n.
Proof.
  intros h l n Hn Hh Hl. rewrite div_pow_ge32, <- Z.shiftr_div_pow2, ushr32_0 by (assumption || lia).
  unfold shr32. rewrite !cnt_small, to_int32_id, shiftr_sat by (assumption || lia).
  pose proof (wrange_shiftr true 32 h (n - 32) eq_refl ltac:(lia) Hh) as R.
  pose proof (Z.shiftr_neg h (n - 32)) as S.
  set (v := Z.shiftr h (n - 32)) in *. clearbody v. cbn in R. clear - R S.
  unfold to_uint32, two32. destruct (Z.ltb_spec h 0); lia.
Qed.

Lemma shr_ge64_value : forall k x n, in_range k x -> 64 <= n -> x / 2 ^ n = if x <? 0 then -1 else 0.
Proof.
  intros k x n R Hn. pose proof (in_range_64 k x R). apply (div_pow2_sat x 64); [lia | change (2 ^ 64) with 18446744073709551616; lia].
Qed.

(* $shiftRightInt64 on int64 and $shiftRightUint64 on uint64 *)
Lemma shr64_any : forall tr k x n, is64 k = true -> in_range k x -> 0 <= n ->
  (if signed k then shr64 else ushr64) tr (enc64 k x) (Fin n) = enc64 k (Z.shiftr x n).
Proof.
  intros tr k x n H R Hn. rewrite <- (wrap_id k _ (shiftr_in_range k x n R Hn)), Z.shiftr_div_pow2 by assumption.
  pose proof (in_range_64 k x R) as Bx.
  destruct (enc64_words k x) as (h & l & -> & Ex & Hl). rewrite Ex in R. pose proof (hi_range k h l R Hl) as Rh. rewrite <- Ex in R.
  assert (Hneg : (h <? 0) = (x <? 0)) by (clear - Ex Hl; unfold two32 in *; lia).
  destruct (Z.eq_dec n 0) as [-> | NZ0].
  - rewrite Z.pow_0_r, Z.div_1_r, wrap_id, Ex, enc64_val by assumption. destruct (signed k); reflexivity.
  - (* the helper's own case split on the count; [rewrite <- S] puts the constructor's flag back as [signed k], the form
       in which the lemmas about the constructor are stated *)
    revert Rh. destruct (signed k) eqn:S; intro Rh; [unfold shr64 | unfold ushr64]; rewrite js_seq_fin, (proj2 (Z.eqb_neq n 0) NZ0), !js_lt_fin;
      (destruct (Z.ltb_spec n 32) as [L32 | G32]; [| destruct (Z.ltb_spec n 64) as [L64 | G64]]); unfold new64;
      rewrite ?js_sub_fin by (unfold two53; lia); js32; rewrite <- S.
    + (* signed, n < 32 *)
      rewrite shr32_small, Ex by (assumption || lia). apply shr_lt32_enc; (assumption || lia || (unfold two31, two32 in *; lia)).
    + (* signed, 32 <= n < 64 *)
      apply new64_enc; [assumption | apply words_bound; [pose proof (shr32_range h 31); unfold two31, two32 in *; lia | rewrite ushr32_0; apply to_uint32_range] |].
      rewrite (shr_ge32_value h l n), Ex by (assumption || lia). reflexivity.
    + (* signed, 64 <= n: only the sign is left *)
      rewrite (shr_ge64_value k), Hneg by assumption.
      change (js_neg (Fin 1)) with (Fin (-1)).
      destruct (x <? 0); (apply new64_enc; [assumption | unfold two32, two53; lia | reflexivity]).
    + (* unsigned, n < 32 *)
      rewrite (ushr32_small h), Ex by (assumption || lia). apply shr_lt32_enc; (assumption || lia || (unfold two31, two32 in *; lia)).
    + (* unsigned, 32 <= n < 64 *)
      apply new64_enc; [assumption | apply words_bound; [unfold two31, two32; lia |] |].
      * rewrite ushr32_small by (assumption || lia). pose proof (pow2_pos (n - 32) ltac:(lia)) as Pp. set (p := 2 ^ (n - 32)) in *. clearbody p.
        split; [apply Z.div_pos; lia | apply Z.div_lt_upper_bound; nia].
      * rewrite Ex, div_pow_ge32, ushr32_small by (assumption || lia). reflexivity.
    + (* unsigned, 64 <= n *)
      apply new64_enc; [assumption | unfold two32, two53; lia |].
      rewrite (shr_ge64_value k) by assumption.
      rewrite (proj2 (Z.ltb_ge x 0)) by (clear - Ex Rh Hl; unfold two32 in *; lia). reflexivity.
Qed.

Lemma shr64_correct : forall V k x n, is64 k = true -> in_range k x -> 0 <= n ->
  sh64 V k Shr (enc64 k x) (Fin n) = Ret (enc64 k (go_shift k Shr x n)).
Proof.
  intros V k x n H R Hn. cbn [sh64 go_shift]. rewrite <- (shr64_any (v_ctor V) k x n H R Hn). destruct (signed k); reflexivity.
Qed.
