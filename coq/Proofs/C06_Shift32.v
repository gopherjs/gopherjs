(* C06 — << and >> (variable and constant counts, any non-negative count) for the kinds of at most 32 bits *)
From Coq Require Import ZArith Znumtheory Bool List Lia ZifyBool.
From Verif Require Import Base.Word Base.C06_JsNum Model.C06_Prelude64 Model.C06_Spec Gen.C06_Tables Model.C06_Templates
  Proofs.C06_Arith Proofs.C06_Fix Proofs.C06_Bits32.
Import ListNotations.
Local Open Scope Z_scope.

Lemma shl_big_zero : forall k x n, is64 k = false -> 32 <= n -> wrap k (x * 2 ^ n) = 0.
Proof.
  intros k x n H Hn. pose proof (bits_le_32 k H). rewrite <- (wrap_id k 0 (in_range_0 k)). apply wrap_congr.
  rewrite mul_pow2_mod by lia. reflexivity.
Qed.

Lemma fix_shl : forall k x n, is64 k = false -> 0 <= n < 32 -> fixnum k (js_shl (Fin x) (Fin n)) = Fin (wrap k (x * 2 ^ n)).
Proof. intros k x n H Hn. js32. rewrite fixnum_fin by assumption. f_equal. apply wrap_mod32; [assumption | apply shl32_mod; assumption]. Qed.

Lemma js_lt_fin : forall a b, js_lt (Fin a) (Fin b) = Some (a <? b).
Proof. reflexivity. Qed.

Lemma shiftr_in_range : forall k x n, in_range k x -> 0 <= n -> in_range k (Z.shiftr x n).
Proof. intros k x n R Hn. rewrite in_range_wrange in *. apply wrange_shiftr; [apply bits_pos | assumption | assumption]. Qed.

Lemma shiftr_sat : forall x n, - two31 <= x < two31 -> 31 <= n -> Z.shiftr x n = if x <? 0 then -1 else 0.
Proof. intros x n Hx Hn. rewrite Z.shiftr_div_pow2 by lia. apply (div_pow2_sat x 31); [lia | exact Hx]. Qed.

Lemma shiftr_big_u : forall x n, 0 <= x < two32 -> 32 <= n -> Z.shiftr x n = 0.
Proof.
  intros x n Hx Hn. rewrite Z.shiftr_div_pow2, (div_pow2_sat x 32), (proj2 (Z.ltb_ge x 0)) by (rewrite <- ?two32_eq; lia). reflexivity.
Qed.

Lemma fix_shr_s : forall k x c, is64 k = false -> signed k = true -> in_range k x -> 0 <= c < 32 ->
  fixnum k (js_shr (Fin x) (Fin c)) = Fin (Z.shiftr x c).
Proof.
  intros k x c H S R Hc. js32. rewrite fixnum_fin by assumption. f_equal.
  unfold shr32. rewrite cnt_small, to_int32_id by (assumption || apply (in_range_s32 k); assumption). apply wrap_id, shiftr_in_range; [assumption | lia].
Qed.
Lemma fix_ushr_u : forall k x c, is64 k = false -> signed k = false -> in_range k x -> 0 <= c < 32 ->
  fixnum k (js_ushr (Fin x) (Fin c)) = Fin (Z.shiftr x c).
Proof.
  intros k x c H S R Hc. js32. rewrite fixnum_fin by assumption. f_equal.
  unfold ushr32. rewrite cnt_small, to_uint32_id by (assumption || apply (in_range_u32 k); assumption). apply wrap_id, shiftr_in_range; [assumption | lia].
Qed.

Lemma js_min_31 : forall n, js_min (Fin n) (Fin 31) = Fin (Z.min n 31).
Proof.
  intro n. unfold js_min. cbn [jval jneg_sign].
  destruct (Z.ltb_spec n 31); [f_equal; lia |]. destruct (Z.ltb_spec 31 n); [f_equal; lia |].
  destruct (Z.ltb_spec n 0); f_equal; lia.
Qed.

Lemma shr32_var_correct : forall k x n, is64 k = false -> in_range k x -> 0 <= n ->
  shv32 k Shr (Fin x) (Fin n) = Ret (Fin (go_shift k Shr x n)).
Proof.
  intros k x n H R Hn. cbn [shv32 go_shift]. destruct (signed k) eqn:S.
  - (* x >> min(n, 31) *)
    rewrite js_min_31, fix_shr_s by (assumption || lia). do 2 f_equal.
    destruct (Z_le_gt_dec n 31); [rewrite Z.min_l by lia; reflexivity |].
    pose proof (in_range_s32 k x H S R). rewrite Z.min_r, !shiftr_sat by lia. reflexivity.
  - rewrite js_lt_fin. destruct (Z.ltb_spec n 32); cbn [js_ite_num].
    + rewrite fix_ushr_u by (assumption || lia). reflexivity.
    + rewrite fixnum_fin, (wrap_id k 0 (in_range_0 k)), shiftr_big_u by (assumption || apply (in_range_u32 k); assumption). reflexivity.
Qed.

Definition shc_defect_free (V : variant) (k : kind) (s : shop) (c x : Z) : Prop :=
  s = Shl \/ c < 32 \/ signed k = false \/ v_shrc V = true \/ 0 <= x.

Lemma shc32_correct : forall V k s c x, is64 k = false -> in_range k x -> 0 <= c ->
  shc_defect_free V k s c x ->
  shc32 V k s c (Fin x) = Ret (Fin (go_shift k s x c)).
Proof.
  intros V k s c x H R Hc D. unfold shc32. destruct (Z.leb_spec 32 c) as [L | L].
  - (* 32 <= c: the template is the constant 0, or x >> 31 for a signed kind when v_shrc V *)
    destruct s; cbn [go_shift].
    + rewrite shl_big_zero by assumption. reflexivity.
    + destruct (signed k) eqn:S.
      * pose proof (in_range_s32 k x H S R). rewrite (shiftr_sat x c) by lia.
        destruct (v_shrc V) eqn:F; cbn [andb].
        -- rewrite fix_shr_s, shiftr_sat by (assumption || lia). reflexivity.
        -- (* the template gives 0: right for 0 <= x only, the last disjunct of D *)
           destruct D as [D | [D | [D | [D | D]]]]; [discriminate D | exfalso; lia | rewrite S in D; discriminate D | rewrite F in D; discriminate D |].
           destruct (Z.ltb_spec x 0); [exfalso; lia | reflexivity].
      * rewrite andb_false_r, shiftr_big_u by (assumption || apply (in_range_u32 k); assumption). reflexivity.
  - destruct s; cbn [go_shift].
    + rewrite fix_shl by (assumption || lia). reflexivity.
    + destruct (signed k) eqn:S; [rewrite fix_shr_s | rewrite fix_ushr_u]; (assumption || lia || reflexivity).
Qed.

Lemma shr_const_refuted : forall V, v_shrc V = false ->
  shc32 V Int32 Shr 40 (Fin (-5)) = Ret (Fin 0) /\ go_shift Int32 Shr (-5) 40 = -1.
Proof. intros V E. unfold shc32. cbn [Z.leb Z.compare Pos.compare Pos.compare_cont signed andb]. rewrite E. split; reflexivity. Qed.
