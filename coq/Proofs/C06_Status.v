(* C06 — full statements per defect class, their proofs for a repaired variant, what holds for [current]
   (Model/C06_Templates.v: the variant whose flags Gen/C06_Tables.v regenerates from the repository's source),
   and the operators of each width taken together. *)
From Coq Require Import ZArith Bool List Lia.
From Verif Require Import Base.C06_JsNum Model.C06_Prelude64 Model.C06_Spec Gen.C06_Tables Model.C06_Templates
  Proofs.C06_Arith Proofs.C06_Fix Proofs.C06_Div32 Proofs.C06_Bits32 Proofs.C06_Shift32
  Proofs.C06_Ops64 Proofs.C06_Bits64 Proofs.C06_P4_Div64a Proofs.C06_P4_Shift64.
Local Open Scope Z_scope.

Definition quo_full_statement (V : variant) : Prop :=
  forall k x y, is64 k = false -> in_range k x -> in_range k y ->
  bin32 V k Quo (Fin x) (Fin y) = embed (go_bin k Quo x y).
Definition rem_full_statement (V : variant) : Prop :=
  forall k x y, is64 k = false -> in_range k x -> in_range k y ->
  bin32 V k Rem (Fin x) (Fin y) = embed (go_bin k Rem x y).
Definition neg_full_statement (V : variant) : Prop :=
  forall k x, is64 k = false -> in_range k x -> un32 V k Neg (Fin x) = Ret (Fin (go_un k Neg x)).

(* each [*_defect_free V ...] has the repair flag of [V] among its disjuncts *)
Lemma quo_repaired_full : forall V, v_quo V = true -> quo_full_statement V.
Proof. intros V E k x y H Rx Ry; apply quo32_correct; try assumption. unfold quo_defect_free; tauto. Qed.
Lemma rem_repaired_full : forall V, v_rem V = true -> rem_full_statement V.
Proof. intros V E k x y H Rx Ry; apply rem32_correct; try assumption. unfold rem_defect_free; tauto. Qed.
Lemma neg_repaired_full : forall V, v_neg V = true -> neg_full_statement V.
Proof. intros V E k x H R; apply neg32_correct; try assumption. unfold neg_defect_free; tauto. Qed.

(* if the defect is repaired in [current] the full statement holds, otherwise the witness *)
Definition status (fixed : bool) (full refuted : Prop) : Prop := if fixed then full else refuted.

Lemma current_quo : status (v_quo current) (quo_full_statement current)
  (bin32 current Int8 Quo (Fin (-128)) (Fin (-1)) = Ret (Fin 128)).
Proof.
  unfold status. destruct (v_quo current) eqn:E.
  - exact (quo_repaired_full current E).
  - exact (proj1 (quo_int8_refuted current E)).
Qed.
Lemma current_rem : status (v_rem current) (rem_full_statement current)
  (bin32 current Int32 Rem (Fin (-4)) (Fin 2) = Ret NZ).
Proof.
  unfold status. destruct (v_rem current) eqn:E.
  - exact (rem_repaired_full current E).
  - exact (proj1 (rem_refuted current E)).
Qed.
Lemma current_neg : status (v_neg current) (neg_full_statement current)
  (un32 current Int32 Neg (Fin (-2147483648)) = Ret (Fin 2147483648)).
Proof.
  unfold status. destruct (v_neg current) eqn:E.
  - exact (neg_repaired_full current E).
  - exact (proj1 (neg_minint_refuted current E)).
Qed.

Definition shc_full_statement (V : variant) : Prop :=
  forall k s c x, is64 k = false -> in_range k x -> 0 <= c -> shc32 V k s c (Fin x) = Ret (Fin (go_shift k s x c)).
Lemma shc_repaired_full : forall V, v_shrc V = true -> shc_full_statement V.
Proof. intros V E k s c x H R Hc. apply shc32_correct; try assumption. unfold shc_defect_free; tauto. Qed.

(* every binary operator of every kind of at most 32 bits, any variant: all in-range operands outside the inputs
   that a missing repair gets wrong *)
Lemma bin32_any : forall V k o x y, is64 k = false -> in_range k x -> in_range k y ->
  (o = Quo -> quo_defect_free V k x y) -> (o = Rem -> rem_defect_free V x y) ->
  bin32 V k o (Fin x) (Fin y) = embed (go_bin k o x y).
Proof.
  intros V k o x y H Rx Ry DQ DR. destruct o.
  - apply add32_correct; assumption.
  - apply sub32_correct; assumption.
  - apply mul32_correct; assumption.
  - apply quo32_correct; auto.
  - apply rem32_correct; auto.
  - apply and32_correct; assumption.
  - apply or32_correct; assumption.
  - apply xor32_correct; assumption.
  - apply andnot32_correct; assumption.
Qed.

Lemma un32_any : forall V k u x, is64 k = false -> in_range k x -> (u = Neg -> neg_defect_free V k x) ->
  un32 V k u (Fin x) = Ret (Fin (go_un k u x)).
Proof. intros V k u x H R D. destruct u; [apply neg32_correct; auto | apply not32_correct; assumption]. Qed.

(* results stay in range, so the in-range hypothesis on operands is an invariant of expression evaluation *)
Lemma go_bin_in_range : forall k o x y v, in_range k x -> in_range k y -> go_bin k o x y = GVal v -> in_range k v.
Proof.
  intros k o x y v Rx Ry E. destruct o; cbn [go_bin] in E;
    try (injection E as <-; apply in_range_wrap).
  - (* Quo *) destruct (Z.eqb_spec y 0); [discriminate E | injection E as <-; apply in_range_wrap].
  - (* Rem *) destruct (Z.eqb_spec y 0); [discriminate E | injection E as <-; apply rem_in_range; assumption].
  - (* And *) injection E as <-. apply land_in_range; assumption.
  - (* Or *) injection E as <-. apply lor_in_range; assumption.
Qed.
Lemma go_shift_in_range : forall k s x n, in_range k x -> 0 <= n -> in_range k (go_shift k s x n).
Proof. intros k s x n R Hn; destruct s; cbn [go_shift]; [apply in_range_wrap | apply shiftr_in_range; assumption]. Qed.

(* [tr]: whether the $Int64/$Uint64 constructors truncate ([v_ctor]); [rem]: the remainder is asked for, not the quotient *)
Lemma div64_throw : forall tr k x rem, div64 tr (enc64 k x) (enc64 k 0) rem = Throw DivideByZero.
Proof. intros. unfold enc64. change (0 / two32) with 0. change (0 mod two32) with 0. reflexivity. Qed.

Definition embed64 (k : kind) (g : gres Z) : res jso :=
  match g with GVal v => Ret (enc64 k v) | GPanicDivide => Throw DivideByZero end.

(* / and % of the 64-bit kinds are one call of the helper *)
Lemma div64_bin : forall V k x y (rem : bool), is64 k = true -> in_range k x -> in_range k y ->
  div64 (v_ctor V) (enc64 k x) (enc64 k y) rem = embed64 k (go_bin k (if rem then Rem else Quo) x y).
Proof.
  intros V k x y rem H Rx Ry.
  (* the specification in the helper's form: an in-range remainder is its own wrap *)
  assert (E : go_bin k (if rem then Rem else Quo) x y =
              if y =? 0 then GPanicDivide else GVal (wrap k (if rem then Z.rem x y else Z.quot x y))).
  { destruct rem; cbn [go_bin]; destruct (Z.eqb_spec y 0); try reflexivity.
    rewrite wrap_id by (apply rem_in_range; assumption). reflexivity. }
  rewrite E. destruct (Z.eqb_spec y 0) as [-> | Hy]; [apply div64_throw | apply div64_value; assumption].
Qed.

Lemma bin64_full : forall V k o x y, is64 k = true -> in_range k x -> in_range k y ->
  bin64 V k o (enc64 k x) (enc64 k y) = embed64 k (go_bin k o x y).
Proof.
  intros V k o x y H Rx Ry. destruct o.
  - apply add64_correct; assumption.
  - apply sub64_correct; assumption.
  - exact (f_equal Ret (mul64_correct (v_ctor V) k x y H)).
  - apply (div64_bin V k x y false); assumption.
  - apply (div64_bin V k x y true); assumption.
  - apply and64_correct; assumption.
  - apply or64_correct; assumption.
  - apply xor64_correct; assumption.
  - apply andnot64_correct; assumption.
Qed.

(* both shifts of the 64-bit kinds, any count >= 0 (variable or constant count: the same helper call) *)
Lemma sh64_correct : forall V k s x n, is64 k = true -> in_range k x -> 0 <= n ->
  sh64 V k s (enc64 k x) (Fin n) = Ret (enc64 k (go_shift k s x n)).
Proof. intros V k s x n H R Hn. destruct s; [apply shl64_correct | apply shr64_correct]; assumption. Qed.
