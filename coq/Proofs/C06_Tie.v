(* C06 — the hand-written model (Model/C06_Templates.v, variant [current]) is convertible with
   the templates the real compiler emitted in this run (Gen/C06_Tables.v), for every integer
   kind, operator and operand shape that was compiled. *)
From Coq Require Import ZArith Bool List.
From Verif Require Import Base.C06_JsNum Model.C06_Prelude64 Model.C06_Spec Gen.C06_Tables Model.C06_Templates.
Import ListNotations.
Local Open Scope Z_scope.

(* Each statement is checked by conversion, once for every kind of the stated width and every operator. *)
Ltac tie := intros k o H; destruct k; try discriminate H; destruct o; reflexivity.
(* The same over two kinds; where the statement excludes a pair, it is a pair of equal kinds. *)
Ltac tie2 := intros k1 k2 H1 H2; destruct k1; try discriminate H1; destruct k2; try discriminate H2;
  try reflexivity; let N := fresh in intro N; exfalso; apply N; reflexivity.

Lemma tie_bin32 : forall k o, is64 k = false -> g_bin32 k o = Some (bin32 current k o).
Proof. tie. Qed.

Lemma tie_bin64 : forall k o, is64 k = true -> g_bin64 k o = Some (bin64 current k o).
Proof. tie. Qed.

Lemma tie_cmp32 : forall k c, is64 k = false -> g_cmp32 k c = Some (cmp32 c).
Proof. tie. Qed.

Lemma tie_cmp64 : forall k c, is64 k = true -> g_cmp64 k c = Some (cmp64 c).
Proof. tie. Qed.

Lemma tie_un32 : forall k u, is64 k = false -> g_un32 k u = Some (un32 current k u).
Proof. tie. Qed.

Lemma tie_un64 : forall k u, is64 k = true -> g_un64 k u = Some (un64 current k u).
Proof. tie. Qed.

Lemma tie_shv32 : forall k s, is64 k = false -> g_shv32 k s = Some (shv32 k s).
Proof. tie. Qed.

Lemma tie_shv64 : forall k s, is64 k = true -> g_shv64 k s = Some (sh64 current k s).
Proof. tie. Qed.

(* the constant shift counts that were compiled: one list for every kind and operator, which tie_shc32/64 check *)
Definition sample_counts : list Z := map fst (g_shc32 Int8 Shl).

Lemma tie_shc32 : forall k s, is64 k = false ->
  g_shc32 k s = map (fun c => (c, shc32 current k s c)) sample_counts.
Proof. tie. Qed.

Lemma tie_shc64 : forall k s, is64 k = true ->
  g_shc64 k s = map (fun c => (c, fun x => sh64 current k s x (Fin c))) sample_counts.
Proof. tie. Qed.

Lemma tie_conv_nn : forall k1 k2, is64 k1 = false -> is64 k2 = false -> k1 <> k2 ->
  g_conv_nn k1 k2 = Some (conv_nn k2).
Proof. tie2. Qed.

Lemma tie_conv_no : forall k1 k2, is64 k1 = false -> is64 k2 = true ->
  g_conv_no k1 k2 = Some (conv_no current k2).
Proof. tie2. Qed.

Lemma tie_conv_on : forall k1 k2, is64 k1 = true -> is64 k2 = false ->
  g_conv_on k1 k2 = Some (conv_on k1 k2).
Proof. tie2. Qed.

Lemma tie_conv_oo : forall k1 k2, is64 k1 = true -> is64 k2 = true -> k1 <> k2 ->
  g_conv_oo k1 k2 = Some (conv_oo current k2).
Proof. tie2. Qed.
