(* C07 — the heap model (Model/C07_Heap.v) read through [R]: the deep value of a typed value and the array/struct nodes it
   is made of.  Two footprints say what an operation does to everything else: [grown] (allocation: zero, $clone) and
   [confined] (stores into the nodes of the destination: type.copy, $copyArray); a value none of whose nodes an operation
   touches reads as before.  All statements are for arbitrary nested type shapes. *)
From Coq Require Import List ZArith Bool Arith Lia.
From Verif Require Import Base.Lists Model.C07_Heap Proofs.C07_Lists.
Import ListNotations.

Lemma ty_ind' (P : ty -> Prop) :
  P TNum -> P TScalar -> P TRef -> (forall n e, P e -> P (TArr n e)) ->
  (forall fs, Forall P fs -> P (TStruct fs)) -> forall t, P t.
Proof.
  intros H1 H2 H3 H4 H5. fix IH 1. intros [| | | n e | fs].
  - exact H1.
  - exact H2.
  - exact H3.
  - apply H4, IH.
  - apply H5. induction fs as [|f fs IHfs]; constructor; [apply IH | exact IHfs].
Qed.

Definition wf (h : heap) : Prop := forall l o, lookup h l = Some o -> l < hnext h.

Lemma lookup_store h l o l' : lookup (store h l o) l' = if Nat.eqb l' l then Some o else lookup h l'.
Proof. reflexivity. Qed.

Lemma lookup_store_same h l o : lookup (store h l o) l = Some o.
Proof. rewrite lookup_store, Nat.eqb_refl. reflexivity. Qed.

Lemma lookup_store_other h l o l' : l' <> l -> lookup (store h l o) l' = lookup h l'.
Proof. intro H. rewrite lookup_store. apply Nat.eqb_neq in H. rewrite H. reflexivity. Qed.

Lemma wf_store h l o : wf h -> l < hnext h -> wf (store h l o).
Proof.
  intros W Hl l' o' H. rewrite lookup_store in H.
  destruct (Nat.eqb_spec l' l); [subst; exact Hl | eapply W; eauto].
Qed.

Lemma alloc_spec {h o v h1} : alloc h o = (v, h1) ->
  v = VLoc (hnext h) /\ hnext h1 = S (hnext h) /\ lookup h1 (hnext h) = Some o /\
  (forall l, l <> hnext h -> lookup h1 l = lookup h l).
Proof.
  unfold alloc. intro H. inversion H; subst; clear H. repeat split.
  - apply (lookup_store_same h).
  - intros l Hl. apply (lookup_store_other h). exact Hl.
Qed.

Lemma wf_fresh h l : wf h -> hnext h <= l -> lookup h l = None.
Proof.
  intros W Hl. destruct (lookup h l) eqn:E; [|reflexivity]. apply W in E. lia.
Qed.

Inductive dval := DLeaf (z : Z) | DNode (ds : list dval).

(* [R h t v d ns]: in heap h the value v of type t has deep value d, and ns are the array/struct nodes it is made of
   (reached through value fields only; references stored in leaves are not followed).  An array of n elements of
   type e is read like a struct with fields [repeat e n]; its backing store is a typed array iff e is numeric. *)
Inductive R (h : heap) : ty -> val -> dval -> list nat -> Prop :=
| R_num z : R h TNum (VNum z) (DLeaf z) []
| R_scalar z : R h TScalar (VNum z) (DLeaf z) []
| R_ref z : R h TRef (VNum z) (DLeaf z) []
| R_arr n e l cells ds ns :
    lookup h l = Some (OArr (is_num e) cells) -> RL h (repeat e n) cells ds ns ->
    R h (TArr n e) (VLoc l) (DNode ds) (l :: ns)
| R_struct fs l cells ds ns :
    lookup h l = Some (OStruct cells) -> RL h fs cells ds ns ->
    R h (TStruct fs) (VLoc l) (DNode ds) (l :: ns)
with RL (h : heap) : list ty -> list val -> list dval -> list nat -> Prop :=
| RL_nil : RL h [] [] [] []
| RL_cons t ts v vs d ds n1 n2 :
    R h t v d n1 -> RL h ts vs ds n2 -> RL h (t :: ts) (v :: vs) (d :: ds) (n1 ++ n2).

Scheme R_mut := Minimality for R Sort Prop
  with RL_mut := Minimality for RL Sort Prop.
Combined Scheme R_RL_ind from R_mut, RL_mut.

Lemma R_RL_frame h h' :
  (forall t v d ns, R h t v d ns -> (forall l, In l ns -> lookup h' l = lookup h l) -> R h' t v d ns) /\
  (forall ts vs ds ns, RL h ts vs ds ns -> (forall l, In l ns -> lookup h' l = lookup h l) -> RL h' ts vs ds ns).
Proof.
  (* [F] says that the two heaps agree on the nodes of the value read *)
  apply R_RL_ind; try (intros; constructor; fail).
  - (* R_arr *) intros n e l cells ds ns Hl _ IH F.
    econstructor; [rewrite F by (left; reflexivity); exact Hl | apply IH; intros; apply F; right; assumption].
  - (* R_struct *) intros fs l cells ds ns Hl _ IH F.
    econstructor; [rewrite F by (left; reflexivity); exact Hl | apply IH; intros; apply F; right; assumption].
  - (* RL_cons *) intros t ts v vs d ds n1 n2 _ IHv _ IHvs F.
    constructor; [apply IHv | apply IHvs]; intros; apply F, in_or_app; [left | right]; assumption.
Qed.

(* [h'] may be [h] after any sequence of stores outside [ns1], for instance into the nodes of a value disjoint from this one *)
Theorem disjoint_frame h t1 v1 d1 ns1 h' :
  R h t1 v1 d1 ns1 -> (forall l, In l ns1 -> lookup h' l = lookup h l) -> R h' t1 v1 d1 ns1.
Proof. apply R_RL_frame. Qed.

Lemma RL_frame h h' ts vs ds ns :
  RL h ts vs ds ns -> (forall l, In l ns -> lookup h' l = lookup h l) -> RL h' ts vs ds ns.
Proof. apply R_RL_frame. Qed.

Lemma R_RL_det h :
  (forall t v d ns, R h t v d ns -> forall d' ns', R h t v d' ns' -> d = d' /\ ns = ns') /\
  (forall ts vs ds ns, RL h ts vs ds ns -> forall ds' ns', RL h ts vs ds' ns' -> ds = ds' /\ ns = ns').
Proof.
  (* the second reading [H'] is inverted: type and value fix its constructor, and a node is looked up in the same heap *)
  apply R_RL_ind.
  1-3: intros z d' ns' H'; inversion H'; subst; auto.
  - (* R_arr *) intros n e l cells ds ns Hl _ IH d' ns' H'. inversion H' as [| | |? ? ? ? ? ? Hl' X|]; subst.
    rewrite Hl in Hl'. inversion Hl'; subst. destruct (IH _ _ X) as [-> ->]. auto.
  - (* R_struct *) intros fs l cells ds ns Hl _ IH d' ns' H'. inversion H' as [| | | |? ? ? ? ? Hl' X]; subst.
    rewrite Hl in Hl'. inversion Hl'; subst. destruct (IH _ _ X) as [-> ->]. auto.
  - (* RL_nil *) intros ds' ns' H'; inversion H'; subst; auto.
  - (* RL_cons *) intros t ts v vs d ds n1 n2 _ IHv _ IHvs ds' ns' H'. inversion H' as [|? ? ? ? ? ? ? ? X Y]; subst.
    destruct (IHv _ _ X) as [-> ->]. destruct (IHvs _ _ Y) as [-> ->]. auto.
Qed.

Lemma nodes_lt h : wf h ->
  (forall t v d ns, R h t v d ns -> forall l, In l ns -> l < hnext h) /\
  (forall ts vs ds ns, RL h ts vs ds ns -> forall l, In l ns -> l < hnext h).
Proof.
  intro W. apply R_RL_ind; try (simpl; tauto).
  - (* R_arr: the node itself holds an object *) intros n e l cells ds ns Hl _ IH x [<-|Hx]; [eapply W | ]; eauto.
  - (* R_struct *) intros fs l cells ds ns Hl _ IH x [<-|Hx]; [eapply W | ]; eauto.
  - (* RL_cons *) intros t ts v vs d ds n1 n2 _ IHv _ IHvs x Hx. apply in_app_or in Hx. destruct Hx; eauto.
Qed.

Lemma R_nodes_lt {h t v d ns} : wf h -> R h t v d ns -> forall l, In l ns -> l < hnext h.
Proof. intro W. apply (nodes_lt h W). Qed.

Lemma RL_nodes_lt {h ts vs ds ns} : wf h -> RL h ts vs ds ns -> forall l, In l ns -> l < hnext h.
Proof. intro W. apply (nodes_lt h W). Qed.

Lemma R_leaf {h t v d ns} : is_node t = false -> R h t v d ns -> ns = [] /\ exists z, v = VNum z /\ d = DLeaf z.
Proof. intros Hn H. inversion H; subst; simpl in Hn; try discriminate; eauto. Qed.

Lemma RL_length h ts vs ds ns : RL h ts vs ds ns -> length vs = length ts /\ length ds = length ts.
Proof. induction 1; simpl; [auto | lia]. Qed.

Lemma RL_repeat_length {h e n vs ds ns} : RL h (repeat e n) vs ds ns -> length vs = n /\ length ds = n.
Proof. intro H. apply RL_length in H. rewrite repeat_length in H. exact H. Qed.

Lemma RL_app h t1 v1 d1 n1 t2 v2 d2 n2 :
  RL h t1 v1 d1 n1 -> RL h t2 v2 d2 n2 -> RL h (t1 ++ t2) (v1 ++ v2) (d1 ++ d2) (n1 ++ n2).
Proof.
  induction 1; intro H2; simpl; [assumption|]. rewrite <- app_assoc. constructor; auto.
Qed.

Lemma RL_split {h} t1 : forall {t2 vs ds ns},
  RL h (t1 ++ t2) vs ds ns ->
  exists v1 v2 d1 d2 n1 n2, vs = v1 ++ v2 /\ ds = d1 ++ d2 /\ ns = n1 ++ n2 /\ RL h t1 v1 d1 n1 /\ RL h t2 v2 d2 n2.
Proof.
  induction t1 as [|t t1 IH]; intros t2 vs ds ns H; simpl in H.
  - exists [], vs, [], ds, [], ns. repeat split; auto. constructor.
  - inversion H as [|? ? v vs' d ds' na nb Hv Hr]; subst.
    destruct (IH _ _ _ _ Hr) as (v1 & v2 & d1 & d2 & n1 & n2 & -> & -> & -> & R1 & R2).
    exists (v :: v1), v2, (d :: d1), d2, (na ++ n1), n2. repeat split; auto.
    + apply app_assoc.
    + constructor; assumption.
Qed.

Lemma RL_window h e vs ds ns off n :
  RL h (repeat e (length vs)) vs ds ns -> off + n <= length vs ->
  exists v1 v2 v3 d1 d2 d3 n1 n2 n3,
    vs = v1 ++ v2 ++ v3 /\ ds = d1 ++ d2 ++ d3 /\ ns = n1 ++ n2 ++ n3 /\ length v1 = off /\ length v2 = n /\ length d1 = off /\ length d2 = n /\ RL h (repeat e off) v1 d1 n1 /\ RL h (repeat e n) v2 d2 n2 /\ RL h (repeat e (length vs - off - n)) v3 d3 n3.
Proof.
  intros H Hl. remember (length vs) as k eqn:Ek.
  replace k with (off + (n + (k - off - n))) in H by lia. rewrite !repeat_app in H.
  destruct (RL_split _ H) as (v1 & v23 & d1 & d23 & n1 & n23 & -> & -> & -> & R1 & R23).
  destruct (RL_split _ R23) as (v2 & v3 & d2 & d3 & n2 & n3 & -> & -> & -> & R2 & R3).
  destruct (RL_repeat_length R1) as [A1 B1]. destruct (RL_repeat_length R2) as [A2 B2].
  exists v1, v2, v3, d1, d2, d3, n1, n2, n3. repeat split; auto.
Qed.

Lemma num_not_node e : is_num e = true -> is_node e = false.
Proof. destruct e; (reflexivity || discriminate). Qed.

Lemma cells_with_cells o c : cells_of (with_cells o c) = c.
Proof. destruct o; reflexivity. Qed.

Lemma with_cells_twice o c c' : with_cells (with_cells o c) c' = with_cells o c'.
Proof. destruct o; reflexivity. Qed.

Lemma with_cells_id o : with_cells o (cells_of o) = o.
Proof. destruct o; reflexivity. Qed.

(* [grown h h' ns]: h' keeps every object of h and adds freshly allocated ones, [ns] being distinct locations among
   those.  This is what zero, $clone, $growSlice and an append beyond capacity guarantee about the nodes of their results. *)
Definition grown (h h' : heap) (ns : list nat) : Prop :=
  wf h' /\ hnext h <= hnext h' /\ (forall l, l < hnext h -> lookup h' l = lookup h l) /\
  NoDup ns /\ (forall l, In l ns -> hnext h <= l < hnext h').

Lemma grown_refl h : wf h -> grown h h [].
Proof. intro W. split; [exact W|]. split; [lia|]. split; [auto|]. split; [constructor | intros l []]. Qed.

Lemma grown_seq {h h1 h2 n1 n2} : grown h h1 n1 -> grown h1 h2 n2 -> grown h h2 (n1 ++ n2).
Proof.
  intros (_ & N1 & X1 & D1 & B1) (W2 & N2 & X2 & D2 & B2).
  split; [assumption|]. split; [lia|]. split; [intros l Hl; rewrite X2 by lia; auto|]. split.
  - apply NoDup_app_iff. repeat split; auto. intros x Hx Hx'. apply B1 in Hx. apply B2 in Hx'. lia.
  - intros l Hl. apply in_app_or in Hl. destruct Hl as [Hl|Hl]; [apply B1 in Hl | apply B2 in Hl]; lia.
Qed.

Lemma grown_alloc {h h1 ns o v h2} : grown h h1 ns -> alloc h1 o = (v, h2) -> grown h h2 (hnext h1 :: ns).
Proof.
  intros (W1 & N1 & X1 & D1 & B1) A. destruct (alloc_spec A) as (_ & Hn & Hs & Ho).
  split; [|split; [lia|]; split; [|split]].
  - intros l o' H. destruct (Nat.eq_dec l (hnext h1)); [lia|]. rewrite Ho in H by assumption. apply W1 in H. lia.
  - intros l Hl. rewrite Ho by lia. auto.
  - constructor; [intro Hin; apply B1 in Hin; lia | assumption].
  - intros l [<-|Hl]; [lia | apply B1 in Hl; lia].
Qed.

Lemma grown_R {h h' ns t v d n} : wf h -> grown h h' ns -> R h t v d n -> R h' t v d n.
Proof. intros W (_ & _ & X & _) H. eapply disjoint_frame; [exact H|]. intros l Hl. apply X. eapply R_nodes_lt; eauto. Qed.

Lemma grown_RL {h h' ns ts vs ds n} : wf h -> grown h h' ns -> RL h ts vs ds n -> RL h' ts vs ds n.
Proof. intros W (_ & _ & X & _) H. eapply RL_frame; [exact H|]. intros l Hl. apply X. eapply RL_nodes_lt; eauto. Qed.

Lemma grown_apart {h h' ns t v d n} : wf h -> grown h h' ns -> R h t v d n -> forall l, In l ns -> ~ In l n.
Proof. intros W G H l Hl Hl'. apply G in Hl. pose proof (R_nodes_lt W H l Hl'). lia. Qed.

(* [confined h h' ns]: h' is h after stores into objects among [ns]; nothing is allocated.  This is what type.copy and
   $copyArray guarantee, [ns] being the nodes of their destination. *)
Definition confined (h h' : heap) (ns : list nat) : Prop :=
  wf h' /\ hnext h' = hnext h /\ forall l, ~ In l ns -> lookup h' l = lookup h l.

Lemma confined_lookup {h h' ns} : confined h h' ns -> forall l, ~ In l ns -> lookup h' l = lookup h l.
Proof. intros (_ & _ & F). exact F. Qed.

Lemma confined_refl h ns : wf h -> confined h h ns.
Proof. intro W. split; [exact W|]. split; reflexivity. Qed.

Lemma confined_incl {h h' n} ns : confined h h' n -> incl n ns -> confined h h' ns.
Proof. intros (W & N & F) I. split; [exact W|]. split; [exact N|]. intros l Hl. apply F. intro Hin. exact (Hl (I l Hin)). Qed.

Lemma confined_trans {h h1 h2 ns} : confined h h1 ns -> confined h1 h2 ns -> confined h h2 ns.
Proof.
  intros (_ & N1 & F1) (W2 & N2 & F2). split; [exact W2|]. split; [congruence|]. intros l Hl. rewrite F2, F1; auto.
Qed.

Lemma confined_store {h l o} o' : wf h -> lookup h l = Some o -> confined h (store h l o') [l].
Proof.
  intros W L. split; [apply wf_store; [exact W | exact (W _ _ L)]|]. split; [reflexivity|].
  intros x Hx. apply lookup_store_other. intros ->. apply Hx. left. reflexivity.
Qed.

Lemma confined_R {h h' ns t v d n} : confined h h' ns -> R h t v d n -> (forall l, In l n -> ~ In l ns) -> R h' t v d n.
Proof. intros K H S. eapply disjoint_frame; [exact H|]. intros l Hl. exact (confined_lookup K l (S l Hl)). Qed.

Lemma confined_RL {h h' ns ts vs ds n} : confined h h' ns -> RL h ts vs ds n -> (forall l, In l n -> ~ In l ns) -> RL h' ts vs ds n.
Proof. intros K H S. eapply RL_frame; [exact H|]. intros l Hl. exact (confined_lookup K l (S l Hl)). Qed.

(* allocation followed by stores into the fresh objects is allocation: $clone is zero, then type.copy into it *)
Lemma grown_confined {h h1 h2 ns} : grown h h1 ns -> confined h1 h2 ns -> grown h h2 ns.
Proof.
  intros (_ & N1 & X1 & D1 & B1) (W2 & N2 & F2). split; [exact W2|]. rewrite N2. split; [exact N1|].
  split; [|split; assumption]. intros l Hl. rewrite F2; [auto|]. intro Hin. apply B1 in Hin. lia.
Qed.

(* what an allocating computation guarantees: [rel] is [R] for one value, [RL] for a run of values *)
Definition allocates {T V D} (rel : heap -> T -> V -> D -> list nat -> Prop) (t : T) (z : heap -> V * heap) : Prop :=
  forall h v h', wf h -> z h = (v, h') -> exists d ns, grown h h' ns /\ rel h' t v d ns.

Lemma allocates_nil : allocates RL [] (fun h => ([], h)).
Proof. intros h vs h' W E. inversion E; subst. exists [], []. split; [apply grown_refl, W | constructor]. Qed.

Lemma allocates_cons t ts z zs :
  allocates R t z -> allocates RL ts zs ->
  allocates RL (t :: ts) (fun h => let '(v, h1) := z h in let '(vs, h2) := zs h1 in (v :: vs, h2)).
Proof.
  intros Hz Hzs h vs h' W E.
  destruct (z h) as [v h1] eqn:E1. destruct (zs h1) as [vs' h2] eqn:E2. inversion E; subst; clear E.
  destruct (Hz _ _ _ W E1) as (d & n1 & G1 & R1). destruct (Hzs _ _ _ (proj1 G1) E2) as (ds & n2 & G2 & R2).
  exists (d :: ds), (n1 ++ n2). split; [exact (grown_seq G1 G2)|].
  constructor; [exact (grown_R (proj1 G1) G2 R1) | exact R2].
Qed.

Lemma zero_n_ok e z n : allocates R e z -> allocates RL (repeat e n) (zero_n z n).
Proof.
  intro Hz. induction n as [|n IH]; simpl.
  - apply allocates_nil.
  - apply (allocates_cons e (repeat e n) z (zero_n z n) Hz IH).
Qed.

Lemma zero_n_const z v n h : (forall h, z h = (v, h)) -> zero_n z n h = (repeat v n, h).
Proof. intro Hz. induction n as [|n IH]; simpl; [|rewrite Hz, IH]; reflexivity. Qed.

(* the typed array of zeros that types.js builds for a numeric element type is what the general branch computes for it:
   zero values of a numeric type allocate nothing *)
Lemma zero_arr n e h :
  zero (TArr n e) h = let '(vs, h1) := zero_n (zero e) n h in alloc h1 (OArr (is_num e) vs).
Proof. simpl. destruct e; try reflexivity. rewrite (zero_n_const _ (VNum 0)) by reflexivity. reflexivity. Qed.

(* allocating the array/struct object [o] once its cells have been built in the fresh nodes [ns] *)
Lemma alloc_over {h h1 h2 ts vs ds ns o v} :
  grown h h1 ns -> RL h1 ts vs ds ns -> alloc h1 o = (v, h2) ->
  v = VLoc (hnext h1) /\ lookup h2 (hnext h1) = Some o /\ grown h h2 (hnext h1 :: ns) /\ RL h2 ts vs ds ns.
Proof.
  intros G H A. destruct (alloc_spec A) as (-> & _ & Hs & _). split; [reflexivity|]. split; [exact Hs|].
  split; [exact (grown_alloc G A)|].
  exact (grown_RL (proj1 G) (grown_alloc (grown_refl _ (proj1 G)) A) H).
Qed.

Lemma zero_ok_all : forall t, allocates R t (zero t).
Proof.
  induction t as [| | | n e IH | fs IH] using ty_ind'; intros h v h' W E.
  1-3: (* leaves: nothing is allocated *) inversion E; subst; eexists; exists []; split; [apply grown_refl, W | constructor].
  - (* TArr: an array object over n zero values of e *)
    rewrite zero_arr in E. destruct (zero_n (zero e) n h) as [vs h1] eqn:E1.
    destruct (zero_n_ok e (zero e) n IH _ _ _ W E1) as (ds & ns & G1 & R1).
    destruct (alloc_over G1 R1 E) as (-> & Hs & G & H).
    exists (DNode ds), (hnext h1 :: ns). split; [exact G | eapply R_arr; [exact Hs | exact H]].
  - (* TStruct *) simpl in E.
    set (zs := fix zs (fs : list ty) (h : heap) {struct fs} : list val * heap :=
           match fs with
           | [] => ([], h)
           | f :: r => let '(v, h1) := zero f h in let '(vs, h2) := zs r h1 in (v :: vs, h2)
           end) in *.
    assert (Hzs : allocates RL fs (zs fs)).
    { clear E. induction IH as [|f fs Hf _ IHfs]; simpl.
      - apply allocates_nil.
      - apply (allocates_cons f fs (zero f) (zs fs) Hf IHfs). }
    destruct (zs fs h) as [vs h1] eqn:E1.
    destruct (Hzs _ _ _ W E1) as (ds & ns & G1 & R1).
    destruct (alloc_over G1 R1 E) as (-> & Hs & G & H).
    exists (DNode ds), (hnext h1 :: ns). split; [exact G | eapply R_struct; [exact Hs | exact H]].
Qed.

(* the common shape of the struct field loop and of the (non-overlapping, forward) array element loop:
   destination cells i, i+1, ... receive source cells j, j+1, ... *)
Fixpoint cells_loop (d s : nat) (ts : list ty) (i j : nat) (h : heap) : option heap :=
  match ts with
  | [] => Some h
  | f :: r =>
      match get_cell h s j, get_cell h d i with
      | Some sv, Some dv =>
          match (if is_node f then copy f h dv sv else set_cell h d i sv) with
          | Some h' => cells_loop d s r (S i) (S j) h'
          | None => None
          end
      | _, _ => None
      end
  end.

Lemma copy_struct_loop fs h d s : copy (TStruct fs) h (VLoc d) (VLoc s) = cells_loop d s fs 0 0 h.
Proof.
  simpl. generalize 0%nat. revert h. induction fs as [|f fs IH]; intros h i; simpl; [reflexivity|].
  destruct (get_cell h s i); [|reflexivity]. destruct (get_cell h d i); [|reflexivity].
  destruct (if is_node f then copy f h v0 v else set_cell h d i v); [apply IH | reflexivity].
Qed.

Lemma set_cell_none h d i v : get_cell h d i = None -> set_cell h d i v = None.
Proof.
  unfold get_cell, set_cell. destruct (lookup h d) as [o|]; [|reflexivity]. generalize (cells_of o) as c.
  intros c. revert i. induction c as [|x c IH]; intros [|i] H; simpl in *; try reflexivity; try discriminate.
  specialize (IH _ H). destruct (set_nth c i v); [discriminate | reflexivity].
Qed.

(* $copyArray does one of three things: nothing, TypedArray.set, or a loop over the elements whose body is [elem_step] *)
Definition elem_step (cp : heap -> val -> val -> option heap) (enode : bool) (d s dO sO : nat) (h : heap) (i : nat) : option heap :=
  if enode then match get_cell h d (dO + i), get_cell h s (sO + i) with Some dv, Some sv => cp h dv sv | _, _ => None end
  else match get_cell h s (sO + i) with Some sv => set_cell h d (dO + i) sv | None => None end.

(* prelude.js: `if (n === 0 || (dst === src && dstOffset === srcOffset)) return;` *)
Lemma copy_array_skip cp enode h d s dO sO n : n = 0 \/ (d = s /\ dO = sO) -> copy_array cp enode h d s dO sO n = Some h.
Proof. unfold copy_array. intros [-> | [-> ->]]; [reflexivity | rewrite !Nat.eqb_refl, orb_true_r; reflexivity]. Qed.

Lemma copy_array_guard d s dO sO n : n <> 0 -> d <> s \/ dO <> sO -> Nat.eqb n 0 || (Nat.eqb d s && Nat.eqb dO sO) = false.
Proof.
  intros Hn H. apply Nat.eqb_neq in Hn. rewrite Hn. simpl.
  destruct H as [H|H]; apply Nat.eqb_neq in H; rewrite H; [reflexivity | apply andb_false_r].
Qed.

Lemma copy_array_typed {cp enode h d s dO sO n sc dt dc} :
  n <> 0 -> d <> s \/ dO <> sO -> lookup h s = Some (OArr true sc) -> lookup h d = Some (OArr dt dc) ->
  sO + n <= length sc -> dO + n <= length dc ->
  copy_array cp enode h d s dO sO n = Some (store h d (OArr dt (splice dc dO (sublist sc sO n)))).
Proof.
  intros Hn Hne Ls Ld Hs Hd. unfold copy_array. rewrite copy_array_guard, Ls, Ld by assumption.
  apply Nat.leb_le in Hs, Hd. rewrite Hs, Hd. reflexivity.
Qed.

Lemma copy_array_untyped {cp enode h d s dO sO n sc dt dc} :
  n <> 0 -> d <> s \/ dO <> sO -> lookup h s = Some (OArr false sc) -> lookup h d = Some (OArr dt dc) ->
  copy_array cp enode h d s dO sO n
  = copy_loop (elem_step cp enode d s dO sO) (if Nat.eqb d s && Nat.ltb sO dO then rev (seq 0 n) else seq 0 n) h.
Proof.
  intros Hn Hne Ls Ld. unfold copy_array. rewrite copy_array_guard, Ls, Ld by assumption. destruct enode; reflexivity.
Qed.

(* forwards, the element loop is the cell loop *)
Lemma copy_loop_cells e d s dO sO n h :
  copy_loop (elem_step (copy e) (is_node e) d s dO sO) (seq 0 n) h = cells_loop d s (repeat e n) dO sO h.
Proof.
  rewrite <- (Nat.add_0_r dO) at 2. rewrite <- (Nat.add_0_r sO) at 2. generalize 0. revert h.
  induction n as [|n IH]; intros h k; simpl; [reflexivity|]. unfold elem_step at 1.
  destruct (get_cell h s (sO + k)) as [sv|], (get_cell h d (dO + k)) as [dv|] eqn:Ed, (is_node e); try reflexivity.
  3: (* a leaf is stored without reading the destination cell; where there is none the store fails as well *)
     rewrite (set_cell_none _ _ _ _ Ed); reflexivity.
  all: match goal with |- match ?x with _ => _ end = _ => destruct x end; [|reflexivity]; rewrite <- !Nat.add_succ_r; apply IH.
Qed.

(* what type.copy guarantees for one type *)
Definition copy_ok (t : ty) : Prop :=
  is_node t = true ->
  forall h dst src d d0 nss nsd,
    wf h -> R h t src d nss -> R h t dst d0 nsd -> NoDup nsd -> (forall l, In l nsd -> ~ In l nss) ->
    exists h', copy t h dst src = Some h' /\ confined h h' nsd /\ R h' t dst d nsd.

(* one cell of the loop: a nested array/struct is copied into the node the destination cell already points to,
   a leaf is stored into the destination object *)
Lemma cell_copy_ok f d od dc1 dv dc3 sv df d0f ns1 nd1 hk :
  copy_ok f -> wf hk -> lookup hk d = Some od -> cells_of od = dc1 ++ dv :: dc3 ->
  R hk f sv df ns1 -> R hk f dv d0f nd1 -> NoDup nd1 -> ~ In d nd1 -> (forall l, In l nd1 -> ~ In l ns1) ->
  exists h1 dv', (if is_node f then copy f hk dv sv else set_cell hk d (length dc1) sv) = Some h1 /\
    confined hk h1 (d :: nd1) /\ lookup h1 d = Some (with_cells od (dc1 ++ dv' :: dc3)) /\ R h1 f dv' df nd1.
Proof.
  intros Hf W Ld Cd RS RD ND Hd Disj. destruct (is_node f) eqn:Ef.
  - destruct (Hf Ef hk dv sv df d0f ns1 nd1 W RS RD ND Disj) as (h1 & C1 & K1 & R1).
    exists h1, dv. rewrite <- Cd, with_cells_id, (confined_lookup K1) by assumption.
    split; [exact C1|]. split; [apply (confined_incl _ K1), incl_tl, incl_refl | auto].
  - destruct (R_leaf Ef RS) as (-> & z & -> & ->). destruct (R_leaf Ef RD) as (-> & z0 & -> & ->).
    exists (store hk d (with_cells od (dc1 ++ VNum z :: dc3))), (VNum z).
    split; [unfold set_cell; rewrite Ld, Cd, set_nth_app; reflexivity|]. split; [exact (confined_store _ W Ld)|].
    split; [apply lookup_store_same | eapply disjoint_frame; [exact RS | intros l []]].
Qed.

Lemma cells_loop_ok d s :
  forall ts, Forall copy_ok ts ->
  forall od dc2 sc2 ds2 d02 nss2 nsd2 dc1 sc1 dc3 sc3 os hk,
    wf hk ->
    lookup hk d = Some od -> cells_of od = dc1 ++ dc2 ++ dc3 ->
    lookup hk s = Some os -> cells_of os = sc1 ++ sc2 ++ sc3 ->
    RL hk ts sc2 ds2 nss2 -> RL hk ts dc2 d02 nsd2 ->
    NoDup (d :: nsd2) -> (forall l, In l (d :: nsd2) -> ~ In l (s :: nss2)) ->
    exists h' dc2', cells_loop d s ts (length dc1) (length sc1) hk = Some h' /\ confined hk h' (d :: nsd2) /\
                    lookup h' d = Some (with_cells od (dc1 ++ dc2' ++ dc3)) /\ RL h' ts dc2' ds2 nsd2.
Proof.
  induction 1 as [|f ts Hf Hts IH]; intros od dc2 sc2 ds2 d02 nss2 nsd2 dc1 sc1 dc3 sc3 os hk W Ld Cd Ls Cs RS RD ND Disj.
  - inversion RS; subst. inversion RD; subst. exists hk, []. simpl.
    split; [reflexivity|]. split; [apply confined_refl, W|]. split; [|constructor].
    simpl in Cd. rewrite <- Cd, with_cells_id. assumption.
  - inversion RS as [|? ? sv sc2' df ds2' ns1 ns2' RSf RSr]; subst.
    inversion RD as [|? ? dv dc2' d0f d02' nd1 nd2' RDf RDr]; subst.
    simpl in Cd, Cs. simpl. unfold get_cell at 1 2. rewrite Ls, Cs, Ld, Cd, !nth_error_app_mid.
    (* the nodes of this cell and of the remaining cells are kept apart by the hypotheses on the whole window;
       [auto with datatypes] finds membership in a concatenation *)
    inversion ND as [|? ? Hd ND']; subst. apply NoDup_app_iff in ND' as (ND1 & ND2 & D12).
    destruct (cell_copy_ok f d od dc1 dv (dc2' ++ dc3) sv df d0f ns1 nd1 hk Hf W Ld Cd RSf RDf)
      as (h1 & dv' & C1 & K1 & Ld1 & R1); [auto with datatypes | auto with datatypes | intros l Hl Hl'; apply (Disj l); auto with datatypes |].
    rewrite C1.
    destruct (IH (with_cells od (dc1 ++ dv' :: dc2' ++ dc3)) dc2' sc2' ds2' d02' ns2' nd2' (dc1 ++ [dv']) (sc1 ++ [sv]) dc3 sc3 os h1)
      as (h' & dc' & L & K' & Ld' & RL'); auto with datatypes.
    + exact (proj1 K1).
    + (* the destination's cells, with this one moved to the done part *) rewrite cells_with_cells, <- app_assoc. reflexivity.
    + (* the source object is untouched *)
      rewrite (confined_lookup K1); [assumption | intro Hin; apply (Disj s); [destruct Hin as [->|Hin]|]; auto with datatypes].
    + rewrite <- app_assoc. assumption.
    + (* the remaining source cells read as before *)
      apply (confined_RL K1 RSr). intros l Hl Hin. apply (Disj l); [destruct Hin as [->|Hin]|]; auto with datatypes.
    + (* so do the remaining destination cells *)
      apply (confined_RL K1 RDr). intros l Hl [<-|Hin]; [auto with datatypes | apply (D12 l); auto with datatypes].
    + constructor; auto with datatypes.
    + intros l Hl Hl'. apply (Disj l); [destruct Hl as [<-|Hl] | destruct Hl' as [<-|Hl']]; auto with datatypes.
    + (* the loop's result: this cell, then the rest *)
      rewrite !app_length, !Nat.add_1_r in L. exists h', (dv' :: dc'). rewrite L.
      split; [reflexivity|]. split; [|split].
      * apply (@confined_trans _ h1); [apply (confined_incl _ K1) | apply (confined_incl _ K')]; auto with datatypes.
      * rewrite Ld', with_cells_twice, <- app_assoc. reflexivity.
      * constructor; [|assumption]. apply (confined_R K' R1). intros l Hl [<-|Hin]; [auto with datatypes | exact (D12 l Hl Hin)].
Qed.

Lemma RL_leaves {h e n vs ds ns} : is_node e = false -> RL h (repeat e n) vs ds ns -> ns = [].
Proof.
  intro He. revert vs ds ns. induction n as [|n IH]; intros vs ds ns H; simpl in H; inversion H as [|? ? v vs' d ds' n1 n2 Hv Hr]; subst.
  - reflexivity.
  - destruct (R_leaf He Hv) as (-> & _). exact (IH _ _ _ Hr).
Qed.

(* $copyArray between windows of two different array objects whose destination is readable throughout: the window
   receives the deep values of the source window, in the nodes it already owns; the parts before and after it are
   untouched.  A typed source array is moved by TypedArray.set, an ordinary one element by element, forwards because
   the objects differ. *)
Lemma copy_array_window_ok e d s n dt st t1 t3 dc1 dc2 dc3 dd1 dd2 dd3 nd1 nd2 nd3 sc1 sc2 sc3 ds2 nss2 h :
  copy_ok e -> wf h ->
  lookup h d = Some (OArr dt (dc1 ++ dc2 ++ dc3)) ->
  lookup h s = Some (OArr st (sc1 ++ sc2 ++ sc3)) -> (st = true -> is_node e = false) ->
  RL h t1 dc1 dd1 nd1 -> RL h (repeat e n) dc2 dd2 nd2 -> RL h t3 dc3 dd3 nd3 -> RL h (repeat e n) sc2 ds2 nss2 ->
  NoDup (d :: nd1 ++ nd2 ++ nd3) -> (forall l, In l (d :: nd1 ++ nd2 ++ nd3) -> ~ In l (s :: nss2)) ->
  exists h' dc2', copy_array (copy e) (is_node e) h d s (length dc1) (length sc1) n = Some h' /\
    confined h h' (d :: nd1 ++ nd2 ++ nd3) /\
    lookup h' d = Some (OArr dt (dc1 ++ dc2' ++ dc3)) /\ length dc2' = n /\
    RL h' (t1 ++ repeat e n ++ t3) (dc1 ++ dc2' ++ dc3) (dd1 ++ ds2 ++ dd3) (nd1 ++ nd2 ++ nd3).
Proof.
  intros He W Ld Ls Hst R1 RD R3 RS ND Dj.
  assert (Hds : d <> s) by (intros ->; apply (Dj s); left; reflexivity).
  inversion ND as [|? ? Hd ND']; subst.
  apply NoDup_app_iff in ND' as (_ & ND' & D1). apply NoDup_app_iff in ND' as (N2 & _ & D23).
  (* the window itself: only d and the window's own nodes are stored into *)
  assert (exists h' dc2', copy_array (copy e) (is_node e) h d s (length dc1) (length sc1) n = Some h' /\
            confined h h' (d :: nd2) /\ lookup h' d = Some (OArr dt (dc1 ++ dc2' ++ dc3)) /\ RL h' (repeat e n) dc2' ds2 nd2)
    as (h' & dc2' & CA & K & Ld' & R2').
  { destruct (RL_repeat_length RS) as [Lsc _]. destruct (RL_repeat_length RD) as [Ldc _].
    destruct (Nat.eq_dec n 0) as [->|Hn].
    { rewrite copy_array_skip by (left; reflexivity).
      inversion RS; inversion RD; subst. exists h, []. auto using confined_refl. }
    destruct st.
    - specialize (Hst eq_refl).
      rewrite (copy_array_typed Hn (or_introl Hds) Ls Ld) by (rewrite !app_length; lia).
      replace (sublist (sc1 ++ sc2 ++ sc3) (length sc1) n) with sc2 by (rewrite <- Lsc; symmetry; apply sublist_mid).
      rewrite splice_mid by lia.
      set (h' := store h d (OArr dt (dc1 ++ sc2 ++ dc3))).
      pose proof (RL_leaves Hst RS) as ->. pose proof (RL_leaves Hst RD) as ->.
      pose proof (confined_store (OArr dt (dc1 ++ sc2 ++ dc3)) W Ld) as K.
      exists h', sc2. split; [reflexivity|]. split; [exact K|].
      split; [apply lookup_store_same | apply (confined_RL K RS); intros l []].
    - rewrite (copy_array_untyped Hn (or_introl Hds) Ls Ld).
      replace (Nat.eqb d s) with false by (symmetry; apply Nat.eqb_neq; assumption). simpl andb. cbv iota.
      rewrite copy_loop_cells.
      apply (cells_loop_ok d s (repeat e n) (Forall_repeat _ _ _ He) (OArr dt (dc1 ++ dc2 ++ dc3)) dc2 sc2 ds2 dd2 nss2 nd2
                           dc1 sc1 dc3 sc3 (OArr false (sc1 ++ sc2 ++ sc3)) h); auto.
      + constructor; [intro Hin; apply Hd; auto with datatypes | exact N2].
      + intros l [<-|Hl]; apply Dj; auto 6 with datatypes. }
  destruct (RL_repeat_length R2') as [Lc _].
  exists h', dc2'. split; [exact CA|]. split; [apply (confined_incl _ K); auto with datatypes|]. split; [exact Ld'|].
  split; [exact Lc|]. apply RL_app; [|apply RL_app; [exact R2'|]].
  - apply (confined_RL K R1). intros x Hx [<-|Hin]; [auto with datatypes | exact (D1 x Hx (in_or_app _ _ _ (or_introl Hin)))].
  - apply (confined_RL K R3). intros x Hx [<-|Hin]; [auto 6 with datatypes | exact (D23 x Hin Hx)].
Qed.

Lemma copy_ok_all : forall t, copy_ok t.
Proof.
  induction t as [| | | n e IH | fs IH] using ty_ind'; intro Hn; try discriminate;
    intros h dst src d d0 nss nsd W RS RD ND Disj.
  - (* TArr *)
    inversion RS as [| | |? ? s sc ds nss' Ls RLs|]; subst.
    inversion RD as [| | |? ? dd dc d0s nsd' Ld RLd|]; subst.
    destruct (RL_repeat_length RLs) as [Lsc _].
    simpl copy. rewrite Ls, Lsc.
    destruct (copy_array_window_ok e dd s n (is_num e) (is_num e) [] [] [] dc [] [] d0s [] [] nsd' [] [] sc [] ds nss' h IH W)
      as (h' & dc' & L & K' & Ld' & _ & RL'); rewrite ?app_nil_r; auto using num_not_node, RL_nil.
    simpl in K', Ld', RL'. rewrite !app_nil_r in *. exists h'. split; [exact L|]. split; [exact K' | eapply R_arr; eauto].
  - (* TStruct *)
    inversion RS as [| | | |? s sc ds nss' Ls RLs]; subst.
    inversion RD as [| | | |? dd dc d0s nsd' Ld RLd]; subst.
    rewrite copy_struct_loop.
    destruct (cells_loop_ok dd s fs IH (OStruct dc) dc sc ds d0s nss' nsd' [] [] [] [] (OStruct sc) h)
      as (h' & dc' & L & K' & Ld' & RL'); simpl cells_of; rewrite ?app_nil_r; auto.
    simpl in L, Ld'. rewrite app_nil_r in Ld'. exists h'. split; [exact L|]. split; [exact K' | eapply R_struct; eauto].
Qed.

Theorem clone_ok t h src d nss :
  is_node t = true -> wf h -> R h t src d nss ->
  exists c h' nsc, clone t h src = Some (c, h') /\ grown h h' nsc /\ R h' t c d nsc.
Proof.
  intros Hn W RS. unfold clone. destruct (zero t h) as [c h1] eqn:Z.
  destruct (zero_ok_all t h c h1 W Z) as (d0 & nsc & G & RC). pose proof G as (W1 & _ & _ & DC & _).
  destruct (copy_ok_all t Hn h1 c src d d0 nss nsc W1 (grown_R W G RS) RC DC (grown_apart W G RS)) as (h2 & C2 & K2 & R2).
  rewrite C2. exists c, h2, nsc. split; [reflexivity|]. split; [exact (grown_confined G K2) | exact R2].
Qed.

Lemma set_cell_other h l i v h' : set_cell h l i v = Some h' -> forall l', l' <> l -> lookup h' l' = lookup h l'.
Proof.
  unfold set_cell. destruct (lookup h l) as [o|]; [|discriminate]. destruct (set_nth (cells_of o) i v); [|discriminate].
  intro E; inversion E; subst. intros. apply lookup_store_other. assumption.
Qed.

(* reference-kind fields are copied by reference: equal deep values store the same reference identity *)
Lemma RL_ref_field h fs cs ss ds n1 n2 :
  RL h fs cs ds n1 -> RL h fs ss ds n2 -> forall i, nth_error fs i = Some TRef ->
  nth_error cs i = nth_error ss i /\ exists z, nth_error cs i = Some (VNum z).
Proof.
  intros H. revert ss n2. induction H as [|t ts v vs d ds n1 n2 Hv Hvs IH]; intros ss n2' H' i Hi; [destruct i; discriminate|].
  inversion H' as [|? ? v' ? ? ? ? ? Hv' Hvs']; subst. destruct i as [|i]; simpl in *.
  - inversion Hi; subst. inversion Hv; subst. inversion Hv'; subst. eauto.
  - eapply IH; eauto.
Qed.

Lemma wf_empty : wf empty_heap.
Proof. intros l o H. discriminate. Qed.
