(* C07 — facts about lists, and about the list functions of the heap model ([set_nth], [sublist], [splice]), that need no heap:
   the middle of [l1 ++ l2 ++ l3], what [set_nth] and [splice] leave at each position, duplicate-free concatenations. *)
From Coq Require Import List Arith Lia.
From Verif Require Import Base.Lists Model.C07_Heap.
Import ListNotations.

Lemma Forall_repeat {A} (P : A -> Prop) x n : P x -> Forall P (repeat x n).
Proof. intros. induction n; simpl; constructor; auto. Qed.

Lemma set_nth_app {A} (l1 l2 : list A) x y : set_nth (l1 ++ x :: l2) (length l1) y = Some (l1 ++ y :: l2).
Proof. induction l1; simpl; [reflexivity | rewrite IHl1; reflexivity]. Qed.

Lemma nth_error_app_mid {A} (l1 l2 : list A) x : nth_error (l1 ++ x :: l2) (length l1) = Some x.
Proof. induction l1; simpl; auto. Qed.

Lemma sublist_mid {A} (l1 l2 l3 : list A) : sublist (l1 ++ l2 ++ l3) (length l1) (length l2) = l2.
Proof. unfold sublist. rewrite skipn_app_exact. apply firstn_app_exact. Qed.

Lemma splice_mid {A} (l1 l2 l3 x : list A) : length x = length l2 -> splice (l1 ++ l2 ++ l3) (length l1) x = l1 ++ x ++ l3.
Proof.
  intro H. unfold splice. rewrite firstn_app_exact, H, <- app_length, (app_assoc l1 l2 l3), skipn_app_exact. reflexivity.
Qed.

Lemma nth_some {A} (l : list A) p : p < length l -> exists x, nth_error l p = Some x.
Proof. intro H. destruct (nth_error l p) eqn:E; [eauto|]. apply nth_error_None in E. lia. Qed.

Lemma nth_error_firstn_lt {A} (l : list A) n i : i < n -> nth_error (firstn n l) i = nth_error l i.
Proof. revert n i. induction l as [|x l IH]; intros [|n] [|i] H; simpl; try reflexivity; try lia. apply IH. lia. Qed.

Lemma set_nth_spec {A} (l : list A) i v : i < length l ->
  exists l', set_nth l i v = Some l' /\ length l' = length l /\ forall p, nth_error l' p = if Nat.eqb p i then Some v else nth_error l p.
Proof.
  revert i. induction l as [|x l IH]; intros [|i] H; simpl in *; try lia.
  - eexists. split; [reflexivity|]. split; [reflexivity|]. intros [|p]; reflexivity.
  - destruct (IH i) as (r & E & L & P); [lia|]. rewrite E. eexists. split; [reflexivity|]. split; [simpl; lia|]. intros [|p]; simpl; [reflexivity | apply P].
Qed.

(* TypedArray.set(subarray) reads all of the source before it writes *)
Lemma nth_error_splice {A} (l m : list A) dO sO n p :
  sO + n <= length m -> dO + n <= length l ->
  nth_error (splice l dO (sublist m sO n)) p =
  if (Nat.leb dO p && Nat.ltb p (dO + n))%bool then nth_error m (sO + (p - dO)) else nth_error l p.
Proof.
  intros Hs Hd. unfold splice, sublist.
  assert (Ls : length (firstn n (skipn sO m)) = n) by (rewrite firstn_length, skipn_length; lia).
  rewrite Ls.
  destruct (Nat.leb_spec dO p); simpl.
  - rewrite nth_error_app2 by (rewrite firstn_length; lia). rewrite firstn_length, Nat.min_l by lia.
    destruct (Nat.ltb_spec p (dO + n)).
    + rewrite nth_error_app1 by lia. rewrite nth_error_firstn_lt by lia. apply nth_error_skipn.
    + rewrite nth_error_app2 by lia. rewrite Ls, nth_error_skipn. f_equal. lia.
  - rewrite nth_error_app1 by (rewrite firstn_length; lia). apply nth_error_firstn_lt. assumption.
Qed.

Lemma splice_sublist_length {A} (l : list A) dO sO n :
  dO + n <= length l -> length (splice l dO (sublist l sO n)) = length l.
Proof.
  intro Hd. unfold splice, sublist. rewrite !app_length, firstn_length, firstn_length, !skipn_length. lia.
Qed.

Lemma In_concat_nth {A} (nss : list (list A)) p np l :
  nth_error nss p = Some np -> In l np -> In l (concat nss).
Proof. intros H Hl. apply in_concat. exists np. split; [exact (nth_error_In _ _ H) | exact Hl]. Qed.

Lemma NoDup_concat_nth {A} (nss : list (list A)) p np :
  NoDup (concat nss) -> nth_error nss p = Some np -> NoDup np.
Proof.
  revert p. induction nss as [|x nss IH]; intros [|p] ND H; simpl in *; try discriminate;
    apply NoDup_app_iff in ND as (N1 & N2 & _).
  - inversion H; subst. assumption.
  - eapply IH; eauto.
Qed.

Lemma NoDup_concat_disj {A} (nss : list (list A)) : forall p q x y l,
  NoDup (concat nss) -> p <> q -> nth_error nss p = Some x -> nth_error nss q = Some y -> In l x -> ~ In l y.
Proof.
  induction nss as [|z nss IH]; intros [|p] [|q] x y l ND Hpq Hp Hq Hl; simpl in *; try discriminate; try congruence;
    apply NoDup_app_iff in ND as (_ & N2 & D).
  - inversion Hp; subst. intro Hy. eapply D; eauto. eapply In_concat_nth; eauto.
  - inversion Hq; subst. intro Hy. eapply D; eauto. eapply In_concat_nth; eauto.
  - eapply (IH p q); eauto.
Qed.
