(* C07 — $copyArray on one array with overlapping windows (copy(s[1:], s) and friends) has memmove semantics:
   every destination cell ends up with the ORIGINAL content of the corresponding source cell.
   The forwards / backwards index loops are treated once, for any per-element step that moves "the content" of
   position sO+i to position dO+i; here the step is instantiated for elements that are not arrays/structs (plain
   stores), together with the typed-array branch (TypedArray.set); Proofs/C07_P4_Overlap.v instantiates it for
   array/struct elements. *)
From Coq Require Import List ZArith Bool Arith Lia.
From Verif Require Import Model.C07_Heap Proofs.C07_Lists Proofs.C07_Clone.
Import ListNotations.

(* contents after the positions lo .. hi-1 of the destination window have been moved; [f] reads the original *)
Definition tgt {A} (f : nat -> option A) (dO sO lo hi p : nat) : option A :=
  if (Nat.leb lo p && Nat.ltb p hi)%bool then f (sO + (p - dO)) else f p.

Lemma tgt_id {A} (f : nat -> option A) dO sO lo hi p : hi <= lo \/ (sO = dO /\ dO <= lo) -> tgt f dO sO lo hi p = f p.
Proof. intro H. unfold tgt. destruct (Nat.leb_spec lo p), (Nat.ltb_spec p hi); simpl; try reflexivity. f_equal. lia. Qed.

(* moving position dO+i as well, after the positions lo .. hi-1: it receives the ORIGINAL content of position sO+i
   provided that position is not among those already overwritten *)
Lemma tgt_step {A} (f : nat -> option A) dO sO lo hi lo' hi' i p :
  ~ lo <= sO + i < hi -> (forall x, lo' <= x < hi' <-> lo <= x < hi \/ x = dO + i) ->
  (if Nat.eqb p (dO + i) then tgt f dO sO lo hi (sO + i) else tgt f dO sO lo hi p) = tgt f dO sO lo' hi' p.
Proof.
  (* cases: where p lies in the new and in the old interval and, for p = dO+i, where sO+i lies in the old one *)
  intros Hsrc Hnew. specialize (Hnew p). unfold tgt.
  destruct (Nat.leb_spec lo' p), (Nat.ltb_spec p hi'), (Nat.eqb_spec p (dO + i)) as [->|Hp]; simpl.
  all: try (destruct (Nat.leb_spec lo (sO + i)), (Nat.ltb_spec (sO + i) hi); simpl; try lia; f_equal; lia).
  all: destruct (Nat.leb_spec lo p), (Nat.ltb_spec p hi); simpl; try reflexivity; lia.
Qed.

Section Loop.
  Variables (A : Type) (step : heap -> nat -> option heap) (Inv : (nat -> option A) -> heap -> Prop) (dO sO n : nat).
  (* [Inv f h]: position p of the array currently holds content [f p] *)
  Hypothesis Inv_ext : forall f g h, (forall p, f p = g p) -> Inv f h -> Inv g h.
  Hypothesis step_ok : forall f h i, i < n -> Inv f h ->
    exists h', step h i = Some h' /\ Inv (fun p => if Nat.eqb p (dO + i) then f (sO + i) else f p) h'.
  Variable f : nat -> option A.

  Lemma forward_ok : dO <= sO -> forall m k h,
    k + m <= n -> Inv (tgt f dO sO dO (dO + k)) h ->
    exists h', copy_loop step (seq k m) h = Some h' /\ Inv (tgt f dO sO dO (dO + (k + m))) h'.
  Proof.
    intros Hle. induction m as [|m IH]; intros k h Hlen I.
    - exists h. split; [reflexivity|]. rewrite Nat.add_0_r. assumption.
    - destruct (step_ok _ h k ltac:(lia) I) as (h1 & S1 & I1).
      destruct (IH (S k) h1) as (h' & L' & I'); [lia | |].
      + (* the source sO+k of position dO+k lies further on than everything overwritten so far *)
        eapply Inv_ext; [|exact I1]. intro p. apply tgt_step; [|intro x]; lia.
      + exists h'. simpl. rewrite S1. split; [exact L'|]. replace (k + S m) with (S k + m) by lia. assumption.
  Qed.

  Lemma backward_ok : sO < dO -> forall m h,
    m <= n -> Inv (tgt f dO sO (dO + m) (dO + n)) h ->
    exists h', copy_loop step (rev (seq 0 m)) h = Some h' /\ Inv (tgt f dO sO dO (dO + n)) h'.
  Proof.
    intros Hlt. induction m as [|m IH]; intros h Hm I.
    - exists h. split; [reflexivity|]. rewrite Nat.add_0_r in I. assumption.
    - destruct (step_ok _ h m ltac:(lia) I) as (h1 & S1 & I1).
      destruct (IH h1) as (h' & L' & I'); [lia | |].
      + (* the source sO+m of position dO+m lies before everything overwritten so far *)
        eapply Inv_ext; [|exact I1]. intro p. apply tgt_step; [|intro x]; lia.
      + exists h'. rewrite seq_S, rev_app_distr. simpl. rewrite S1. split; assumption.
  Qed.

  (* $copyArray's choice of direction makes either loop a memmove *)
  Lemma memmove_loop h : Inv f h ->
    exists h', copy_loop step (if Nat.ltb sO dO then rev (seq 0 n) else seq 0 n) h = Some h' /\ Inv (tgt f dO sO dO (dO + n)) h'.
  Proof.
    intro I. destruct (Nat.ltb_spec sO dO) as [Hlt|Hge].
    - apply (backward_ok Hlt n h (le_n _)). eapply Inv_ext; [|exact I]. intro p. symmetry. apply tgt_id. lia.
    - apply (forward_ok Hge n 0 h (le_n _)). eapply Inv_ext; [|exact I]. intro p. symmetry. apply tgt_id. lia.
  Qed.
End Loop.

(* the array [a] holds the contents [f], everything else is as in [h0] *)
Definition leaf_inv (a : nat) (ty : bool) (N : nat) (h0 : heap) (f : nat -> option val) (hk : heap) : Prop :=
  exists cells, lookup hk a = Some (OArr ty cells) /\ length cells = N /\ (forall p, nth_error cells p = f p) /\
                (forall x, x <> a -> lookup hk x = lookup h0 x).

Lemma leaf_step_ok cp a ty N h0 dO sO n : sO + n <= N -> dO + n <= N -> forall f hk i,
  i < n -> leaf_inv a ty N h0 f hk ->
  exists h', elem_step cp false a a dO sO hk i = Some h' /\
             leaf_inv a ty N h0 (fun p => if Nat.eqb p (dO + i) then f (sO + i) else f p) h'.
Proof.
  intros Hs Hd f hk i Hi (cells & L & Len & P & F). unfold elem_step, get_cell, set_cell. rewrite L. cbn [cells_of with_cells].
  destruct (nth_error cells (sO + i)) as [sv|] eqn:E1; [|apply nth_error_None in E1; lia].
  destruct (set_nth_spec cells (dO + i) sv) as (c1 & E2 & L1 & P1); [lia|]. rewrite E2.
  eexists. split; [reflexivity|]. exists c1. split; [apply lookup_store_same|]. split; [lia|]. split.
  - intro p. rewrite P1, <- P, E1. destruct (Nat.eqb p (dO + i)); [reflexivity | apply P].
  - intros x Hx. rewrite lookup_store_other by assumption. auto.
Qed.

Lemma copy_array_leaf_ok cp h a ty cells dO sO n :
  lookup h a = Some (OArr ty cells) -> sO + n <= length cells -> dO + n <= length cells ->
  exists h' cells', copy_array cp false h a a dO sO n = Some h' /\
    lookup h' a = Some (OArr ty cells') /\ length cells' = length cells /\
    (forall p, nth_error cells' p = tgt (nth_error cells) dO sO dO (dO + n) p) /\
    (forall x, x <> a -> lookup h' x = lookup h x).
Proof.
  intros L Hs Hd. destruct (Nat.eq_dec n 0) as [Hn0|Hn0]; [|destruct (Nat.eq_dec dO sO) as [Hne|Hne]].
  1-2: rewrite copy_array_skip by tauto; exists h, cells; repeat split; auto; intro p; symmetry; apply tgt_id; lia.
  destruct ty.
  - rewrite (copy_array_typed Hn0 (or_intror Hne) L L Hs Hd).
    eexists. eexists. split; [reflexivity|]. split; [apply lookup_store_same|].
    split; [apply splice_sublist_length; assumption|].
    split; [intro p; apply nth_error_splice; assumption | intros; apply lookup_store_other; assumption].
  - rewrite (copy_array_untyped Hn0 (or_intror Hne) L L), Nat.eqb_refl. simpl andb.
    assert (Ext : forall f g hk, (forall p, f p = g p) ->
                   leaf_inv a false (length cells) h f hk -> leaf_inv a false (length cells) h g hk).
    { intros f g hk Hfg (c & ? & ? & Pc & ?). exists c. repeat split; auto. intro p. rewrite <- Hfg. apply Pc. }
    destruct (memmove_loop val _ _ dO sO n Ext (leaf_step_ok cp a false (length cells) h dO sO n Hs Hd) (nth_error cells) h)
      as (h' & E & cells' & L' & Len & P & F); [exists cells; auto|].
    exists h', cells'. auto.
Qed.
