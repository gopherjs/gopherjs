(* C07 — the translator's copy decisions are sound.  [decide] looks at the type shape only through
   [underlying_value] and at the expression class only through [is_composite_lit_node]: once those two booleans are
   fixed, every statement is a case analysis on the context.  Props/C07.v proves the other statements about the
   table from the lemmas here. *)
From Coq Require Import List Bool Arith Lia.
From Verif Require Import Model.C07_Decision.
Import ListNotations.

Theorem decision_depends_on_literal_only : forall c sh e e',
  is_composite_lit_node e = is_composite_lit_node e' -> decide c sh e = decide c sh e'.
Proof. intros c sh e e' H. unfold decide, translate_assign. rewrite H. reflexivity. Qed.

Lemma alias_not_literal e : may_alias e = true -> is_composite_lit_node e = false.
Proof. destruct e; (reflexivity || discriminate). Qed.

Lemma literal_iff e : is_composite_lit_node e = true <-> e = ECompLit.
Proof. destruct e; split; (reflexivity || discriminate). Qed.

Lemma sound_nonliteral c sh e :
  underlying_value sh = true -> stores c = true -> finding c = false -> is_composite_lit_node e = false ->
  copies_value c sh e = true.
Proof.
  intros U S F L. unfold copies_value, decide, translate_assign, with_cloning. rewrite U, L.
  (* with the two booleans rewritten every row of [decide] is a closed record; the rows that emit nothing are the ones [stores] and [finding] exclude *)
  destruct c; try reflexivity; discriminate.
Qed.

Theorem clone_decision_sound : forall c sh e,
  underlying_value sh = true -> stores c = true -> finding c = false -> may_alias e = true ->
  copies_value c sh e = true.
Proof. intros c sh e U S F A. apply sound_nonliteral; auto using alias_not_literal. Qed.

(* a copy that is neither a T.copy nor left to a run-time helper is an emitted $clone *)
Lemma copies_by_clone c sh e :
  copies_value c sh e = true -> em_copies (decide c sh e) = 0 -> em_runtime (decide c sh e) = false ->
  0 < em_clones (decide c sh e).
Proof.
  unfold copies_value. intros S Hc Hr. rewrite Hr, Hc in S. simpl in S. rewrite !orb_false_r in S.
  apply Nat.ltb_lt in S. exact S.
Qed.

Lemma own_clones_reference sh e : underlying_value sh = false -> own_clones sh e = 0.
Proof. intros U. unfold own_clones. rewrite U. destruct e; reflexivity. Qed.

Lemma decide_reference c sh e : underlying_value sh = false -> decide c sh e = em_none.
Proof.
  intros U. unfold decide, translate_assign, with_cloning. rewrite U.
  destruct c; try reflexivity; destruct (is_composite_lit_node e); reflexivity.
Qed.
