(* C07 — $copyArray on ONE untyped backing array with overlapping windows and ARRAY/STRUCT elements (enode = true):
   memmove semantics on DEEP VALUES.  Every destination element ends with the ORIGINAL deep value of its source
   element, the element nodes (and hence the cell list of the backing array, i.e. pointers to elements) stay the
   same, nothing outside the element nodes changes.  Unbounded over element type, nesting, length and offsets.
   [copy_array_deep] joins this with the two-array case ([copy_array_window_ok], Proofs/C07_Clone.v): $copyArray on
   readable arrays. *)
From Coq Require Import List ZArith Bool Arith Lia.
From Verif Require Import Model.C07_Heap Proofs.C07_Lists Proofs.C07_Clone Proofs.C07_Memmove.
Import ListNotations.

(* pointwise reading: element p of [vs] has deep value [f p] and owns the nodes [nss[p]] *)
Definition PW (h : heap) (e : ty) (vs : list val) (nss : list (list nat)) (f : nat -> option dval) : Prop :=
  forall p v np, nth_error vs p = Some v -> nth_error nss p = Some np -> exists d, f p = Some d /\ R h e v d np.

Lemma RL_to_PW h e : forall k vs ds ns,
  RL h (repeat e k) vs ds ns ->
  exists nss, ns = concat nss /\ length nss = length vs /\ PW h e vs nss (nth_error ds).
Proof.
  induction k as [|k IH]; intros vs ds ns H; simpl in H.
  - inversion H; subst. exists []. split; [reflexivity|]. split; [reflexivity|].
    intros [|p] v np Hv; discriminate.
  - inversion H as [|? ? v vs' d ds' n1 n2 Hv Hr]; subst.
    destruct (IH _ _ _ Hr) as (nss & -> & Ln & P).
    exists (n1 :: nss). split; [reflexivity|]. split; [simpl; congruence|].
    intros [|p] v0 np H1 H2; simpl in *.
    + inversion H1; inversion H2; subst. eauto.
    + eapply P; eauto.
Qed.

Lemma PW_to_RL h e : forall vs ds nss,
  length ds = length vs -> length nss = length vs -> PW h e vs nss (nth_error ds) ->
  RL h (repeat e (length vs)) vs ds (concat nss).
Proof.
  induction vs as [|v vs IH]; intros [|d ds] [|n1 nss] L1 L2 P; simpl in *; try discriminate.
  - constructor.
  - destruct (P 0 v n1 eq_refl eq_refl) as (d' & E & Rv). simpl in E. inversion E; subst.
    constructor; [assumption|]. apply IH; [lia | lia |].
    intros p v0 np H1 H2. apply (P (S p)); assumption.
Qed.

Section SameArray.
  Variables (e : ty) (a : nat) (cells : list val) (nss : list (list nat)) (h0 : heap) (dO sO n : nat).
  Hypothesis En : is_node e = true.
  Hypothesis ND : NoDup (concat nss).
  Hypothesis Ha : ~ In a (concat nss).
  Hypothesis Lnss : length nss = length cells.
  Hypothesis Hne : dO <> sO.
  Hypothesis Hs : sO + n <= length cells.
  Hypothesis Hd : dO + n <= length cells.

  (* the array keeps its cells, element p has deep value [f p] in its own nodes, nothing else has changed *)
  Definition Inv (f : nat -> option dval) (hk : heap) : Prop :=
    confined h0 hk (concat nss) /\ lookup hk a = Some (OArr false cells) /\ PW hk e cells nss f.

  Lemma Inv_ext f g hk : (forall p, f p = g p) -> Inv f hk -> Inv g hk.
  Proof.
    intros E (K & L & P). split; [exact K|]. split; [exact L|].
    intros p v np H1 H2. destruct (P p v np H1 H2) as (d & Ed & Rd). exists d. rewrite <- E. auto.
  Qed.

  Lemma step_ok f hk i :
    i < n -> Inv f hk ->
    exists h1, elem_step (copy e) true a a dO sO hk i = Some h1 /\
               Inv (fun p => if Nat.eqb p (dO + i) then f (sO + i) else f p) h1.
  Proof.
    intros Hi (K & L & P).
    destruct (nth_some cells (dO + i)) as [dv Edv]; [lia|].
    destruct (nth_some cells (sO + i)) as [sv Esv]; [lia|].
    destruct (nth_some nss (dO + i)) as [nd End]; [lia|].
    destruct (nth_some nss (sO + i)) as [nsr Ensr]; [lia|].
    destruct (P _ _ _ Edv End) as (dd & Fd & Rd).
    destruct (P _ _ _ Esv Ensr) as (sd & Fs & Rs).
    assert (NDd : NoDup nd) by (eapply NoDup_concat_nth; eauto).
    assert (Dj : forall l, In l nd -> ~ In l nsr).
    { intros l Hl. apply (NoDup_concat_disj nss (dO + i) (sO + i) nd nsr l ND); auto. lia. }
    assert (I : incl nd (concat nss)) by (intros l Hl; exact (In_concat_nth nss _ nd l End Hl)).
    destruct (copy_ok_all e En hk dv sv sd dd nsr nd (proj1 K) Rs Rd NDd Dj) as (h1 & C & K1 & R1).
    exists h1. split.
    { unfold elem_step, get_cell. rewrite L. simpl cells_of. rewrite Edv, Esv. exact C. }
    split; [exact (confined_trans K (confined_incl _ K1 I))|]. split.
    { rewrite (confined_lookup K1); [assumption|]. intro Hin. exact (Ha (I _ Hin)). }
    intros p v np H1 H2. destruct (Nat.eqb_spec p (dO + i)) as [->|Hp].
    - rewrite Edv in H1. rewrite End in H2. inversion H1; inversion H2; subst. eauto.
    - destruct (P _ _ _ H1 H2) as (d & Fp & Rp). exists d. split; [assumption|].
      apply (confined_R K1 Rp). intros l Hl Hin.
      exact (NoDup_concat_disj nss p (dO + i) np nd l ND Hp H2 End Hl Hin).
  Qed.
End SameArray.

Theorem copy_array_overlap_nodes : forall e h a cells ds ns dO sO n,
  is_node e = true -> wf h ->
  lookup h a = Some (OArr false cells) ->
  RL h (repeat e (length cells)) cells ds ns -> NoDup ns -> ~ In a ns ->
  sO + n <= length cells -> dO + n <= length cells ->
  exists h' ds',
    copy_array (copy e) true h a a dO sO n = Some h' /\
    wf h' /\
    lookup h' a = Some (OArr false cells) /\
    RL h' (repeat e (length cells)) cells ds' ns /\
    length ds' = length ds /\
    (forall p, nth_error ds' p = tgt (nth_error ds) dO sO dO (dO + n) p) /\
    (forall l, ~ In l ns -> lookup h' l = lookup h l).
Proof.
  intros e h a cells ds ns dO sO n En W L RLh ND Ha Hs Hd.
  destruct (Nat.eq_dec n 0) as [Hn0|Hn0]; [|destruct (Nat.eq_dec dO sO) as [Hne|Hne]].
  1-2: rewrite copy_array_skip by tauto; exists h, ds; repeat split; auto; intro p; symmetry; apply tgt_id; lia.
  destruct (RL_repeat_length RLh) as [_ Lds].
  destruct (RL_to_PW h e _ _ _ _ RLh) as (nss & -> & Lnss & P).
  rewrite (copy_array_untyped Hn0 (or_intror Hne) L L), Nat.eqb_refl. simpl andb.
  destruct (memmove_loop dval _ _ dO sO n (Inv_ext e a cells nss h)
              (step_ok e a cells nss h dO sO n En ND Ha Lnss Hne Hs Hd) (nth_error ds) h)
    as (h' & CL & K' & L' & P'); [split; [apply confined_refl, W | split; assumption]|].
  exists h', (splice ds dO (sublist ds sO n)).
  split; [exact CL|]. split; [exact (proj1 K')|]. split; [assumption|].
  assert (Len : length (splice ds dO (sublist ds sO n)) = length ds) by (apply splice_sublist_length; lia).
  split.
  { apply PW_to_RL; [lia | assumption |].
    intros p v np H1 H2. destruct (P' p v np H1 H2) as (d & E & Rd). exists d. split; [|assumption].
    rewrite nth_error_splice by lia. exact E. }
  split; [assumption|]. split; [|exact (confined_lookup K')].
  intro p. apply nth_error_splice; lia.
Qed.

Print Assumptions copy_array_overlap_nodes.

(* $copyArray between two readable arrays (any element type), or within one array of arrays/structs: on deep values it
   is a memmove.  The destination window receives the ORIGINAL deep values of the source window, into the element
   nodes the destination already owns; every other element keeps its deep value.  This is what the copy builtin and
   an append within capacity do to the backing array. *)
Theorem copy_array_deep e h d s dO sO n dt cells ds ns st scells dss nsrc :
  wf h -> lookup h d = Some (OArr dt cells) ->
  RL h (repeat e (length cells)) cells ds ns -> NoDup ns -> ~ In d ns ->
  lookup h s = Some (OArr st scells) -> (st = true -> is_node e = false) ->
  RL h (repeat e (length scells)) scells dss nsrc ->
  dO + n <= length cells -> sO + n <= length scells ->
  (s = d -> is_node e = true) ->
  (s <> d -> ~ In s ns /\ ~ In d nsrc /\ (forall x, In x ns -> ~ In x nsrc)) ->
  exists h' cells' ds',
    copy_array (copy e) (is_node e) h d s dO sO n = Some h' /\ wf h' /\
    lookup h' d = Some (OArr dt cells') /\ length cells' = length cells /\
    RL h' (repeat e (length cells')) cells' ds' ns /\ length ds' = length ds /\
    (forall p, nth_error ds' p = if (Nat.leb dO p && Nat.ltb p (dO + n))%bool then nth_error dss (sO + (p - dO)) else nth_error ds p) /\
    (forall x, x <> d -> ~ In x ns -> lookup h' x = lookup h x).
Proof.
  intros W La RLa ND Ha Ls Hst RLs Hd Hs Hself Hother.
  destruct (Nat.eq_dec s d) as [->|Hne].
  - (* one array: the element loop overwrites element contents in place *)
    specialize (Hself eq_refl). rewrite La in Ls. inversion Ls; subst st scells. clear Ls.
    assert (dt = false) as ->.
    { destruct dt; [|reflexivity]. specialize (Hst eq_refl). congruence. }
    destruct (proj2 (R_RL_det h) _ _ _ _ RLa _ _ RLs) as [<- <-].
    destruct (copy_array_overlap_nodes e h d cells ds ns dO sO n Hself W La RLa ND Ha Hs Hd)
      as (h' & ds' & CA & W' & La' & RL' & Len' & PW' & F').
    exists h', cells, ds'. rewrite Hself. split; [exact CA|]. split; [assumption|]. split; [assumption|].
    split; [reflexivity|]. split; [assumption|]. split; [assumption|]. split; [exact PW'|].
    intros x _ Hx. apply F'. assumption.
  - (* two arrays: the window dO .. dO+n-1 is written, the elements before and after it are not touched *)
    destruct (Hother Hne) as (Hsn & Han & Dj).
    destruct (RL_window h e cells ds ns dO n RLa Hd)
      as (v1 & v2 & v3 & d1 & d2 & d3 & n1 & n2 & n3 & -> & -> & -> & Lv1 & Lv2 & Ld1 & Ld2 & R1 & R2 & R3).
    destruct (RL_window h e scells dss nsrc sO n RLs Hs)
      as (s1 & s2 & s3 & e1 & e2 & e3 & m1 & m2 & m3 & -> & -> & -> & Ls1 & Ls2 & Le1 & Le2 & Q1 & Q2 & Q3).
    destruct (copy_array_window_ok e d s n dt st _ _ v1 v2 v3 d1 d2 d3 n1 n2 n3 s1 s2 s3 e2 m2 h (copy_ok_all e) W La Ls Hst R1 R2 R3 Q2)
      as (h' & dc2' & CA & K2 & La2 & Lc2 & R').
    + constructor; assumption.
    + assert (I2 : forall x, In x m2 -> In x (m1 ++ m2 ++ m3)) by (intros; apply in_or_app; right; apply in_or_app; left; assumption).
      intros x [<-|Hx] [<-|Hx']; [exact (Hne eq_refl) | exact (Han (I2 _ Hx')) | exact (Hsn Hx) | exact (Dj x Hx (I2 _ Hx'))].
    + rewrite Lv1, Ls1 in CA.
      exists h', (v1 ++ dc2' ++ v3), (d1 ++ e2 ++ d3).
      split; [exact CA|]. split; [exact (proj1 K2)|]. split; [exact La2|].
      split; [rewrite !app_length; lia|]. split.
      { rewrite <- !repeat_app in R'. replace (length (v1 ++ dc2' ++ v3)) with (dO + (n + (length (v1 ++ v2 ++ v3) - dO - n))); [exact R'|].
        rewrite !app_length in *. lia. }
      split; [rewrite !app_length; lia|]. split; [|intros x Hx Hn; apply (confined_lookup K2); intros [<-|Hin]; auto].
      intro p.
      assert (E : d1 ++ e2 ++ d3 = splice (d1 ++ d2 ++ d3) dO (sublist (e1 ++ e2 ++ e3) sO n)).
      { rewrite <- Ld1, <- Le1, <- Le2, sublist_mid. symmetry. apply splice_mid. lia. }
      rewrite E. apply nth_error_splice; rewrite !app_length; lia.
Qed.

(* witness: the zero value of [k]e in the empty heap *)
Theorem overlap_hypotheses_satisfiable e k :
  is_node e = true ->
  exists h a cells ds ns,
    wf h /\ lookup h a = Some (OArr false cells) /\ length cells = k /\
    RL h (repeat e (length cells)) cells ds ns /\ NoDup ns /\ ~ In a ns.
Proof.
  intro En. destruct (zero (TArr k e) empty_heap) as [v h] eqn:Z.
  destruct (zero_ok_all (TArr k e) empty_heap v h wf_empty Z) as (d & ns' & (W & _ & _ & DV & _) & RV).
  inversion RV as [| | |? ? a cells ds ns La RLa|]; subst.
  assert (is_num e = false) as Hnum by (destruct e; simpl in *; congruence).
  rewrite Hnum in La.
  destruct (RL_repeat_length RLa) as [Lc _].
  apply NoDup_cons_iff in DV. destruct DV as [Hnot Hnd].
  exists h, a, cells, ds, ns. rewrite Lc. repeat split; auto.
Qed.

(* a concrete overlapping move of struct elements in both directions: contents move, element identities stay *)
Example overlap_nodes_evaluates :
  let e := TStruct [TNum; TArr 1 (TStruct [TScalar])] in
  let mk z i := [(i, OStruct [VNum z; VLoc (i + 1)]); (i + 1, OArr false [VLoc (i + 2)]); (i + 2, OStruct [VNum (z * 10)])] in
  let h := mkHeap (mk 1%Z 0 ++ mk 2%Z 3 ++ mk 3%Z 6 ++ [(9, OArr false [VLoc 0; VLoc 3; VLoc 6])]) 10 in
  let leaves h' := map (fun i => (lookup h' i, lookup h' (i + 2))) [0; 3; 6] in
  let exp x y z := map (fun v : Z => (Some (OStruct [VNum v; VLoc 0]), Some (OStruct [VNum (v * 10)]))) [x; y; z] in
  (* copy(s[0:2], s[1:3]): forwards *)
  match copy_array (copy e) true h 9 9 0 1 2 with
  | Some h' => lookup h' 9 = lookup h 9 /\
               map (fun p => match p with (Some (OStruct [v; _]), w) => (Some (OStruct [v; VLoc 0]), w) | q => q end) (leaves h')
               = exp 2%Z 3%Z 3%Z
  | None => False
  end /\
  (* copy(s[1:3], s[0:2]): backwards *)
  match copy_array (copy e) true h 9 9 1 0 2 with
  | Some h' => lookup h' 9 = lookup h 9 /\
               map (fun p => match p with (Some (OStruct [v; _]), w) => (Some (OStruct [v; VLoc 0]), w) | q => q end) (leaves h')
               = exp 1%Z 1%Z 2%Z
  | None => False
  end.
Proof. vm_compute. repeat split; reflexivity. Qed.

Print Assumptions overlap_hypotheses_satisfiable.
