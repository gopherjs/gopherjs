(* C07 — lemmas about the slice half of the heap model: $growSlice / $internalAppend (sharing versus reallocation,
   contents and independence of the reallocated array for ANY element type) and [N]T(slice); $subslice of the nil
   slice, and [odef], the value of an omitted $subslice bound. *)
From Coq Require Import List ZArith Bool Arith Lia.
From Verif Require Import Base.Lists Model.C07_Heap Proofs.C07_Lists Proofs.C07_Clone.
Import ListNotations.
Local Open Scope Z_scope.

Definition odef (o : option Z) (d : Z) : Z := match o with Some x => x | None => d end.

Theorem subslice_nil lo hi mx s' : subslice SNil lo hi mx = Some s' -> s' = SNil.
Proof. unfold subslice. destruct (_ || _); [discriminate|]. intro E; inversion E; reflexivity. Qed.

Lemma calc_new_cap_ge minCap old : minCap <= calc_new_cap minCap old.
Proof. unfold calc_new_cap. apply Z.le_max_l. Qed.

Lemma clone_list_ok e : is_node e = true -> forall vs k h ds ns,
  wf h -> RL h (repeat e k) vs ds ns ->
  exists cs h0 nsc, clone_list e h vs = Some (cs, h0) /\ grown h h0 nsc /\ RL h0 (repeat e k) cs ds nsc.
Proof.
  intro Hn. induction vs as [|v vs IH]; intros k h ds ns W H.
  - inversion H; subst. exists [], h, []. split; [reflexivity|]. split; [apply grown_refl, W|].
    destruct k; [constructor | discriminate].
  - destruct k as [|k]; [inversion H|]. simpl in H.
    inversion H as [|? ? ? ? d ds' n1 n2 Hv Hr]; subst. simpl.
    destruct (clone_ok e h v d n1 Hn W Hv) as (c & h1 & nsc & C & G1 & RC). rewrite C.
    destruct (IH k h1 ds' n2 (proj1 G1) (grown_RL W G1 Hr)) as (cs & h2 & nsc2 & C2 & G2 & RC2).
    rewrite C2. exists (c :: cs), h2, (nsc ++ nsc2). split; [reflexivity|]. split; [exact (grown_seq G1 G2)|].
    simpl. constructor; [exact (grown_R (proj1 G1) G2 RC) | exact RC2].
Qed.

(* what $growSlice builds when it has to reallocate: a fresh array = own copies of the window ++ freshly built values of
   type e (the results of e.zero(); that their deep values [dz] are zero is not stated) *)
Lemma grow_slice_realloc e h a o l c minCap w1 w2 w3 dsw nsw :
  wf h -> c < minCap ->
  lookup h a = Some (OArr (is_num e) (w1 ++ w2 ++ w3)) -> length w1 = Z.to_nat o -> length w2 = Z.to_nat l ->
  RL h (repeat e (Z.to_nat l)) w2 dsw nsw ->
  exists a' h1 old' zs dz nso nsz,
    grow_slice e h (SHdr a o l c) minCap = Some (SHdr a' 0 l (calc_new_cap minCap c), h1) /\
    grown h h1 (a' :: nso ++ nsz) /\
    lookup h1 a' = Some (OArr (is_num e) (old' ++ zs)) /\
    RL h1 (repeat e (Z.to_nat l)) old' dsw nso /\
    RL h1 (repeat e (Z.to_nat (calc_new_cap minCap c - l))) zs dz nsz.
Proof.
  intros W Hc La L1 L2 RW. unfold grow_slice, slice_array. rewrite La.
  simpl scap; simpl slen; simpl soff. destruct (Z.ltb_spec c minCap); [|lia].
  rewrite <- L1, <- L2, sublist_mid. rewrite Nat.ltb_irrefl. rewrite L2.
  set (K := Z.to_nat (calc_new_cap minCap c - l)).
  (* the window is cloned element by element when the elements are arrays or structs *)
  assert (Hold : exists old' h0 nso, (if is_node e then clone_list e h w2 else Some (w2, h)) = Some (old', h0) /\
            grown h h0 nso /\ RL h0 (repeat e (Z.to_nat l)) old' dsw nso).
  { destruct (is_node e) eqn:Ee.
    - apply (clone_list_ok e Ee w2 _ h dsw nsw W RW).
    - pose proof (RL_leaves Ee RW) as ->.
      exists w2, h, []. split; [reflexivity|]. split; [apply grown_refl, W | assumption]. }
  destruct Hold as (old' & h0 & nso & Eo & G0 & R0).
  destruct (zero_n (zero e) K h0) as [zs h1] eqn:Z.
  destruct (zero_n_ok e (zero e) K (zero_ok_all e) h0 zs h1 (proj1 G0) Z) as (dz & nsz & G1 & RZ).
  destruct (alloc h1 (OArr (is_num e) (old' ++ zs))) as [v h2] eqn:A.
  destruct (alloc_spec A) as (-> & _ & Hs & _).
  pose proof (grown_alloc (grown_refl h1 (proj1 G1)) A) as G2.
  exists (hnext h1), h2, old', zs, dz, nso, nsz.
  split; [|split; [exact (grown_alloc (grown_seq G0 G1) A)|split; [assumption|split]]].
  - (* for a numeric element type the typed-array branch builds the same array: nothing is cloned, the zeros allocate nothing *)
    destruct (is_num e) eqn:En.
    + destruct e; try discriminate. rewrite (zero_n_const _ (VNum 0)) in Z by reflexivity.
      inversion Eo; inversion Z; subst. rewrite A. reflexivity.
    + rewrite Eo, Z, A. reflexivity.
  - exact (grown_RL (proj1 G1) G2 (grown_RL (proj1 G0) G1 R0)).
  - exact (grown_RL (proj1 G1) G2 RZ).
Qed.

Lemma grow_in_place e h a o l c minCap : minCap <= c ->
  grow_slice e h (SHdr a o l c) minCap =
  match slice_array e h (SHdr a o l c) with Some _ => Some (SHdr a o l c, h) | None => None end.
Proof.
  intros Hc. unfold grow_slice. destruct (slice_array e h (SHdr a o l c)) as [[ty cells]|]; [|reflexivity].
  simpl scap. destruct (Z.ltb_spec c minCap); [lia | reflexivity].
Qed.

Lemma internal_append_fits e h a o l c src off n : 0 < n -> l + n <= c ->
  internal_append e h (SHdr a o l c) src off n =
  match slice_array e h (SHdr a o l c),
        copy_array (copy e) (is_node e) h a src (Z.to_nat (o + l)) (Z.to_nat off) (Z.to_nat n) with
  | Some _, Some h' => Some (SHdr a o (l + n) c, h')
  | _, _ => None
  end.
Proof.
  intros Hpos Hfit. unfold internal_append. destruct (Z.eqb_spec n 0); [lia|]. cbv zeta. simpl slen.
  rewrite grow_in_place by assumption.
  destruct (slice_array e h (SHdr a o l c)); [destruct (copy_array _ _ _ _ _ _ _ _)|]; reflexivity.
Qed.

Theorem append_realloc e h a o l c src off n w1 w2 w3 dsw nsw st sc1 sc2 sc3 dss nss :
  wf h -> 0 < n -> c < l + n ->
  lookup h a = Some (OArr (is_num e) (w1 ++ w2 ++ w3)) -> length w1 = Z.to_nat o -> length w2 = Z.to_nat l ->
  RL h (repeat e (Z.to_nat l)) w2 dsw nsw ->
  lookup h src = Some (OArr st (sc1 ++ sc2 ++ sc3)) -> (st = true -> is_node e = false) -> length sc1 = Z.to_nat off ->
  RL h (repeat e (Z.to_nat n)) sc2 dss nss ->
  let cap' := calc_new_cap (l + n) c in
  exists a' h' cells' dz nsn,
    internal_append e h (SHdr a o l c) src off n = Some (SHdr a' 0 (l + n) cap', h') /\
    l + n <= cap' /\ grown h h' (a' :: nsn) /\
    lookup h' a' = Some (OArr (is_num e) cells') /\
    RL h' (repeat e (Z.to_nat l) ++ repeat e (Z.to_nat n) ++ repeat e (Z.to_nat (cap' - l) - Z.to_nat n)) cells' (dsw ++ dss ++ dz) nsn.
Proof.
  intros W Hpos Hbig La L1 L2 RW Ls Hst Ls1 RS cap'.
  pose proof (calc_new_cap_ge (l + n) c) as Hcap. fold cap' in Hcap.
  destruct (grow_slice_realloc e h a o l c (l + n) w1 w2 w3 dsw nsw W Hbig La L1 L2 RW)
    as (a' & h1 & old' & zs & dz & nso & nsz & G & GH & La' & RO & RZ).
  fold cap' in G, RZ.
  set (N := Z.to_nat n). set (K := Z.to_nat (cap' - l)) in *.
  assert (HNK : (N <= K)%nat) by (unfold N, K; lia).
  (* split the zero tail into the cells that receive the appended values and the rest *)
  replace K with (N + (K - N))%nat in RZ by lia. rewrite repeat_app in RZ.
  destruct (RL_split _ RZ) as (z1 & z2 & dz1 & dz2 & n1 & n2 & -> & -> & -> & RZ1 & RZ2).
  destruct (RL_repeat_length RO) as [LO _].
  pose proof GH as (W1 & _ & X1 & ND & BN).
  (* the source and its nodes are older than everything $growSlice has allocated *)
  assert (Hsrc : (src < hnext h)%nat) by (eapply W; eauto).
  assert (Hnss : forall x, In x nss -> (x < hnext h)%nat) by (eapply RL_nodes_lt; eauto).
  destruct (copy_array_window_ok e a' src N (is_num e) st (repeat e (Z.to_nat l)) (repeat e (K - N)) old' z1 z2 dsw dz1 dz2 nso n1 n2 sc1 sc2 sc3 dss nss h1 (copy_ok_all e) W1)
    as (h2 & dc2' & CA & K2 & La2 & _ & R2); auto.
  - rewrite X1; assumption.
  - exact (grown_RL W GH RS).
  - intros x Hx [<-|Hx']; apply BN in Hx; [|apply Hnss in Hx']; lia.
  - exists a', h2, (old' ++ dc2' ++ z2), dz2, (nso ++ n1 ++ n2).
    split.
    { unfold internal_append. destruct (Z.eqb_spec n 0); [lia|]. cbv zeta. simpl slen. rewrite G.
      rewrite Z.add_0_l. rewrite LO in CA. rewrite Ls1 in CA. fold N. rewrite CA. reflexivity. }
    split; [assumption|]. split; [exact (grown_confined GH K2)|]. split; [exact La2 | exact R2].
Qed.

Theorem arr_from_slice_ok e h dst a o l c dc d0 nsd w1 w2 w3 dsw nsw :
  wf h -> dst <> a ->
  lookup h dst = Some (OArr (is_num e) dc) -> RL h (repeat e (length dc)) dc d0 nsd -> NoDup nsd ->
  lookup h a = Some (OArr (is_num e) (w1 ++ w2 ++ w3)) -> length w1 = Z.to_nat o ->
  RL h (repeat e (length dc)) w2 dsw nsw -> Z.of_nat (length dc) <= l ->
  ~ In dst nsd -> ~ In a nsd -> ~ In dst nsw -> (forall x, In x nsd -> ~ In x nsw) ->
  exists h', copy_arr_from_slice e h dst (SHdr a o l c) = Done h' /\
             R h' (TArr (length dc) e) (VLoc dst) (DNode dsw) (dst :: nsd) /\
             (forall x, x <> dst -> ~ In x nsd -> lookup h' x = lookup h x).
Proof.
  intros W Hne Ld RD ND La L1 RW Hlen Hd Ha Hdw Disj.
  unfold copy_arr_from_slice. rewrite Ld. simpl slen.
  destruct (Z.ltb_spec l (Z.of_nat (length dc))); [lia|].
  destruct (copy_array_window_ok e dst a (length dc) (is_num e) (is_num e) [] [] [] dc [] [] d0 [] [] nsd [] w1 w2 w3 dsw nsw h (copy_ok_all e) W)
    as (h' & dc' & CA & K' & Ld' & _ & R'); rewrite ?app_nil_r; auto using num_not_node, RL_nil.
  { constructor; assumption. }
  { intros x [<-|Hx] [<-|Hx']; auto. exact (Disj x Hx Hx'). }
  simpl in CA, K', Ld', R'. rewrite !app_nil_r in *. rewrite L1 in CA. rewrite CA. exists h'. split; [reflexivity|].
  split; [eapply R_arr; eauto|].
  intros x Hx Hn. apply (confined_lookup K'). intros [<-|Hin]; auto.
Qed.
