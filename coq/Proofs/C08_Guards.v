(* C08, part A — every emitted guard fires exactly when the Go specification
   requires a run-time panic, and otherwise the guarded expression has Go's value.
   All statements are over unbounded Z operands.  Here: the Boolean lemmas ([guard_eq], [throws_iff]) and the tactic [zb]
   by which each guard is one line, in Props/C08.v or here; the guard equations that have two users; the shapes before
   the repairs, with the inputs that refute them. *)
From Coq Require Import List ZArith Bool Lia.
From Verif Require Import Base.Word Model.C08_Guards Gen.C08_Consts.
Import ListNotations.
Local Open Scope Z_scope.

Lemma guard_eq : forall (bi bs : bool) v, (bi = true <-> bs = false) ->
  (if bi then GThrow else GOk v) = (if bs then GOk v else GThrow).
Proof. intros [|] [|] v [H1 H2]; try reflexivity; [discriminate (H1 eq_refl) | discriminate (H2 eq_refl)]. Qed.
Lemma guard_eq2 : forall (b1 b2 bs : bool) v, (b1 || b2 = true <-> bs = false) ->
  (if b1 then GThrow else if b2 then GThrow else GOk v) = (if bs then GOk v else GThrow).
Proof. intros b1 b2 bs v H. rewrite <- (guard_eq (b1 || b2) bs v H). destruct b1; reflexivity. Qed.
Lemma throws_iff : forall (b : bool) v, (if b then GThrow else GOk v) = GThrow <-> b = true.
Proof. intros [|] v; split; intro H; try reflexivity; discriminate H. Qed.
Lemma ok_throws_iff : forall (b : bool) v, (if b then GOk v else GThrow) = GThrow <-> b = false.
Proof. intros [|] v; split; intro H; try reflexivity; discriminate H. Qed.

(* what the Boolean tests say, as linear arithmetic *)
Ltac zb :=
  rewrite ?orb_true_iff, ?andb_true_iff, ?andb_false_iff, ?Z.gtb_ltb, ?Z.geb_leb,
    ?Z.ltb_lt, ?Z.ltb_ge, ?Z.leb_le, ?Z.leb_gt, ?Z.eqb_eq; lia.

Lemma index_guard_iff : forall i len, impl_index i len = spec_index i len.
Proof. intros. apply guard_eq. zb. Qed.

(* string index emitted as s.charCodeAt(i) without a range check (finding string-index-out-of-range-no-panic;
   since its fix s[i] goes through the guard of [impl_index]): right in range, NaN instead of a panic outside *)
Lemma strindex_in_range : forall i len, 0 <= i < len -> impl_strindex i len = spec_index i len.
Proof.
  intros i len H. unfold impl_strindex, spec_index.
  replace ((0 <=? i) && (i <? len)) with true; [reflexivity|]. symmetry. zb.
Qed.
Lemma strindex_refuted : forall i len, ~ (0 <= i < len) -> impl_strindex i len <> spec_index i len.
Proof.
  intros i len H. unfold impl_strindex, spec_index.
  replace ((0 <=? i) && (i <? len)) with false; [discriminate|]. symmetry. zb.
Qed.

(* the test [high > cap] of $subslice follows from the others *)
Lemma subslice_guard_iff : forall offset len cap low high max,
  impl_subslice offset len cap low high max = spec_subslice offset len cap low high max.
Proof. intros. apply guard_eq. zb. Qed.

(* $substring before `high` defaulted to str.length ([impl_substring_fixed] is the shape after): with both bounds, exact *)
Lemma substring_guard_iff : forall len low h,
  impl_substring len low (Some h) = spec_substring len low (Some h).
Proof. intros. apply guard_eq. zb. Qed.

(* s[low:] — right exactly when low <= len ... *)
Lemma substring_open_guard_iff : forall len low, 0 <= len -> low <= len ->
  impl_substring len low None = spec_substring len low None.
Proof.
  intros; unfold impl_substring, spec_substring.
  rewrite (Z.min_l low len) by lia. apply guard_eq. zb.
Qed.
(* ... and for every low beyond the length an empty string instead of a panic (finding string-slice-low-beyond-len-no-panic) *)
Lemma substring_open_refuted : forall len low, 0 <= len < low ->
  impl_substring len low None <> spec_substring len low None.
Proof.
  intros; unfold impl_substring, spec_substring.
  replace (low <? 0) with false by (symmetry; zb).
  replace ((0 <=? low) && (low <=? len) && (len <=? len)) with false by (symmetry; zb).
  discriminate.
Qed.

Lemma makeslice_guard_iff : forall len cap, impl_makeslice len cap = spec_makeslice len cap.
Proof. intros. apply guard_eq2. unfold MAXINT. zb. Qed.

(* x / y is NaN or infinite exactly when y is 0 *)
Lemma quo_guard_iff : forall signed x y, impl_quo signed x y = spec_quo signed x y.
Proof.
  intros; unfold impl_quo, spec_quo, div_class.
  destruct (y =? 0); [destruct (x =? 0); [|destruct (x >? 0)]|]; reflexivity.
Qed.

(* a quotient that is representable is not changed by the 32-bit wrapping: [wrap32 true] is the signed residue of
   Base/Word in its sign-bit-test form *)
Lemma wrap32_id_signed : forall z, -2147483648 <= z <= 2147483647 -> wrap32 true z = z.
Proof.
  intros z H. rewrite <- (sres_id 32 z eq_refl ltac:(lia)) at 2. rewrite <- (sres_alt 32 z eq_refl).
  unfold wrap32. cbn [andb]. cbv zeta. rewrite Z.geb_leb, Z.leb_antisym. destruct (_ <? _); reflexivity.
Qed.
Lemma wrap32_id_unsigned : forall z, 0 <= z <= 4294967295 -> wrap32 false z = z.
Proof. intros. unfold wrap32. cbn [andb]. apply Z.mod_small. lia. Qed.
