(* C08, part A — the guards on the shape of a value (Model/C08_Guards2.v): store into and read from a nil map,
   field access through a nil struct pointer, type assertion.  The map and pointer guards are case analyses of a few
   lines and are proved in Props/C08.v; here: what a map store does to later reads, and the condition [assert_holds]
   of the specification for x.(T) with the test that decides it. *)
From Coq Require Import List ZArith Bool Arith Lia.
From Verif Require Import Base.Lists Model.C08_Guards Model.C08_Guards2.
Import ListNotations.
Local Open Scope Z_scope.

Lemma kv_get_set_same : forall kv k v, kv_get (kv_set kv k v) k = Some v.
Proof.
  induction kv as [|[k' v'] r IH]; intros k v; cbn.
  - now rewrite Z.eqb_refl.
  - destruct (k' =? k) eqn:E; cbn; [now rewrite Z.eqb_refl | rewrite E; apply IH].
Qed.
Lemma kv_get_set_other : forall kv k v j, j <> k -> kv_get (kv_set kv k v) j = kv_get kv j.
Proof.
  induction kv as [|[k' v'] r IH]; intros k v j Hne; cbn.
  - destruct (Z.eqb_spec k j); [congruence|reflexivity].
  - destruct (Z.eqb_spec k' k) as [->|]; cbn.
    + destruct (Z.eqb_spec k j); [congruence|reflexivity].
    + destruct (k' =? j); [reflexivity|apply IH; exact Hne].
Qed.

(* the Go specification's condition for x.(T) to hold *)
Definition assert_holds (v : jiface) (t : jtarget) : Prop :=
  exists tid ms pl, v = JIVal tid ms pl /\
    ((t = TConcrete tid) \/ (exists im, t = TIface im /\ forall m, In m im -> In m ms)).

Lemma zmem_In : forall x l, zmem x l = true <-> In x l.
Proof. exact (existsb_eqb_In Z.eqb Z.eqb_eq). Qed.
Lemma assert_ok_iff : forall v t, assert_ok v t = true <-> assert_holds v t.
Proof.
  intros [|tid ms pl] t; cbn.
  - split; [discriminate|]. intros (a & b & c & E & _). discriminate E.
  - destruct t as [t'|im].
    + rewrite Z.eqb_eq. split.
      * intros ->. exists t', ms, pl. split; [reflexivity|now left].
      * intros (a & b & c & E & [F|(im & F & _)]); [|discriminate F]. inversion E; inversion F; subst. reflexivity.
    + rewrite forallb_forall. split.
      * intro H. exists tid, ms, pl. split; [reflexivity|]. right. exists im. split; [reflexivity|].
        intros m Hm. apply zmem_In. apply H. exact Hm.
      * intros (a & b & c & E & [F|(im' & F & G)]); [discriminate F|]. inversion E; inversion F; subst.
        intros m Hm. apply zmem_In. apply G. exact Hm.
Qed.
(* v, ok := x.(T) *)
Lemma assert_commaok_iff : forall v t,
  impl_assert v t true <> GThrow /\
  ((exists pl, impl_assert v t true = GOk [pl; 1]) <-> assert_holds v t) /\
  (~ assert_holds v t -> impl_assert v t true = GOk [0; 0]) /\
  (forall tid ms pl, v = JIVal tid ms pl -> assert_holds v t -> impl_assert v t true = GOk [pl; 1] /\ impl_assert v t false = GOk [pl]).
Proof.
  intros v t. rewrite <- assert_ok_iff. unfold impl_assert.
  destruct (assert_ok v t) eqn:E.
  - destruct v as [|tid ms pl]; [cbn in E; discriminate E|]. cbn.
    split; [discriminate|]. split; [split; [reflexivity|eauto]|]. split; [intro H; exfalso; apply H; reflexivity|].
    intros a b c Ev _. inversion Ev; subst. split; reflexivity.
  - cbn. split; [discriminate|]. split; [split; [intros [pl H]; discriminate H|discriminate]|]. split; [reflexivity|].
    intros a b c Ev H; try discriminate H; try (apply assert_ok_iff in H; congruence).
Qed.

Example guards2_nonvacuous :
  impl_map_store JMNil 1 2 = GThrow /\ impl_map_store (JMMap [(1, 5)]) 1 2 = GOk [1; 2] /\
  impl_map_read JMNil 3 = GOk [0; 0] /\ impl_ptr_get (JPNil 2) 1 = GThrow /\ impl_ptr_get (JPObj [7; 8]) 1 = GOk [8] /\
  impl_assert (JIVal 3 [10; 11] 42) (TIface [11]) false = GOk [42] /\ impl_assert (JIVal 3 [10] 42) (TIface [11]) false = GThrow /\
  impl_assert JINil (TIface []) true = GOk [0; 0].
Proof. vm_compute. repeat split; reflexivity. Qed.
