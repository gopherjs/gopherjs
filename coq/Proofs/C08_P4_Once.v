(* C08 — the stack-shape invariant [Inv] of ImplPanic (non-suspending machine, every program,
   every fuel, every variant whose $callDeferred re-queues a panic only when the goroutine goes to sleep,
   which includes the current code V_FULL), and the vocabulary of its proof (Proofs/C08_P4_Steps3.v):
   [same] for state changes the invariant does not see, [unwound] for how a stretch of code leaves the state
   it started in, [R] for the result of statements and functions, and what pushing and popping frames and
   deferred calls do to [Inv]. *)
From Coq Require Import List ZArith Bool Arith Lia.
From Verif Require Import Base.Lists Model.C08_Panic.
Import ListNotations.

(* case analysis on everything a successful run [... = Some _] branched on *)
Ltac crack :=
  repeat match goal with
  | H : Some _ = Some _ |- _ => inversion H; subst; clear H
  | H : None = Some _ |- _ => discriminate H
  | H : (_, _) = (_, _) |- _ => inversion H; subst; clear H
  | H : context [match ?x with _ => _ end] |- _ =>
      match type of H with _ = Some _ => destruct x eqn:? end
  end.

Definition suffix (l1 l2 : list nat) : Prop := exists pre, l2 = pre ++ l1.

Lemma suffix_refl : forall l, suffix l l.
Proof. intro l; exists []; reflexivity. Qed.
Lemma suffix_trans : forall a b c, suffix a b -> suffix b c -> suffix a c.
Proof. intros a b c [p1 H1] [p2 H2]. exists (p2 ++ p1). subst. now rewrite app_assoc. Qed.
Lemma suffix_cons : forall x l a, suffix a l -> suffix a (x :: l).
Proof. intros x l a [p H]. exists (x :: p). subst. reflexivity. Qed.
Lemma suffix_tl : forall l, suffix (tl l) l.
Proof. intros [|x l]; [apply suffix_refl|]. exists [x]; reflexivity. Qed.
Lemma suffix_in : forall a l x, suffix a l -> In x a -> In x l.
Proof. intros a l x [p H] Hi. subst. apply in_or_app. now right. Qed.
Lemma suffix_nodup : forall a l, suffix a l -> NoDup l -> NoDup a.
Proof. intros a l [p H] Hn. subst. induction p; [assumption|]. inversion Hn; auto. Qed.
Lemma suffix_nil_inv : forall a, suffix a [] -> a = [].
Proof. intros a [p H]. symmetry in H. apply app_eq_nil in H. tauto. Qed.
Lemma suffix_cons_inv : forall a x l, suffix a (x :: l) -> a = x :: l \/ suffix a l.
Proof.
  intros a x l [p H]. destruct p as [|y p]; cbn in H.
  - left. congruence.
  - right. inversion H; subst. exists p. reflexivity.
Qed.
Lemma suffix_top : forall a x l, suffix a (x :: l) -> NoDup (x :: l) -> In x a -> a = x :: l.
Proof.
  intros a x l Hs Hn Hi. destruct (suffix_cons_inv _ _ _ Hs) as [|Hs']; [assumption|].
  exfalso. apply NoDup_cons_iff in Hn as [Hx _]. apply Hx. eapply suffix_in; eassumption.
Qed.

(* variants covered: the finally block of $callDeferred re-queues only when the goroutine sleeps *)
Definition asleep_only (vr : variant) : Prop := v_pushback_asleep_only vr = true.

Record Inv0 (s : jstate) : Prop := mkInv0 {
  i_nd : NoDup (j_deferStack s);
  i_lt : forall id, In id (j_deferStack s) -> id < j_next s;
  i_em : forall id, ~ In id (j_deferStack s) -> list_get (j_lists s) id = [] }.
(* at every point where compiled Go code runs: no queued panic *)
Definition Inv (s : jstate) : Prop := Inv0 s /\ j_panicStack s = [].

Lemma Inv_init : Inv j_init.
Proof.
  split; [split|]; cbn; auto.
  - constructor.
  - intros id [].
Qed.

Definition same0 (s s1 : jstate) : Prop :=
  j_deferStack s1 = j_deferStack s /\ j_lists s1 = j_lists s /\ j_next s <= j_next s1 /\ j_offset s1 = j_offset s.
Definition same (s s1 : jstate) : Prop := same0 s s1 /\ j_panicStack s1 = j_panicStack s.

Lemma Inv0_frame : forall s s1,
  j_deferStack s1 = j_deferStack s -> j_lists s1 = j_lists s -> j_next s <= j_next s1 -> Inv0 s -> Inv0 s1.
Proof.
  intros s s1 Hd Hl Hn [A B C]. split; rewrite ?Hd, ?Hl; auto.
  intros id Hi. specialize (B id Hi). lia.
Qed.
Lemma same0_Inv0 : forall s s1, same0 s s1 -> Inv0 s -> Inv0 s1.
Proof. intros s s1 (Hd & Hl & Hn & _). exact (Inv0_frame s s1 Hd Hl Hn). Qed.
Lemma same_Inv : forall s s1, same s s1 -> Inv s -> Inv s1.
Proof. intros s s1 [H0 Hp] [HI Hq]. split; [eapply same0_Inv0; eassumption | congruence]. Qed.

Ltac same_tac := repeat split; try reflexivity; cbn; lia.

Lemma same_refl : forall s, same s s.
Proof. intro s. same_tac. Qed.
Lemma same_trans : forall a b c, same a b -> same b c -> same a c.
Proof.
  intros a b c ((A1 & A2 & A3 & A4) & A5) ((B1 & B2 & B3 & B4) & B5).
  repeat split; try congruence; lia.
Qed.
Lemma recover_same : forall d s v s1, js_recover d s = (v, s1) -> same s s1.
Proof.
  unfold js_recover; intros d s v s1 E.
  destruct (j_psd s); [destruct (negb _)|]; inversion E; subst; same_tac.
Qed.
Lemma fresh2_same : forall s c s1, j_fresh2 s = (c, s1) -> same s s1.
Proof. unfold j_fresh2, j_fresh; intros s c s1 E. cbn in E. inversion E; subst. same_tac. Qed.

(* the frame that was on top when a stretch of code started is, afterwards, still on top or gone:
   the code only cuts the deferStack back, and an id occurs in it once *)
Lemma own_top : forall s s' id ds0, Inv0 s -> j_deferStack s = id :: ds0 ->
  suffix (j_deferStack s') (j_deferStack s) -> In id (j_deferStack s') -> j_deferStack s' = id :: ds0.
Proof.
  intros s s' id ds0 [Hn _ _] Hd Hs Hi. rewrite Hd in Hn, Hs. exact (suffix_top _ _ _ Hs Hn Hi).
Qed.

(* how a stretch of code leaves the state it started in: invariant kept, $stackDepthOffset restored,
   deferStack cut back *)
Definition unwound (s s' : jstate) : Prop :=
  Inv s' /\ j_offset s' = j_offset s /\ suffix (j_deferStack s') (j_deferStack s).

Lemma unwound_refl : forall s, Inv s -> unwound s s.
Proof. intros s HI. split; [exact HI|]. split; [reflexivity|apply suffix_refl]. Qed.
Lemma unwound_trans : forall a b c, unwound a b -> unwound b c -> unwound a c.
Proof.
  intros a b c (_ & B & C) (A' & B' & C'). split; [exact A'|]. split; [congruence|eapply suffix_trans; eassumption].
Qed.
Lemma unwound_same : forall s s1, Inv s -> same s s1 -> unwound s s1.
Proof.
  intros s s1 HI Hs. split; [exact (same_Inv _ _ Hs HI)|]. destruct Hs as ((Hd & _ & _ & Ho) & _).
  split; [exact Ho | rewrite Hd; apply suffix_refl].
Qed.
Lemma unwound_shift : forall s s1 s', j_deferStack s1 = j_deferStack s -> j_offset s1 = j_offset s ->
  unwound s1 s' -> unwound s s'.
Proof. intros s s1 s' Hd Ho H. unfold unwound. rewrite <- Hd, <- Ho. exact H. Qed.

(* result relation for exec / fun: without a throw the deferStack is as it was *)
Definition nothrow (o : jout) : Prop := forall e, o <> JThrow e.
Definition R (s : jstate) (o : jout) (s' : jstate) : Prop :=
  unwound s s' /\ (nothrow o -> j_deferStack s' = j_deferStack s).

Lemma nothrow_next : nothrow JNext. Proof. intros e H; discriminate. Qed.
Lemma nothrow_ret : nothrow JReturn. Proof. intros e H; discriminate. Qed.
Lemma throw_not_nothrow : forall e P, nothrow (JThrow e) -> P.
Proof. intros e P H. exfalso. exact (H e eq_refl). Qed.
#[global] Hint Resolve nothrow_next nothrow_ret : c08.

Lemma R_shift0 : forall s s1 o s', j_deferStack s1 = j_deferStack s -> j_offset s1 = j_offset s -> R s1 o s' -> R s o s'.
Proof. intros s s1 o s' Hd Ho [U D]. split; [exact (unwound_shift _ _ _ Hd Ho U) | rewrite <- Hd; exact D]. Qed.
Lemma R_shift : forall s s1 o s', same s s1 -> R s1 o s' -> R s o s'.
Proof. intros s s1 o s' ((Hd & _ & _ & Ho) & _). exact (R_shift0 _ _ _ _ Hd Ho). Qed.
Lemma R_trans : forall s o1 s1 o s', R s o1 s1 -> nothrow o1 -> R s1 o s' -> R s o s'.
Proof.
  intros s o1 s1 o s' [U D] Hn [U' D']. specialize (D Hn).
  split; [exact (unwound_trans _ _ _ U U') | rewrite <- D; exact D'].
Qed.
Lemma R_weaken : forall s o o' s', R s o s' -> nothrow o -> R s o' s'.
Proof. intros s o o' s' [U D] Hn. split; [exact U | intros _; exact (D Hn)]. Qed.
Lemma R_refl : forall s o, Inv s -> R s o s.
Proof. intros s o HI. split; [exact (unwound_refl s HI) | reflexivity]. Qed.
Lemma R_same : forall s o s1, Inv s -> same s s1 -> R s o s1.
Proof. intros s o s1 HI Hs. exact (R_shift _ _ _ _ Hs (R_refl s1 o (same_Inv _ _ Hs HI))). Qed.

Definition top_is (dl : option nat) (s : jstate) : Prop :=
  forall id, dl = Some id -> exists ds0, j_deferStack s = id :: ds0.

Lemma top_none : forall s, top_is None s.
Proof. intros s id E. discriminate E. Qed.
Lemma top_some : forall id ds0 s, j_deferStack s = id :: ds0 -> top_is (Some id) s.
Proof. intros id ds0 s Hd id' E. inversion E; subst. exists ds0. exact Hd. Qed.
Lemma top_eq : forall dl s s1, j_deferStack s1 = j_deferStack s -> top_is dl s -> top_is dl s1.
Proof. intros dl s s1 Hd H id E. rewrite Hd. auto. Qed.
Lemma top_same : forall dl s s1, same s s1 -> top_is dl s -> top_is dl s1.
Proof. intros dl s s1 ((Hd & _) & _). exact (top_eq dl s s1 Hd). Qed.

Definition top_or_gone (id : nat) (s : jstate) : Prop :=
  In id (j_deferStack s) -> exists ds0, j_deferStack s = id :: ds0.

(* [s]: the frame [id] just pushed; [s1]: after its body; [s2]: [s1] with that frame popped.  The frames under
   [id] are then the ones that were there at the start *)
Lemma popped_own : forall s s1 s2 id ds0, Inv0 s -> j_deferStack s = id :: ds0 ->
  suffix (j_deferStack s1) (j_deferStack s) ->
  (exists ds1, j_deferStack s1 = id :: ds1 /\ j_deferStack s2 = ds1) -> j_deferStack s2 = ds0.
Proof.
  intros s s1 s2 id ds0 HI Hd Hs (ds1 & E1 & E2).
  assert (j_deferStack s1 = id :: ds0) by (eapply own_top; [exact HI|exact Hd|exact Hs|rewrite E1; now left]).
  congruence.
Qed.

Lemma own_top_or_gone : forall s s' id ds0, Inv0 s -> j_deferStack s = id :: ds0 ->
  suffix (j_deferStack s') (j_deferStack s) -> top_or_gone id s'.
Proof. intros s s' id ds0 HI Hd Hs Hi. exists ds0. exact (own_top _ _ _ _ HI Hd Hs Hi). Qed.

Lemma Inv_push : forall id c s, Inv s -> (exists ds0, j_deferStack s = id :: ds0) -> Inv (j_push_deferred id c s).
Proof.
  intros id c s [[A B C] Hp] [ds0 Hd]. split; [split|]; cbn; auto.
  intros j Hj. rewrite Nat.eqb_sym. destruct (Nat.eqb_spec id j) as [->|]; [|auto].
  exfalso. apply Hj. rewrite Hd. now left.
Qed.

Lemma mem_nat_true : forall i l, mem_nat i l = true -> In i l.
Proof. exact (fun i l => proj1 (existsb_eqb_In Nat.eqb Nat.eqb_eq i l)). Qed.
Lemma mem_nat_false : forall i l, mem_nat i l = false -> ~ In i l.
Proof. exact (fun i l => proj1 (existsb_eqb_not_In Nat.eqb Nat.eqb_eq i l)). Qed.

(* a function prologue: the fresh id [j_next s] goes on the deferStack, where by [i_lt] it does not occur yet *)
Lemma Inv_enter : forall s s0, Inv s ->
  j_deferStack s0 = j_next s :: j_deferStack s -> j_next s0 = S (j_next s) -> j_lists s0 = j_lists s ->
  j_panicStack s0 = j_panicStack s -> Inv s0.
Proof.
  intros s s0 [[A B C] Hp] Hd Hn Hl Hq. split; [split|]; rewrite ?Hd, ?Hn, ?Hl.
  - constructor; [intro Hi; apply B in Hi; lia | exact A].
  - intros id [<-|Hi]; [lia | apply B in Hi; lia].
  - intros id Hx. apply C. intro. apply Hx. now right.
  - congruence.
Qed.

Lemma Inv_pop_frame : forall s id ds0, Inv s -> j_deferStack s = id :: ds0 -> list_get (j_lists s) id = [] ->
  Inv (j_set_ds (tl (j_deferStack s)) s).
Proof.
  intros s id ds0 [[A B C] Hp] Hd Hl. split; [split|]; cbn; rewrite ?Hd; cbn; auto.
  - rewrite Hd in A. now inversion A.
  - intros j Hj. apply B. rewrite Hd. now right.
  - intros j Hj. destruct (Nat.eq_dec j id) as [->|Hne]; [exact Hl|].
    apply C. rewrite Hd. intros [E|E]; [congruence|contradiction].
Qed.

Lemma Inv_pop_call : forall s id c s1, Inv s -> In id (j_deferStack s) -> j_pop_deferred id s = Some (c, s1) ->
  Inv s1 /\ j_deferStack s1 = j_deferStack s /\ j_offset s1 = j_offset s.
Proof.
  unfold j_pop_deferred; intros s id c s1 [[A B C] Hp] Hi H.
  destruct (list_get (j_lists s) id) as [|c0 l] eqn:E; [discriminate|]. inversion H; subst; clear H.
  split; [|split; reflexivity]. split; [split|]; cbn; auto.
  intros j Hj. rewrite Nat.eqb_sym. destruct (Nat.eqb_spec id j) as [->|]; [contradiction|auto].
Qed.
Lemma pop_none : forall s id, j_pop_deferred id s = None -> list_get (j_lists s) id = [].
Proof. unfold j_pop_deferred; intros s id H. destruct (list_get (j_lists s) id); [reflexivity|discriminate]. Qed.
