(* C08 — the stack-shape invariant by induction on the fuel: what the four mutually recursive functions of ImplPanic
   guarantee.  $callDeferred and its loop each run in two modes that never mix — inside $panic, and inside a function
   epilogue — and have one specification per mode ([Q_exec], [Q_fun], [Q_cdp], [Q_cde], [Q_lp], [Q_le]); one induction
   step for each, their assembly [stack_shape], and what it says of an activation, a whole run, an epilogue and $panic.
   That $panic does not return needs no invariant and holds of every variant ([panic_throws]). *)
From Coq Require Import List ZArith Bool Arith Lia.
From Verif Require Import Model.C08_Panic Proofs.C08_P4_Once.
Import ListNotations.

(* the loop of $panic's $callDeferred does not return: where an epilogue's loop would, it goes on in the caller's frame
   (list exhausted) or throws null (panic recovered) *)
Lemma panic_loop_no_ret : forall vr p fuel d cur v s s', impl_loop vr fuel p d cur true (Some v) s <> Some (LRet, s').
Proof.
  induction fuel as [|fuel IH]; intros d cur v s s' H; [discriminate H|].
  cbn [impl_loop] in H. crack; eapply IH; eassumption.
Qed.

Lemma panic_throws : forall vr p fuel d s o s', j_panicStack s <> [] ->
  impl_cd vr fuel p d None None true s = Some (o, s') -> exists e, o = JThrow e.
Proof.
  intros vr p [|fuel] d s o s' Hps H; [discriminate H|]. cbn [impl_cd negb andb j_set_offset j_panicStack] in H.
  destruct (j_panicStack s) as [|v ps]; [contradiction|].
  destruct (impl_loop vr fuel p d None true (Some v) _) as [[[|e c|e] s3]|] eqn:El; try discriminate H;
    [destruct (panic_loop_no_ret _ _ _ _ _ _ _ _ El) | ..]; inversion H; eexists; reflexivity.
Qed.

(* the arguments the loop is called with in the two modes: [local] is the panic taken off the panicStack, which only
   $panic's invocation has; an epilogue's invocation names its list *)
Definition fp_ok (cur : option nat) (fromPanic : bool) (local : option pval) : Prop :=
  if fromPanic then exists v, local = Some v else local = None /\ exists id, cur = Some id.

(* how the loop of $callDeferred runs an entry it has popped: the [match] inside [impl_loop], named so that it can be folded *)
Definition run_dcall (vr : variant) (fuel : nat) (p : program) (d : Z) (c : dcall) (s : jstate) : option (jout * jstate) :=
  match c with
  | DClo b cell => impl_fun vr fuel p (d + 1) cell b s
  | DFun f arg => let '(c', s') := j_fresh2 s in impl_fun vr fuel p (d + 1) c' (body_of p f) (j_setcell c' (arg, 0%Z) s')
  end.

Section StackShape.
Variables (vr : variant) (p : program).
Hypothesis Hao : asleep_only vr.

Definition Q_exec (fuel : nat) : Prop :=
  forall d cell dl ss s out s', Inv s -> top_is dl s ->
    impl_exec vr fuel p d cell dl ss s = Some (out, s') -> R s out s'.
Definition Q_fun (fuel : nat) : Prop :=
  forall d cell body s out s', Inv s ->
    impl_fun vr fuel p d cell body s = Some (out, s') -> R s out s'.

(* $callDeferred has two callers.  $panic(v): the value just queued, deferred = null *)
Definition Q_cdp (fuel : nat) : Prop :=
  forall d v s out s', Inv s ->
    impl_cd vr fuel p d None None true (j_set_ps (v :: j_panicStack s) s) = Some (out, s') -> unwound s s'.
(* a function epilogue: no queued panic, its own $deferred array, which is the top of the deferStack or no longer in it;
   the invocation leaves with its frame popped, and if it returns that frame was still on top when it started *)
Definition Q_cde (fuel : nat) : Prop :=
  forall d id jsErr s out s', Inv s -> top_or_gone id s ->
    impl_cd vr fuel p d (Some id) jsErr false s = Some (out, s') ->
    unwound s s' /\ ~ In id (j_deferStack s') /\
    (nothrow out -> exists ds0, j_deferStack s = id :: ds0 /\ j_deferStack s' = ds0).

(* the loop of $callDeferred likewise.  In $panic's invocation it walks up the deferStack ([cur] = None: whatever is on
   top) with the panic value taken off the panicStack *)
Definition Q_lp (fuel : nat) : Prop :=
  forall d cur v s res s', Inv s -> top_is cur s ->
    impl_loop vr fuel p d cur true (Some v) s = Some (res, s') -> unwound s s'.
(* in an epilogue's invocation it runs the list [id], which is on top, and ends with that frame popped or with a throw
   out of a deferred call of that list *)
Definition Q_le (fuel : nat) : Prop :=
  forall d id s res s', Inv s -> (exists ds0, j_deferStack s = id :: ds0) ->
    impl_loop vr fuel p d (Some id) false None s = Some (res, s') ->
    unwound s s' /\
    match res with
    | LRet => ~ In id (j_deferStack s') /\ j_deferStack s' = tl (j_deferStack s)
    | LThrow e c => c = Some id /\ top_or_gone id s'
    | LThrowTop e => False
    end.

Lemma R_push : forall id c s, Inv s -> (exists ds0, j_deferStack s = id :: ds0) -> R s JNext (j_push_deferred id c s).
Proof.
  intros id c s HI Ht. split; [|reflexivity].
  split; [apply Inv_push; assumption|]. split; [reflexivity|apply suffix_refl].
Qed.

(* a call made from a state that differs from [s] in cells and id counter only *)
Lemma call_same : forall fuel, Q_fun fuel -> forall d cell body s s1 o s2, Inv s -> same s s1 ->
  impl_fun vr fuel p d cell body s1 = Some (o, s2) -> R s o s2.
Proof.
  intros fuel IHf d cell body s s1 o s2 HI Hs E.
  exact (R_shift _ _ _ _ Hs (IHf _ _ _ _ _ _ (same_Inv _ _ Hs HI) E)).
Qed.

(* the rest of a statement list, after a first statement that did not throw and left [s1], up to [same] *)
Lemma exec_cont : forall fuel, Q_exec fuel ->
  forall d cell dl rest s out s', top_is dl s ->
  forall o1 s1 s1', R s o1 s1 -> nothrow o1 -> same s1 s1' ->
    impl_exec vr fuel p d cell dl rest s1' = Some (out, s') -> R s out s'.
Proof.
  intros fuel IHe d cell dl rest s out s' Ht o1 s1 s1' HR Hn Hs H.
  eapply R_trans; [exact HR | exact Hn |]. eapply R_shift; [exact Hs|].
  destruct HR as [[HI1 _] D].
  eapply IHe; [exact (same_Inv _ _ Hs HI1) | | exact H].
  apply (top_same dl s1 s1' Hs), (top_eq dl s s1 (D Hn)), Ht.
Qed.

Lemma step_exec : forall fuel, Q_exec fuel -> Q_fun fuel -> Q_cdp fuel -> Q_exec (S fuel).
Proof.
  intros fuel IHe IHf IHc. red. intros d cell dl ss s out s' HI Ht H.
  cbn [impl_exec] in H.
  destruct ss as [|st rest]; [inversion H; subst; apply R_refl; assumption|].
  pose proof (exec_cont fuel IHe d cell dl rest s out s' Ht) as Hcont.
  (* statements that change cells, trace, $panicStackDepth only *)
  assert (Hsame : forall s1, same s s1 -> impl_exec vr fuel p d cell dl rest s1 = Some (out, s') -> R s out s')
    by (intro s1; exact (Hcont JNext s s1 (R_refl s JNext HI) nothrow_next)).
  assert (Hpush : forall id c, dl = Some id ->
            impl_exec vr fuel p d cell dl rest (j_push_deferred id c s) = Some (out, s') -> R s out s').
  { intros id c E. eapply (Hcont JNext); [apply R_push; [exact HI|exact (Ht id E)]|apply nothrow_next|apply same_refl]. }
  destruct st.
  - (* STrace *) eapply Hsame; [|exact H]; same_tac.
  - (* STraceX *) crack. eapply Hsame; [|exact H]; same_tac.
  - (* SSetX *) crack. eapply Hsame; [|exact H]; same_tac.
  - (* SSetR *) crack. eapply Hsame; [|exact H]; same_tac.
  - (* SRecover *) crack. eapply Hsame; [|exact H].
    eapply same_trans; [eapply recover_same; eassumption|same_tac].
  - (* SCall *) crack.
    all: match goal with E1 : j_fresh2 _ = (_, ?s1), E : impl_fun _ _ _ _ _ _ (j_setcell ?c ?v ?s1) = _ |- _ =>
           assert (Hs1 : same s (j_setcell c v s1)) by (eapply same_trans; [exact (fresh2_same _ _ _ E1)|same_tac]);
           pose proof (call_same fuel IHf _ _ _ _ _ _ _ HI Hs1 E) as HR1 end.
    all: try exact HR1.
    all: eapply (Hcont _ _ _ HR1); [auto with c08| |exact H]; same_tac.
  - (* SCallClo *) crack.
    all: match goal with E : impl_fun _ _ _ _ _ _ _ = _ |- _ => pose proof (IHf _ _ _ _ _ _ HI E) as HR1 end.
    all: try exact HR1.
    all: eapply (Hcont _ _ _ HR1); [auto with c08|apply same_refl|exact H].
  - (* SDefer *) crack; [exact (Hpush _ _ eq_refl H) | exact (Hsame _ (same_refl s) H)].
  - (* SDeferClo *) crack; [exact (Hpush _ _ eq_refl H) | exact (Hsame _ (same_refl s) H)].
  - (* SPanic: $panic does not return *) crack.
    all: match goal with E : impl_cd _ _ _ _ _ _ _ _ = Some _ |- _ =>
           pose proof (IHc _ _ _ _ _ HI E) as U; apply panic_throws in E as [e0 He0]; [|discriminate] end.
    all: try discriminate He0.
    split; [exact U|apply throw_not_nothrow].
  - (* SReturn *) crack. apply R_refl. exact HI.
  - (* SGoexit *) crack. apply R_same; [exact HI|same_tac].
  - (* SRetR *) crack. apply R_same; [exact HI|same_tac].
  - (* SBlock *) exact (Hsame _ (same_refl s) H).
Qed.

(* [s0]: the frame [id] pushed on [s]; [s1]: after the body; [s2]: after the epilogue's $callDeferred *)
Lemma fun_finish : forall s s0 s1 s2 id (o2 out : jout),
  Inv0 s0 -> j_deferStack s0 = id :: j_deferStack s -> j_offset s0 = j_offset s ->
  unwound s0 s1 ->
  unwound s1 s2 /\ ~ In id (j_deferStack s2) /\ (nothrow o2 -> exists ds1, j_deferStack s1 = id :: ds1 /\ j_deferStack s2 = ds1) ->
  (nothrow out -> nothrow o2) -> R s out s2.
Proof.
  intros s s0 s1 s2 id o2 out HI0 Hd Ho U1 (U2 & Hni & Hnt) Himp.
  destruct (unwound_trans _ _ _ U1 U2) as (HI2 & Ho2 & S2). split; [split; [exact HI2|split; [congruence|]]|].
  - rewrite Hd in S2. destruct (suffix_cons_inv _ _ _ S2) as [E|E]; [|exact E].
    exfalso. apply Hni. rewrite E. now left.
  - intro Hout. exact (popped_own s0 s1 s2 id _ HI0 Hd (proj2 (proj2 U1)) (Hnt (Himp Hout))).
Qed.

Lemma step_fun : forall fuel, Q_exec fuel -> Q_cde fuel -> Q_fun (S fuel).
Proof.
  intros fuel IHe IHc. red. intros d cell body s out s' HI H.
  cbn [impl_fun] in H.
  destruct (negb (has_defer body)).
  - crack.
    all: match goal with E : impl_exec _ _ _ _ _ _ _ _ = Some _ |- _ =>
      pose proof (IHe _ _ _ _ _ _ _ HI (top_none _) E) as HR1 end.
    all: first [exact HR1 | eapply R_weaken; [exact HR1|auto with c08]].
  - cbv beta iota zeta delta [j_fresh] in H.
    crack.
    all: match goal with E : impl_exec _ _ _ _ _ (Some ?id) _ ?s0 = Some (?o1, ?s1) |- _ =>
       assert (HI0 : Inv s0) by (eapply (Inv_enter s); [exact HI|reflexivity..]);
       destruct (IHe _ _ _ _ _ _ _ HI0 (top_some id (j_deferStack s) s0 eq_refl) E) as [U1 _] end.
    all: match goal with E : impl_cd _ _ _ _ (Some ?id) _ false ?s1 = Some _ |- _ =>
       pose proof (IHc _ _ _ _ _ _ (proj1 U1) (own_top_or_gone _ _ _ _ (proj1 HI0) eq_refl (proj2 (proj2 U1))) E) as Hpost end.
    all: eapply fun_finish; [apply HI0 | reflexivity | reflexivity | exact U1 | exact Hpost | auto with c08].
Qed.

Lemma pop_call_R : forall fuel, Q_fun fuel -> forall d id c s s1 o s2, Inv s -> In id (j_deferStack s) ->
  j_pop_deferred id s = Some (c, s1) -> run_dcall vr fuel p d c s1 = Some (o, s2) -> R s o s2.
Proof.
  intros fuel IHf d id c s s1 o s2 HI Hin Epop E.
  destruct (Inv_pop_call _ _ _ _ HI Hin Epop) as (HI1 & Hd1 & Ho1). apply (R_shift0 _ _ _ _ Hd1 Ho1).
  destruct c as [b cell|f arg]; cbn [run_dcall] in E; [exact (IHf _ _ _ _ _ _ HI1 E)|].
  destruct (j_fresh2 s1) as [c' s1'] eqn:E2. apply (call_same fuel IHf _ _ _ _ _ _ _ HI1) in E; [exact E|].
  eapply same_trans; [exact (fresh2_same _ _ _ E2)|same_tac].
Qed.

(* the list [id] on top is exhausted: its frame is popped *)
Lemma pop_frame_unwound : forall s id ds0, Inv s -> j_deferStack s = id :: ds0 -> j_pop_deferred id s = None ->
  unwound s (j_set_ds (tl (j_deferStack s)) s).
Proof.
  intros s id ds0 HI Hd Epop. split; [exact (Inv_pop_frame _ _ _ HI Hd (pop_none _ _ Epop))|].
  split; [reflexivity|exact (suffix_tl (j_deferStack s))].
Qed.

Lemma step_lp : forall fuel, Q_fun fuel -> Q_lp fuel -> Q_lp (S fuel).
Proof.
  intros fuel IHf IHl. red. intros d cur v s res s' HI Ht H. cbn [impl_loop] in H.
  destruct (match cur with Some id => Some id | None => match j_deferStack s with id :: _ => Some id | [] => None end end) as [id|] eqn:Etop.
  2:{ (* the panic reached the top of the stack *)
      inversion H; subst. apply unwound_same; [exact HI|same_tac]. }
  assert (Hd : exists ds0, j_deferStack s = id :: ds0).
  { destruct cur as [id0|]; [inversion Etop; subst; exact (Ht id eq_refl)|]. destruct (j_deferStack s); inversion Etop; subst; eauto. }
  destruct Hd as [ds0 Hd].
  destruct (j_pop_deferred id s) as [[c s1]|] eqn:Epop.
  - fold (run_dcall vr fuel p d c s1) in H. destruct (run_dcall vr fuel p d c s1) as [[o s2]|] eqn:Ecall; [|discriminate H].
    assert (HR : R s o s2) by (eapply (pop_call_R fuel IHf); [exact HI|rewrite Hd; now left|exact Epop|exact Ecall]).
    destruct HR as [U D].
    assert (Hnext : nothrow o -> impl_loop vr fuel p d (Some id) true (Some v) s2 = Some (res, s') -> unwound s s').
    { intros Hn H'. exact (unwound_trans _ _ _ U (IHl _ _ _ _ _ _ (proj1 U) (top_some id ds0 s2 (eq_trans (D Hn) Hd)) H')). }
    (* if the call recovered the panic, $panic throws null to unwind the JavaScript stack down to the recovering frame *)
    destruct o as [| |e]; [destruct (j_psd s2); [apply Hnext; auto with c08|] ..|];
      inversion H; subst; exact U.
  - (* the list is exhausted: the panic goes on in the caller's frame *)
    pose proof (pop_frame_unwound s id ds0 HI Hd Epop) as U1.
    exact (unwound_trans _ _ _ U1 (IHl _ _ _ _ _ _ (proj1 U1) (top_none _) H)).
Qed.

Lemma step_le : forall fuel, Q_fun fuel -> Q_le fuel -> Q_le (S fuel).
Proof.
  intros fuel IHf IHl. red. intros d id s res s' HI [ds0 Hd] H. cbn [impl_loop] in H.
  destruct (j_pop_deferred id s) as [[c s1]|] eqn:Epop.
  - fold (run_dcall vr fuel p d c s1) in H. destruct (run_dcall vr fuel p d c s1) as [[o s2]|] eqn:Ecall; [|discriminate H].
    assert (HR : R s o s2) by (eapply (pop_call_R fuel IHf); [exact HI|rewrite Hd; now left|exact Epop|exact Ecall]).
    destruct HR as [U D].
    assert (Hnext : nothrow o -> impl_loop vr fuel p d (Some id) false None s2 = Some (res, s') ->
              unwound s s' /\ match res with
                              | LRet => ~ In id (j_deferStack s') /\ j_deferStack s' = tl (j_deferStack s)
                              | LThrow e c => c = Some id /\ top_or_gone id s'
                              | LThrowTop e => False
                              end).
    { intros Hn H'. specialize (D Hn).
      destruct (IHl _ _ _ _ _ (proj1 U) (ex_intro _ ds0 (eq_trans D Hd)) H') as [U' P].
      split; [exact (unwound_trans _ _ _ U U')|]. rewrite <- D. exact P. }
    destruct o as [| |e]; [apply Hnext; auto with c08 ..|].
    (* the deferred call threw *)
    inversion H; subst. split; [exact U|]. split; [reflexivity|].
    exact (own_top_or_gone _ _ _ _ (proj1 HI) Hd (proj2 (proj2 U))).
  - (* the list is exhausted: pop the frame *)
    pose proof (pop_frame_unwound s id ds0 HI Hd Epop) as U1.
    set (s1 := j_set_ds (tl (j_deferStack s)) s) in *.
    assert (Hd1 : j_deferStack s1 = ds0) by (subst s1; cbn; rewrite Hd; reflexivity).
    assert (Hnin : ~ In id (j_deferStack s1)) by (rewrite Hd1; destruct HI as [[A _ _] _]; rewrite Hd in A; now inversion A).
    destruct (j_exit s1) as [n|]; [destruct (Nat.ltb (length (j_deferStack s1)) n)|]; inversion H; subst res s';
      try (split; [exact U1|]; split; [exact Hnin|reflexivity]).
    (* runtime.Goexit is unwinding frames that are still on the stack: throw null again *)
    split; [eapply unwound_trans; [exact U1|apply unwound_same; [exact (proj1 U1)|same_tac]]|].
    split; [reflexivity|]. intro Hi. exfalso. exact (Hnin Hi).
Qed.

(* the finally block: [sf] is [s3] with $stackDepthOffset incremented again (and $panicStackDepth, $panicValue restored) *)
Lemma cd_close : forall s s2 s3 sf,
  j_deferStack s2 = j_deferStack s -> j_offset s2 = (j_offset s - 1)%Z -> unwound s2 s3 ->
  j_deferStack sf = j_deferStack s3 -> j_lists sf = j_lists s3 -> j_next sf = j_next s3 ->
  j_panicStack sf = j_panicStack s3 -> j_offset sf = (j_offset s3 + 1)%Z -> unwound s sf.
Proof.
  intros s s2 s3 sf Hd2 Ho2 ([HI3 Hp3] & Ho3 & S3) Ed El En Ep Eo.
  split; [split; [eapply Inv0_frame; [exact Ed|exact El|rewrite En; auto|exact HI3] | congruence]|].
  split; [lia | rewrite Ed, <- Hd2; exact S3].
Qed.

Lemma step_cdp : forall fuel, Q_lp fuel -> Q_cdp (S fuel).
Proof.
  intros fuel IHl. red. intros d v s out s' [HI0 Hps] H.
  cbn [impl_cd] in H. rewrite Hao in H. cbn [negb andb j_panicStack j_set_offset j_set_ps] in H. rewrite Hps in H.
  match type of H with context [impl_loop vr fuel p d None true (Some v) ?S2] => set (s2 := S2) in * end.
  destruct (impl_loop vr fuel p d None true (Some v) s2) as [[res s3]|] eqn:El; [|discriminate H].
  assert (HI2 : Inv s2) by (split; [eapply Inv0_frame; [..|exact HI0]; auto | reflexivity]).
  pose proof (IHl _ _ _ _ _ _ HI2 (top_none _) El) as U.
  destruct res as [|e c|e]; destruct (j_psd s3); inversion H; subst out s'.
  all: eapply (cd_close s s2 s3); [reflexivity|reflexivity|exact U|reflexivity..].
Qed.

Lemma step_cde : forall fuel, Q_cdp fuel -> Q_cde fuel -> Q_le fuel -> Q_cde (S fuel).
Proof.
  intros fuel IHp IHc IHl. red. intros d id jsErr s out s' HI Htop H.
  cbn [impl_cd] in H. rewrite Hao in H. cbn [negb andb] in H. destruct HI as [HI0 Hps]. assert (HI : Inv s) by (split; assumption).
  destruct (mem_nat id (j_deferStack s)) eqn:Em; cbn [negb] in H.
  2:{ (* the frame was already unwound: rethrow *)
      inversion H; subst out s'. split; [exact (unwound_refl s HI)|].
      split; [apply mem_nat_false; exact Em|apply throw_not_nothrow]. }
  destruct (Htop (mem_nat_true _ _ Em)) as [ds0 Hd].
  destruct jsErr as [ev|].
  + (* a JavaScript error / uncaught panic value: wrapped into a new panic first *)
    destruct (impl_cd vr fuel p (d + 2) None None true (j_set_ps (PJsErr :: j_panicStack s) s)) as [[o1 s1]|] eqn:E1; [|discriminate H].
    pose proof (IHp _ _ _ _ _ HI E1) as U1.
    destruct (IHc _ _ _ _ _ _ (proj1 U1) (own_top_or_gone _ _ _ _ HI0 Hd (proj2 (proj2 U1))) H) as (U2 & F2 & G2).
    split; [exact (unwound_trans _ _ _ U1 U2)|]. split; [exact F2|].
    intro Hn. exists ds0. split; [exact Hd|].
    exact (popped_own s s1 s' id ds0 HI0 Hd (proj2 (proj2 U1)) (G2 Hn)).
  + cbn [j_panicStack j_set_offset] in H. rewrite Hps in H.
    set (s2 := j_set_offset (j_offset s - 1) s) in *.
    destruct (impl_loop vr fuel p d (Some id) false None s2) as [[res s3]|] eqn:El; [|discriminate H].
    assert (HI2 : Inv s2) by (split; [eapply Inv0_frame; [..|exact HI0]; auto | exact Hps]).
    destruct (IHl _ _ _ _ _ HI2 (ex_intro _ ds0 Hd) El) as [U D].
    destruct res as [|e c|e]; [| |destruct D].
    * (* every deferred call has run and the frame is popped *)
      inversion H; subst out s'. destruct D as [G1 G2].
      split; [eapply (cd_close s s2 s3); [reflexivity|reflexivity|exact U|reflexivity..]|].
      split; [exact G1|]. intros _. exists ds0. split; [exact Hd|].
      etransitivity; [exact G2|]. cbn. rewrite Hd. reflexivity.
    * (* a deferred call threw: $callDeferred(deferred, err) once more, from the catch clause *)
      destruct D as [-> G].
      destruct (impl_cd vr fuel p (d + 1) (Some id) (jsErr_of e) false s3) as [[o4 s4]|] eqn:E4; [|discriminate H].
      inversion H; subst out s'. clear H.
      destruct (IHc _ _ _ _ _ _ (proj1 U) G E4) as (U4 & F4 & G4).
      split; [eapply (cd_close s s2 s4); [reflexivity|reflexivity|exact (unwound_trans _ _ _ U U4)|reflexivity..]|].
      split; [exact F4|]. intro Hn. exists ds0. split; [exact Hd|].
      exact (popped_own s s3 s4 id ds0 HI0 Hd (proj2 (proj2 U)) (G4 Hn)).
Qed.

Lemma stack_shape : forall fuel, Q_exec fuel /\ Q_fun fuel /\ Q_cdp fuel /\ Q_cde fuel /\ Q_lp fuel /\ Q_le fuel.
Proof.
  induction fuel as [|fuel (IHe & IHf & IHp & IHc & IHlp & IHle)].
  - split; [|split; [|split; [|split; [|split]]]]; red; intros; cbn in *; discriminate.
  - split; [apply step_exec; assumption|]. split; [apply step_fun; assumption|].
    split; [apply step_cdp; assumption|]. split; [apply step_cde; assumption|].
    split; [apply step_lp; assumption|apply step_le; assumption].
Qed.
End StackShape.

(* [Q_fun] spelled out, and the lists it leaves: every $deferred list that does not belong to a still active frame is empty *)
Lemma fun_leaves_clean : forall vr fuel p d cell body s out s',
  v_pushback_asleep_only vr = true -> Inv s ->
  impl_fun vr fuel p d cell body s = Some (out, s') ->
  Inv s' /\ j_offset s' = j_offset s /\ suffix (j_deferStack s') (j_deferStack s) /\
  ((forall e, out <> JThrow e) -> j_deferStack s' = j_deferStack s) /\
  (forall id, ~ In id (j_deferStack s) -> list_get (j_lists s') id = []).
Proof.
  intros vr fuel p d cell body s out s' Hao HI H.
  destruct (stack_shape vr p Hao fuel) as (_ & Hf & _).
  destruct (Hf d cell body s out s' HI H) as ((A & B & C) & D).
  split; [exact A|]. split; [exact B|]. split; [exact C|]. split; [exact D|].
  intros id Hn. apply A. intro Hi. apply Hn. eapply suffix_in; eassumption.
Qed.

Lemma run_ends_clean : forall vr fuel p out s,
  v_pushback_asleep_only vr = true ->
  impl_fun vr fuel p 0 0 wrapper j_init = Some (out, s) ->
  j_deferStack s = [] /\ j_panicStack s = [] /\ j_offset s = 0%Z /\ forall id, list_get (j_lists s) id = [].
Proof.
  intros vr fuel p out s Hao H.
  destruct (fun_leaves_clean _ _ _ _ _ _ _ _ _ Hao Inv_init H) as (A & B & C & _ & E).
  split; [apply suffix_nil_inv; exact C|]. split; [apply A|]. split; [exact B|].
  intro id. apply E. intros [].
Qed.

(* [Q_cde] spelled out *)
Lemma epilogue_pops_own_frame : forall vr fuel p d id jsErr s out s',
  v_pushback_asleep_only vr = true -> Inv s ->
  (In id (j_deferStack s) -> exists ds0, j_deferStack s = id :: ds0) ->
  impl_cd vr fuel p d (Some id) jsErr false s = Some (out, s') ->
  Inv s' /\ j_offset s' = j_offset s /\ ~ In id (j_deferStack s') /\
  ((forall e, out <> JThrow e) -> exists ds0, j_deferStack s = id :: ds0 /\ j_deferStack s' = ds0).
Proof.
  intros vr fuel p d id jsErr s out s' Hao HI Ht H.
  destruct (stack_shape vr p Hao fuel) as (_ & _ & _ & Hc & _).
  destruct (Hc d id jsErr s out s' HI Ht H) as ((A & B & _) & F & G).
  auto.
Qed.

(* $panic never returns: a panic either reaches the top of the stack (fatal) or is recovered, and then null is
   thrown to unwind the JavaScript stack down to the recovering frame *)
Lemma panic_never_returns : forall vr fuel p d v s out s',
  v_pushback_asleep_only vr = true -> Inv s ->
  impl_cd vr fuel p d None None true (j_set_ps (v :: j_panicStack s) s) = Some (out, s') ->
  (exists e, out = JThrow e) /\ Inv s' /\ j_offset s' = j_offset s /\ suffix (j_deferStack s') (j_deferStack s).
Proof.
  intros vr fuel p d v s out s' Hao HI H.
  destruct (stack_shape vr p Hao fuel) as (_ & _ & Hc & _).
  split; [eapply panic_throws; [|exact H]; discriminate | exact (Hc d v s out s' HI H)].
Qed.
