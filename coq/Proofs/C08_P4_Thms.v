(* C08 — consequences of the stack-shape invariant (Proofs/C08_P4_Steps3.v [stack_shape]) together with the LIFO invariant
   of the $deferred lists (Proofs/C08_Panic.v [impl_preserves_inv]) *)
From Coq Require Import List ZArith Bool Arith Lia.
From Verif Require Import Model.C08_Panic Proofs.C08_Panic Proofs.C08_P4_Once Proofs.C08_P4_Steps3.
Import ListNotations.

(* once an activation has been left; its own list is included: the id is fresh, so not on the deferStack of [s] *)
Lemma defer_exactly_once_per_activation : forall vr fuel p d cell body s out s',
  v_pushback_asleep_only vr = true -> Inv s -> inv s ->
  impl_fun vr fuel p d cell body s = Some (out, s') ->
  forall id, ~ In id (j_deferStack s) -> pend id (j_trace s') = Some [].
Proof.
  intros vr fuel p d cell body s out s' Hao HI Hinv H id Hn.
  destruct (fun_leaves_clean _ _ _ _ _ _ _ _ _ Hao HI H) as (_ & _ & _ & _ & E).
  destruct (impl_preserves_inv fuel) as (_ & Hf & _).
  rewrite (Hf vr p d cell body s out s' Hinv H id). rewrite (E id Hn). reflexivity.
Qed.

Lemma defer_lifo_exactly_once : forall vr fuel p out s,
  v_pushback_asleep_only vr = true ->
  impl_fun vr fuel p 0 0 wrapper j_init = Some (out, s) ->
  forall id, pend id (j_trace s) = Some [].
Proof.
  intros vr fuel p out s Hao H id.
  eapply defer_exactly_once_per_activation; [exact Hao|exact Inv_init|exact inv_init|exact H|].
  intros [].
Qed.
