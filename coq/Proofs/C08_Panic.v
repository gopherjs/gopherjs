(* C08 — SpecPanic / ImplPanic (Model/C08_Panic.v): the witness programs of the recorded findings; the LIFO invariant of the
   $deferred lists over every run ([impl_preserves_inv]); the enumerated programs, judged in one pass per program
   ([prog_ok]: one run of SpecPanic, one of ImplPanic for all the variants of a sweep, which share it by [impl_same_core],
   [impl_same_panic_free] or [impl_same_calm_defers]).  A program with statements behind a return, Goexit or panic runs
   like the program without them, which is enumerated too, and is not run ([cut_good], [skip_good]). *)
From Coq Require Import List ZArith NArith Bool Arith Lia.
From Verif Require Import Model.C08_Panic Proofs.C08_P4_Once Proofs.C08_P4_Steps3.
Import ListNotations.
Local Open Scope Z_scope.

Definition impl_refines_spec_on (gx : variant) (p : program) : Prop :=
  forall fuel r, obs (spec_run fuel p) = Some r -> exists fuel', obs (impl_run gx fuel' p) = Some r.

(* witness 1: a deferred call replaces the panic, the replacement is recovered,
   the implementation re-activates the aborted panic.
     func f0() { defer func(){ recover() }(); defer func(){ panic(2) }(); panic(1) } *)
Definition wit_replaced : program :=
  [[SDeferClo [SRecover]; SDeferClo [SPanic (PInt 2)]; SPanic (PInt 1)]].

(* witness 2: Goexit below a function with defers *)
Definition wit_goexit : program :=
  [[SCall 1%nat; STrace 9]; [SDeferClo [STrace 1]; SGoexit; STrace 8]].

(* witness 3: the re-activated panic is recovered by a later deferred call, and
   the remaining deferred call (STrace 0) is never run *)
Definition wit_skipped : program :=
  [[SDeferClo [STrace 0]; SDeferClo [SRecover]; SDeferClo [SRecover]; SDeferClo [SPanic (PInt 2)]; SPanic (PInt 1)]].

Lemma fuel_mono_placeholder : True. Proof. exact I. Qed.

Lemma wit_replaced_runs :
  obs (spec_run 100 wit_replaced) = Some ([ERec (Some (PInt 2)); ETraceX 0 0], FNormal) /\
  obs (impl_run V_OLD 100 wit_replaced) = Some ([ERec (Some (PInt 2))], FFatal (PInt 1)).
Proof. split; vm_compute; reflexivity. Qed.

Lemma wit_goexit_runs :
  obs (spec_run 100 wit_goexit) = Some ([ETrace 1], FNormal) /\
  obs (impl_run V_OLD 100 wit_goexit) = Some ([ETrace 1; ETrace 9; ETraceX 0 0], FNormal).
Proof. split; vm_compute; reflexivity. Qed.

Lemma wit_skipped_runs :
  obs (spec_run 100 wit_skipped) = Some ([ERec (Some (PInt 2)); ERec None; ETrace 0; ETraceX 0 0], FNormal) /\
  obs (impl_run V_OLD 100 wit_skipped) = Some ([ERec (Some (PInt 2)); ERec (Some (PInt 1)); ETraceX 0 0], FNormal).
Proof. split; vm_compute; reflexivity. Qed.

(* pending deferred calls of list [id] after the (newest-first) trace [t]: a stack of
   the push numbers; a run event must take the most recently pushed pending call *)
Definition step_pend (id : nat) (e : event) (stk : list nat) : option (list nat) :=
  match e with
  | EPush a k => if Nat.eqb a id then (if Nat.eqb k (length stk) then Some (k :: stk) else None) else Some stk
  | ERun a k => if Nat.eqb a id
                then match stk with k' :: s' => if Nat.eqb k k' then Some s' else None | [] => None end
                else Some stk
  | _ => Some stk
  end.
Fixpoint pend (id : nat) (t : list event) : option (list nat) :=
  match t with
  | [] => Some []
  | e :: t' => match pend id t' with None => None | Some stk => step_pend id e stk end
  end.

Fixpoint heights (n : nat) : list nat := match n with O => [] | S m => m :: heights m end.
Lemma heights_length : forall n, length (heights n) = n.
Proof. induction n; cbn; congruence. Qed.

Definition inv (s : jstate) : Prop :=
  forall id, pend id (j_trace s) = Some (heights (length (list_get (j_lists s) id))).

Lemma inv_init : inv j_init.
Proof. intro id. reflexivity. Qed.

Lemma inv_same : forall s s', j_trace s' = j_trace s -> j_lists s' = j_lists s -> inv s -> inv s'.
Proof. unfold inv; intros s s' Ht Hl H id. rewrite Ht, Hl. apply H. Qed.

Lemma inv_setcell : forall c v s, inv s -> inv (j_setcell c v s).
Proof. intros c v s. apply inv_same; reflexivity. Qed.
Lemma inv_set_ps : forall ps s, inv s -> inv (j_set_ps ps s).
Proof. intros ps s. apply inv_same; reflexivity. Qed.
Lemma inv_set_ds : forall ds s, inv s -> inv (j_set_ds ds s).
Proof. intros ds s. apply inv_same; reflexivity. Qed.
Lemma inv_set_psd : forall d v s, inv s -> inv (j_set_psd d v s).
Proof. intros d v s. apply inv_same; reflexivity. Qed.
Lemma inv_set_offset : forall o s, inv s -> inv (j_set_offset o s).
Proof. intros o s. apply inv_same; reflexivity. Qed.
Lemma inv_set_exit : forall b s, inv s -> inv (j_set_exit b s).
Proof. intros b s. apply inv_same; reflexivity. Qed.

Lemma inv_emit_obs : forall e s, observable e = true -> inv s -> inv (j_emit e s).
Proof.
  unfold inv; intros e s He H id. cbn [j_emit j_trace j_lists pend]. rewrite H.
  destruct e; cbn in He; try discriminate; reflexivity.
Qed.

Lemma list_get_set : forall ls i v j, list_get (list_set ls i v) j = if Nat.eqb j i then v else list_get ls j.
Proof. intros. unfold list_set. cbn [list_get]. reflexivity. Qed.

Lemma inv_push : forall id c s, inv s -> inv (j_push_deferred id c s).
Proof.
  unfold inv, j_push_deferred; intros id c s H j.
  cbn [j_set_lists j_emit j_trace j_lists pend]. rewrite H. rewrite list_get_set.
  cbn [step_pend]. rewrite (Nat.eqb_sym id j).
  destruct (Nat.eqb_spec j id) as [->|].
  - rewrite heights_length, Nat.eqb_refl. reflexivity.
  - reflexivity.
Qed.

Lemma inv_pop : forall id c s s', j_pop_deferred id s = Some (c, s') -> inv s -> inv s'.
Proof.
  unfold inv, j_pop_deferred; intros id c s s' Hp H j.
  destruct (list_get (j_lists s) id) as [|c0 l] eqn:E; [discriminate|].
  inversion Hp; subst; clear Hp.
  cbn [j_set_lists j_emit j_trace j_lists pend]. rewrite H. rewrite list_get_set.
  cbn [step_pend]. rewrite (Nat.eqb_sym id j).
  destruct (Nat.eqb_spec j id) as [->|].
  - rewrite E. cbn [length heights]. rewrite Nat.eqb_refl. reflexivity.
  - reflexivity.
Qed.

Lemma inv_recover : forall d s v s', js_recover d s = (v, s') -> inv s -> inv s'.
Proof.
  unfold js_recover; intros d s v s' E H.
  destruct (j_psd s); [destruct (negb _)|]; inversion E; subst; auto using inv_set_psd.
Qed.

Lemma inv_fresh2 : forall s c s', j_fresh2 s = (c, s') -> inv s -> inv s'.
Proof. unfold j_fresh2, j_fresh; intros s c s' E. cbn in E. inversion E; subst. apply inv_same; reflexivity. Qed.

(* every state update of the machine is one of these *)
#[global] Hint Resolve inv_setcell inv_set_ps inv_set_ds inv_set_psd inv_set_offset inv_set_exit
  inv_emit_obs inv_push inv_pop inv_recover inv_fresh2 : inv.

Definition P_exec (fuel : nat) : Prop :=
  forall gx p d cell dl ss s out s', inv s -> impl_exec gx fuel p d cell dl ss s = Some (out, s') -> inv s'.
Definition P_fun (fuel : nat) : Prop :=
  forall gx p d cell body s out s', inv s -> impl_fun gx fuel p d cell body s = Some (out, s') -> inv s'.
Definition P_cd (fuel : nat) : Prop :=
  forall gx p d deferred jsErr fromPanic s out s', inv s -> impl_cd gx fuel p d deferred jsErr fromPanic s = Some (out, s') -> inv s'.
Definition P_loop (fuel : nat) : Prop :=
  forall gx p d cur fromPanic local s out s', inv s -> impl_loop gx fuel p d cur fromPanic local s = Some (out, s') -> inv s'.

Lemma inv_step_exec : forall fuel, P_exec fuel -> P_fun fuel -> P_cd fuel -> P_exec (S fuel).
Proof.
  intros fuel IHe IHf IHc gx p d cell dl ss s out s' Hinv H. cbn [impl_exec] in H.
  destruct ss as [|st rest]; [crack; assumption|].
  destruct st; crack.
  (* a call or $panic first; where it does not throw, the rest of the list runs *)
  all: try match goal with E : impl_fun _ _ _ _ _ _ _ = Some (_, ?s2) |- _ =>
         assert (inv s2) by (eapply IHf; [|exact E]; eauto with inv) end.
  all: try match goal with E : impl_cd _ _ _ _ _ _ _ _ = Some (_, ?s2) |- _ =>
         assert (inv s2) by (eapply IHc; [|exact E]; auto with inv) end.
  all: try (eapply IHe; [|eassumption]); eauto with inv.
Qed.

Lemma inv_step_fun : forall fuel, P_exec fuel -> P_cd fuel -> P_fun (S fuel).
Proof.
  intros fuel IHe IHc gx p d cell body s out s' Hinv H. cbn [impl_fun] in H.
  destruct (negb (has_defer body)).
  - crack; (eapply IHe; [exact Hinv|eassumption]).
  - cbv beta iota zeta delta [j_fresh] in H. crack.
    all: eapply IHc; [|eassumption]; eapply IHe; [|eassumption]; apply inv_set_ds, (inv_same s); auto.
Qed.

Lemma inv_step_loop : forall fuel, P_fun fuel -> P_loop fuel -> P_loop (S fuel).
Proof.
  intros fuel IHf IHl gx p d cur fromPanic local s out s' Hinv H. cbn [impl_loop] in H. crack.
  all: try match goal with E : impl_fun _ _ _ _ _ _ _ = Some (_, ?s2) |- _ =>
         assert (inv s2) by (eapply IHf; [|exact E]; eauto 6 with inv) end.
  all: try (eapply IHl; [|eassumption]); auto with inv.
Qed.

Lemma inv_step_cd : forall fuel, P_cd fuel -> P_loop fuel -> P_cd (S fuel).
Proof.
  intros fuel IHc IHl gx p d deferred jsErr fromPanic s out s' Hinv H. cbn [impl_cd] in H.
  destruct (negb fromPanic && _); [crack; assumption|].
  destruct jsErr as [ev|].
  - (* wrapped into a new panic, then $callDeferred once more *)
    crack; (eapply IHc; [|eassumption]; eapply IHc; [|eassumption]; auto with inv).
  - destruct (j_panicStack _) as [|v ps]; cbv beta iota zeta in H; crack.
    (* the loop; for LThrow in an epilogue $callDeferred once more; then the finally block, which with a local
       panic value restores $panicStackDepth and may queue the value again *)
    all: match goal with E : impl_loop _ _ _ _ _ _ _ _ = Some (_, ?s3) |- _ =>
           assert (inv s3) by (eapply IHl; [|exact E]; auto with inv) end.
    all: try match goal with E : impl_cd _ _ _ _ _ _ _ _ = Some (_, ?s4) |- _ =>
           assert (inv s4) by (eapply IHc; [|exact E]; assumption) end.
    all: apply inv_set_offset; try (apply inv_set_psd; destruct (j_psd _); [destruct (v_pushback_asleep_only gx)|]); auto with inv.
Qed.

Lemma impl_preserves_inv : forall fuel, P_exec fuel /\ P_fun fuel /\ P_cd fuel /\ P_loop fuel.
Proof.
  induction fuel as [|fuel (IHe & IHf & IHc & IHl)].
  - repeat split; red; intros; cbn in *; discriminate.
  - split; [apply inv_step_exec; assumption|]. split; [apply inv_step_fun; assumption|].
    split; [apply inv_step_cd; assumption|apply inv_step_loop; assumption].
Qed.

Lemma impl_defer_lifo_at_most_once : forall gx fuel p out s,
  impl_fun gx fuel p 0 0 wrapper j_init = Some (out, s) ->
  forall id, pend id (j_trace s) = Some (heights (length (list_get (j_lists s) id))).
Proof.
  intros gx fuel p out s H.
  destruct (impl_preserves_inv fuel) as [_ [Hf _]].
  exact (Hf gx p 0 0%nat wrapper j_init out s inv_init H).
Qed.

(* what [pend] = Some means, spelled out on the two event kinds *)
Lemma pend_run_is_top : forall id k t stk,
  pend id (ERun id k :: t) = Some stk -> pend id t = Some (k :: stk).
Proof.
  intros id k t stk H. cbn [pend] in H. destruct (pend id t) as [st|]; [|discriminate].
  cbn [step_pend] in H. rewrite Nat.eqb_refl in H.
  destruct st as [|k' s']; [discriminate|].
  destruct (Nat.eqb_spec k k'); [subst; inversion H; reflexivity | discriminate].
Qed.
Lemma pend_push_is_next : forall id k t stk,
  pend id (EPush id k :: t) = Some stk -> exists st, pend id t = Some st /\ stk = k :: st /\ k = length st.
Proof.
  intros id k t stk H. cbn [pend] in H. destruct (pend id t) as [st|]; [|discriminate].
  cbn [step_pend] in H. rewrite Nat.eqb_refl in H.
  destruct (Nat.eqb_spec k (length st)); [|discriminate].
  inversion H; subst. eauto.
Qed.

(* equality of observable events and of final states, as tests the sweeps can evaluate cheaply ([obs] leaves no ghost events) *)
Definition pval_eqb (a b : pval) : bool :=
  match a, b with
  | PInt x, PInt y => Z.eqb x y | PRt x, PRt y => N.eqb x y | PJsErr, PJsErr => true | _, _ => false
  end.
Definition event_eqb (a b : event) : bool :=
  match a, b with
  | ETrace x, ETrace y => Z.eqb x y
  | ETraceX x r, ETraceX y q => Z.eqb x y && Z.eqb r q
  | ERec None, ERec None => true
  | ERec (Some x), ERec (Some y) => pval_eqb x y
  | _, _ => false
  end.
Fixpoint events_eqb (a b : list event) : bool :=
  match a, b with
  | [], [] => true
  | x :: a', y :: b' => event_eqb x y && events_eqb a' b'
  | _, _ => false
  end.
Definition final_eqb (a b : final) : bool :=
  match a, b with
  | FNormal, FNormal | FCrash, FCrash => true
  | FFatal x, FFatal y => pval_eqb x y
  | _, _ => false
  end.

Lemma pval_eqb_eq : forall a b, pval_eqb a b = true -> a = b.
Proof.
  intros [x|x|] [y|y|]; cbn; intro H; try discriminate H; try reflexivity; f_equal.
  - apply Z.eqb_eq, H.
  - apply N.eqb_eq, H.
Qed.
Lemma event_eqb_eq : forall a b, event_eqb a b = true -> a = b.
Proof.
  intros [x|x r|[v|]|a k|a k] [y|y q|[w|]|b j|b j]; cbn; intro H; try discriminate H; try reflexivity.
  - f_equal. apply Z.eqb_eq, H.
  - apply andb_prop in H. destruct H as [H1 H2]. apply Z.eqb_eq in H1, H2. congruence.
  - do 2 f_equal. apply pval_eqb_eq, H.
Qed.
Lemma events_eqb_eq : forall a b, events_eqb a b = true -> a = b.
Proof.
  induction a as [|x a IH]; intros [|y b]; cbn; intro H; try discriminate H; [reflexivity|].
  apply andb_prop in H. destruct H as [H1 H2]. f_equal; [apply event_eqb_eq, H1 | apply IH, H2].
Qed.
Lemma final_eqb_eq : forall a b, final_eqb a b = true -> a = b.
Proof. intros [|x|] [|y|]; cbn; intro H; try discriminate H; try reflexivity. f_equal. apply pval_eqb_eq, H. Qed.

Lemma filter_rev : forall A (f : A -> bool) l, filter f (rev l) = rev (filter f l).
Proof.
  induction l as [|x l IH]; [reflexivity|]. cbn [rev filter]. rewrite filter_app, IH. cbn [filter].
  destruct (f x); [reflexivity | apply app_nil_r].
Qed.

Fixpoint bodies_upto (n : nat) (al : list stmt) : list (list stmt) :=
  match n with O => [[]] | S n' => [] :: flat_map (fun s => map (cons s) (bodies_upto n' al)) al end.

(* the statements of E1; its deferred closures are made of [calm_leaves], which has no panic *)
Definition leaves : list stmt := [STrace 1; SRecover; SPanic (PInt 1); SSetR 1; SReturn].
Definition calm_leaves : list stmt := [STrace 1; SRecover; SSetR 1; SReturn; SCallClo [SRecover]; SDeferClo [SRecover]].
Definition alphabet1 : list stmt :=
  leaves ++ map SCallClo (bodies_upto 2 leaves) ++ map SDeferClo (bodies_upto 2 calm_leaves).
(* E1: one function, at most 2 statements over 79 statement shapes (closures with up to 2 statements) *)
Definition enum1 : list program := map (fun b => [b]) (bodies_upto 2 alphabet1).

Definition alphabet2 : list stmt :=
  leaves ++ [SCallClo [SRecover]; SCallClo [SPanic (PInt 2)]; SDeferClo [SRecover]; SDeferClo [SRecover; SSetR 2];
             SDeferClo [SCallClo [SRecover]]; SDeferClo [SDeferClo [SRecover]]].
(* E2: one function, at most 5 statements over 11 statement shapes *)
Definition enum2 : list program := map (fun b => [b]) (bodies_upto 5 alphabet2).

Definition alphabet3a : list stmt :=
  [STrace 1; SRecover; SCall 1%nat; SDefer 1%nat; SDeferClo [SRecover]; SPanic (PInt 1)].
Definition alphabet3b : list stmt :=
  [STrace 2; SRecover; SDeferClo [SRecover]; SSetR 2; STraceX; SReturn].
Definition alphabet3c : list stmt :=
  [STrace 2; SRecover; SDeferClo [SRecover]; SPanic (PInt 2); SSetR 2; SPanic (PRt 0)].
(* E3: two functions; f0 (<= 3 statements) calls / defers f1 (<= 2 statements); f1 never panics *)
Definition enum3 : list program :=
  flat_map (fun a => map (fun b => [a; b]) (bodies_upto 2 alphabet3b)) (bodies_upto 3 alphabet3a).
(* E4: f0 only CALLS f1 (never defers it), f1 may panic *)
Definition enum4 : list program :=
  flat_map (fun a => map (fun b => [a; b]) (bodies_upto 2 alphabet3c))
           (bodies_upto 3 [STrace 1; SRecover; SCall 1%nat; SDeferClo [SRecover]; SSetR 1]).
(* E5: Goexit across frames, in deferred calls, with deferred calls that themselves call
   functions with defers while the goroutine is exiting *)
Definition enum5 : list program :=
  flat_map (fun a => map (fun b => [a; b])
                         (bodies_upto 2 [STrace 2; SDeferClo [STrace 3]; SDeferClo [SRecover]; SGoexit; SSetR 2;
                                         SDeferClo [SCallClo [SDeferClo [STrace 6]]; STrace 7]]))
           (bodies_upto 3 [STrace 1; SRecover; SCall 1%nat; SDeferClo [SRecover]; SDeferClo [STrace 4]; SGoexit;
                           SDeferClo [SCall 1%nat; STrace 5]; SDeferClo [SGoexit]]).
(* E6: panics raised INSIDE deferred calls (replaced panics, re-panic after recover, panic in a
   helper of a deferred call, nested deferred recover): one function, <= 4 statements over 16 shapes *)
Definition alphabet6 : list stmt :=
  leaves ++ [SCallClo [SRecover]; SCallClo [SPanic (PInt 2)]; SDeferClo [SRecover]; SDeferClo [SPanic (PInt 2)];
             SDeferClo [SRecover; SPanic (PInt 3)]; SDeferClo [SPanic (PInt 2); SRecover];
             SDeferClo [SDeferClo [SRecover]; SPanic (PInt 2)]; SDeferClo [SCallClo [SPanic (PInt 2)]];
             SDeferClo [SCallClo [SDeferClo [SRecover]; SPanic (PInt 4)]; SRecover];
             SDeferClo [SRecover; SSetR 2]; SDeferClo [STrace 2]].
Definition enum6 : list program := map (fun b => [b]) (bodies_upto 4 alphabet6).
(* E7: two functions; f0 calls / defers f1, both may panic, also inside deferred closures *)
Definition enum7 : list program :=
  flat_map (fun a => map (fun b => [a; b]) (bodies_upto 2 (alphabet3c ++ [SDeferClo [SPanic (PInt 5)]])))
           (bodies_upto 3 [STrace 1; SRecover; SCall 1%nat; SDefer 1%nat; SDeferClo [SRecover]; SPanic (PInt 1);
                           SDeferClo [SPanic (PInt 3)]; SDeferClo [SCall 1%nat; SRecover]]).
(* E8: Goexit together with panics in deferred calls *)
Definition enum8 : list program :=
  map (fun b => [b]) (bodies_upto 4 [STrace 1; SRecover; SDeferClo [SRecover]; SDeferClo [SPanic (PInt 2)]; SGoexit;
                                     SPanic (PInt 1); SDeferClo [SGoexit]; SDeferClo [SRecover; SGoexit]]).

(* enough for every enumerated program: a run that ends in [None] fails its sweep *)
Definition ENUM_FUEL : nat := 300.

(* what the sweeps establish about one program under one variant *)
Definition prog_good (vr : variant) (fuel : nat) (p : program) : Prop :=
  (exists r, obs (spec_run fuel p) = Some r /\ obs (impl_run vr fuel p) = Some r) /\
  (exists out s, impl_fun vr fuel p 0 0 wrapper j_init = Some (out, s) /\
     forall id, (id < j_next s)%nat -> pend id (j_trace s) = Some []).

(* The interpreter proper reads only the first two flags of the variant; the third is consulted by
   [impl_final] alone.  So variants that agree on the first two share one run. *)
Definition same_core (v v' : variant) : Prop :=
  v_goexit_rethrow v = v_goexit_rethrow v' /\ v_pushback_asleep_only v = v_pushback_asleep_only v'.

(* an equation whose sides are the same case tree over calls that [rw] can rewrite into each other: rewrite the calls in
   sight, then open the innermost scrutinee, which brings the next ones into sight *)
Ltac same_tree rw :=
  repeat (rw; try reflexivity;
          match goal with |- context [match ?x with _ => _ end] =>
            lazymatch x with context [match _ with _ => _ end] => fail | _ => destruct x end end).

Lemma impl_same_core : forall v v', same_core v v' -> forall fuel,
  (forall p d cell dl ss s, impl_exec v fuel p d cell dl ss s = impl_exec v' fuel p d cell dl ss s) /\
  (forall p d cell b s, impl_fun v fuel p d cell b s = impl_fun v' fuel p d cell b s) /\
  (forall p d df e fp s, impl_cd v fuel p d df e fp s = impl_cd v' fuel p d df e fp s) /\
  (forall p d cur fp l s, impl_loop v fuel p d cur fp l s = impl_loop v' fuel p d cur fp l s).
Proof.
  intros v v' [Hg Hp]. induction fuel as [|fuel (IHe & IHf & IHc & IHl)].
  - repeat split; reflexivity.
  - repeat split; intros; cbn [impl_exec impl_fun impl_cd impl_loop]; rewrite <- ?Hg, <- ?Hp;
      same_tree ltac:(rewrite ?IHe, ?IHf, ?IHc, ?IHl).
Qed.

(* [v_pushback_asleep_only] is read at one place: the finally block of $callDeferred, and only when the panic stack
   was not empty on entry.  Only [SPanic] (and a panic value caught from below, which stems from one) pushes on that
   stack.  So on a program without [SPanic] the stack stays empty, the flag is out of reach, and variants that agree
   on [v_goexit_rethrow] share one run. *)
Fixpoint no_panic (st : stmt) : bool :=
  match st with
  | SPanic _ => false
  | SCallClo b | SDeferClo b => forallb no_panic b
  | _ => true
  end.
Definition panic_free (p : program) : bool := forallb (forallb no_panic) p.

Lemma forallb_body : forall (P : list stmt -> bool) p f, P [] = true -> forallb P p = true -> P (body_of p f) = true.
Proof.
  unfold body_of. intros P p f H0. revert f. induction p as [|b p IH]; intros [|f] H; cbn [nth]; try exact H0;
    cbn [forallb] in H; apply andb_prop in H; destruct H as [Hb Hp]; [exact Hb | exact (IH f Hp)].
Qed.

(* what holds of every state of such a run ([quiet]) *)
Definition dcall_no_panic (c : dcall) : Prop :=
  match c with DClo b _ => forallb no_panic b = true | DFun _ _ => True end.

Definition quiet (s : jstate) : Prop :=
  j_panicStack s = [] /\ forall id, Forall dcall_no_panic (list_get (j_lists s) id).

Lemma quiet_same : forall s s', j_panicStack s' = j_panicStack s -> j_lists s' = j_lists s -> quiet s -> quiet s'.
Proof. unfold quiet; intros s s' Hp Hl H. rewrite Hp, Hl. exact H. Qed.

Lemma quiet_push : forall id c s, dcall_no_panic c -> quiet s -> quiet (j_push_deferred id c s).
Proof.
  unfold quiet, j_push_deferred; intros id c s Hc [Hp Hl]. cbn [j_set_lists j_emit j_panicStack j_lists].
  split; [exact Hp|]. intro j. rewrite list_get_set. destruct (Nat.eqb j id); [|apply Hl].
  constructor; [exact Hc | apply Hl].
Qed.

Lemma quiet_pop : forall id c s s', j_pop_deferred id s = Some (c, s') -> quiet s -> dcall_no_panic c /\ quiet s'.
Proof.
  unfold quiet, j_pop_deferred; intros id c s s' Hpop [Hp Hl]. pose proof (Hl id) as Hid.
  destruct (list_get (j_lists s) id) as [|c0 l]; [discriminate|].
  inversion Hpop; subst; clear Hpop. inversion Hid; subst. split; [assumption|].
  cbn [j_set_lists j_emit j_panicStack j_lists]. split; [exact Hp|].
  intro j. rewrite list_get_set. destruct (Nat.eqb j id); [assumption | apply Hl].
Qed.

Lemma quiet_recover : forall d s v s', js_recover d s = (v, s') -> quiet s -> quiet s'.
Proof.
  unfold js_recover; intros d s v s' E H.
  destruct (j_psd s); [destruct (negb _)|]; inversion E; subst; try assumption.
Qed.

Lemma quiet_fresh2 : forall s c s', j_fresh2 s = (c, s') -> quiet s -> quiet s'.
Proof. unfold j_fresh2, j_fresh; intros s c s' E. cbn in E. inversion E; subst. apply quiet_same; reflexivity. Qed.

(* a state that differs from a quiet one in other fields only *)
Ltac quiet_same :=
  match goal with H : quiet ?s |- quiet _ => apply (quiet_same s); [reflexivity | reflexivity | exact H] end.

Definition post_out (o : jout) (s : jstate) : Prop := quiet s /\ match o with JThrow (XFatal _) => False | _ => True end.

Definition agree {A} (Post : A -> jstate -> Prop) (a b : option (A * jstate)) : Prop :=
  a = b /\ forall o s, b = Some (o, s) -> Post o s.
Lemma agree_ret : forall A (Post : A -> jstate -> Prop) o s, Post o s -> agree Post (Some (o, s)) (Some (o, s)).
Proof. intros A Post o s H. split; [reflexivity|]. intros o' s' E. inversion E; subst. exact H. Qed.
Lemma agree_none : forall A (Post : A -> jstate -> Prop), agree Post None None.
Proof. intros A Post. split; [reflexivity|]. intros o s E. discriminate E. Qed.

(* [H : agree Post a b] with both runs scrutinised in the goal: name their common result *)
Ltac use H o s HQ' Ho :=
  let E := fresh "E" in let P := fresh "P" in let R := fresh "R" in
  destruct H as [E P]; rewrite E; clear E;
  match type of P with forall _ _, ?b = _ -> _ =>
    destruct b as [[o s]|] eqn:R; [destruct (P o s eq_refl) as [HQ' Ho]; clear P R | apply agree_none]
  end.

Section PanicFree.
Variables (v v' : variant) (p : program).
Hypothesis Hg : v_goexit_rethrow v = v_goexit_rethrow v'.
Hypothesis Hp : panic_free p = true.

Definition F_exec (fuel : nat) : Prop := forall d cell dl ss s, forallb no_panic ss = true -> quiet s ->
  agree post_out (impl_exec v fuel p d cell dl ss s) (impl_exec v' fuel p d cell dl ss s).
Definition F_fun (fuel : nat) : Prop := forall d cell b s, forallb no_panic b = true -> quiet s ->
  agree post_out (impl_fun v fuel p d cell b s) (impl_fun v' fuel p d cell b s).
Definition F_cd (fuel : nat) : Prop := forall d id s, quiet s ->
  agree post_out (impl_cd v fuel p d (Some id) None false s) (impl_cd v' fuel p d (Some id) None false s).
Definition F_loop (fuel : nat) : Prop := forall d id s, quiet s ->
  agree (fun r s' => quiet s' /\ match r with LRet | LThrow XNull (Some _) => True | _ => False end)
        (impl_loop v fuel p d (Some id) false None s) (impl_loop v' fuel p d (Some id) false None s).

Lemma free_step_exec : forall fuel, F_exec fuel -> F_fun fuel -> F_exec (S fuel).
Proof.
  intros fuel IHe IHf d cell dl ss s Hss HQ. cbn [impl_exec].
  destruct ss as [|st rest]; [apply agree_ret; split; [exact HQ | exact I]|].
  cbn [forallb] in Hss. apply andb_prop in Hss. destruct Hss as [Hst Hrest].
  destruct st; cbn [no_panic] in Hst; try discriminate Hst.
  all: try destruct (cell_get (j_cells s) cell) as [x r].
  1-4: (* STrace, STraceX, SSetX, SSetR *) apply IHe; [exact Hrest | quiet_same].
  - (* SRecover *) destruct (js_recover d s) as [rv s1] eqn:Er. apply quiet_recover in Er; [|exact HQ].
    apply IHe; [exact Hrest | quiet_same].
  - (* SCall *) destruct (j_fresh2 s) as [c s1] eqn:Ef. apply quiet_fresh2 in Ef; [|exact HQ].
    use (IHf (d + 1) c (body_of p f) (j_setcell c (x, 0) s1) (forallb_body _ p f eq_refl Hp) ltac:(quiet_same)) o s2 HQ2 Ho.
    destruct o; try (apply agree_ret; split; assumption).
    all: destruct (cell_get (j_cells s2) cell) as [x' r']; apply IHe; [exact Hrest | quiet_same].
  - (* SCallClo *) use (IHf (d + 1) cell body s Hst HQ) o s2 HQ2 Ho.
    destruct o; try (apply agree_ret; split; assumption); apply IHe; assumption.
  - (* SDefer *) destruct dl; apply IHe; try assumption. apply quiet_push; [exact I | exact HQ].
  - (* SDeferClo *) destruct dl; apply IHe; try assumption. apply quiet_push; [exact Hst | exact HQ].
  - (* SReturn *) apply agree_ret; split; [exact HQ | exact I].
  - (* SGoexit: the one place where [v_goexit_rethrow] is read *) rewrite Hg. apply agree_ret; split; [quiet_same | exact I].
  - (* SRetR *) apply agree_ret; split; [quiet_same | exact I].
  - (* SBlock *) apply IHe; assumption.
Qed.

Lemma free_step_fun : forall fuel, F_exec fuel -> F_cd fuel -> F_fun (S fuel).
Proof.
  intros fuel IHe IHc d cell b s Hb HQ. cbn [impl_fun]. destruct (negb (has_defer b)).
  - use (IHe d cell None b s Hb HQ) o s1 HQ1 Ho. destruct o; apply agree_ret; split; assumption || exact I.
  - cbv beta iota zeta delta [j_fresh].
    match goal with |- context [impl_exec v' fuel p d cell ?dl b ?s0] =>
      use (IHe d cell dl b s0 Hb ltac:(quiet_same)) o s1 HQ1 Ho end.
    (* the body did not throw a panic value: $callDeferred is entered with no error *)
    replace (match o with JThrow e => jsErr_of e | _ => None end) with (@None pval)
      by (destruct o as [| |[|]]; [reflexivity | reflexivity | reflexivity | destruct Ho]).
    match goal with |- context [impl_cd v' fuel p ?d' (Some ?id) None false s1] =>
      use (IHc d' id s1 HQ1) o2 s2 HQ2 Ho2 end.
    destruct o2; apply agree_ret; split; assumption || exact I.
Qed.

Lemma dcall_agree : forall fuel, F_fun fuel -> forall d c s, dcall_no_panic c -> quiet s ->
  agree post_out (run_dcall v fuel p d c s) (run_dcall v' fuel p d c s).
Proof.
  intros fuel IHf d [b cell|f arg] s Hc HQ; cbn [run_dcall]; [exact (IHf _ _ _ _ Hc HQ)|].
  destruct (j_fresh2 s) as [c' s'] eqn:Ef. apply quiet_fresh2 in Ef; [|exact HQ].
  apply IHf; [exact (forallb_body _ p f eq_refl Hp) | quiet_same].
Qed.

Lemma free_step_loop : forall fuel, F_fun fuel -> F_loop fuel -> F_loop (S fuel).
Proof.
  intros fuel IHf IHl d id s HQ. cbn [impl_loop].
  destruct (j_pop_deferred id s) as [[c s1]|] eqn:Epop.
  - destruct (quiet_pop _ _ _ _ Epop HQ) as [Hc HQ1].
    fold (run_dcall v fuel p d c s1). fold (run_dcall v' fuel p d c s1).
    pose proof (dcall_agree fuel IHf d c s1 Hc HQ1) as K. use K o s2 HQ2 Ho.
    destruct o as [| |[|]]; try (apply IHl; exact HQ2); [apply agree_ret; split; [exact HQ2 | exact I] | destruct Ho].
  - (* the list is exhausted, and no panic is being handled: the loop ends here *)
    destruct (j_exit _); [destruct (Nat.ltb _ _)|]; apply agree_ret; split; quiet_same || exact I.
Qed.

Lemma free_step_cd : forall fuel, F_cd fuel -> F_loop fuel -> F_cd (S fuel).
Proof.
  intros fuel IHc IHl d id s HQ. cbn [impl_cd].
  destruct (negb false && _); [apply agree_ret; split; [exact HQ | exact I]|].
  (* the panic stack is empty: no local panic value, and the finally block does nothing *)
  cbn [j_set_offset j_panicStack]. rewrite (proj1 HQ).
  match goal with |- context [impl_loop v' fuel p d (Some id) false None ?s1] =>
    use (IHl d id s1 ltac:(quiet_same)) r s3 HQ3 Hr end.
  destruct r as [|[|] [id'|]|]; try destruct Hr.
  - apply agree_ret; split; [quiet_same | exact I].
  - cbn [jsErr_of]. use (IHc (d + 1) id' s3 HQ3) o s4 HQ4 Ho. apply agree_ret; split; [quiet_same | exact Ho].
Qed.

(* from a quiet state, the two variants run alike and end in a quiet state without a panic value in flight *)
Lemma impl_same_panic_free : forall fuel, F_exec fuel /\ F_fun fuel /\ F_cd fuel /\ F_loop fuel.
Proof.
  induction fuel as [|fuel (IHe & IHf & IHc & IHl)].
  - split; [|split; [|split]]; red; intros; apply agree_none.
  - split; [apply free_step_exec; assumption|]. split; [apply free_step_fun; assumption|].
    split; [apply free_step_cd; assumption | apply free_step_loop; assumption].
Qed.

End PanicFree.

Lemma quiet_init : quiet j_init.
Proof. split; [reflexivity | intro id; constructor]. Qed.

(* The other way to keep [v_pushback_asleep_only] out of reach.  The finally block consults it only while $panicStackDepth
   is set; the loop of $panic's $callDeferred resets it when the panic is recovered and when it reaches the top of the
   stack, so it is still set only if a deferred call has thrown.  On a program without Goexit whose deferred calls are
   inert none does, and no flag of the variant is read at all: every variant has the same run. *)
(* code that cannot throw *)
Fixpoint inert (st : stmt) : bool :=
  match st with
  | SPanic _ | SGoexit | SCall _ | SDefer _ => false
  | SCallClo b | SDeferClo b => forallb inert b
  | _ => true
  end.
Fixpoint defers_inert (p : program) (st : stmt) : bool :=
  match st with
  | SGoexit => false
  | SDefer f => forallb inert (body_of p f)
  | SDeferClo b => forallb inert b
  | SCallClo b => forallb (defers_inert p) b
  | _ => true
  end.
Definition calm_defers (p : program) : bool := forallb (forallb (defers_inert p)) p.

Definition no_throw (o : jout) : Prop := match o with JThrow _ => False | _ => True end.

Section InertDefers.
Variables (v v' : variant) (p : program).
Hypothesis Hc : calm_defers p = true.

Definition dcall_inert (c : dcall) : Prop :=
  forallb inert (match c with DClo b _ => b | DFun f _ => body_of p f end) = true.

Definition still (s : jstate) : Prop :=
  j_panicStack s = [] /\ j_exit s = None /\ forall id, Forall dcall_inert (list_get (j_lists s) id).

Lemma still_same : forall s s', j_panicStack s' = j_panicStack s -> j_exit s' = j_exit s -> j_lists s' = j_lists s -> still s -> still s'.
Proof. unfold still; intros s s' Hp Hx Hl H. rewrite Hp, Hx, Hl. exact H. Qed.

Lemma still_push : forall id c s, dcall_inert c -> still s -> still (j_push_deferred id c s).
Proof.
  unfold still, j_push_deferred; intros id c s Hd (Hp & Hx & Hl). cbn [j_set_lists j_emit j_panicStack j_exit j_lists].
  split; [exact Hp|]. split; [exact Hx|]. intro j. rewrite list_get_set. destruct (Nat.eqb j id); [|apply Hl].
  constructor; [exact Hd | apply Hl].
Qed.

Lemma still_pop : forall id c s s', j_pop_deferred id s = Some (c, s') -> still s ->
  dcall_inert c /\ still s' /\ j_deferStack s' = j_deferStack s.
Proof.
  unfold still, j_pop_deferred; intros id c s s' Hpop (Hp & Hx & Hl). pose proof (Hl id) as Hid.
  destruct (list_get (j_lists s) id) as [|c0 l]; [discriminate|].
  inversion Hpop; subst; clear Hpop. inversion Hid; subst. split; [assumption|]. split; [|reflexivity].
  cbn [j_set_lists j_emit j_panicStack j_exit j_lists]. split; [exact Hp|]. split; [exact Hx|].
  intro j. rewrite list_get_set. destruct (Nat.eqb j id); [assumption | apply Hl].
Qed.

Lemma still_recover : forall d s rv s', js_recover d s = (rv, s') -> still s -> still s' /\ j_deferStack s' = j_deferStack s.
Proof.
  unfold js_recover; intros d s rv s' E H.
  destruct (j_psd s); [destruct (negb _)|]; inversion E; subst; split; try assumption; reflexivity.
Qed.

Ltac still_same :=
  match goal with H : still ?s |- still _ => apply (still_same s); [reflexivity | reflexivity | reflexivity | exact H] end.

(* the two kinds of code: inside a deferred call ([i] = true), elsewhere *)
Definition stmt_ok (i : bool) (st : stmt) : bool := if i then inert st else defers_inert p st.
Definition post_code (i : bool) (ds : list nat) (o : jout) (s : jstate) : Prop :=
  still s /\ (i = true -> no_throw o /\ j_deferStack s = ds).

Definition E_exec (fuel : nat) : Prop := forall i d cell dl ss s ds,
  forallb (stmt_ok i) ss = true -> still s -> (i = true -> j_deferStack s = ds) ->
  agree (post_code i ds) (impl_exec v fuel p d cell dl ss s) (impl_exec v' fuel p d cell dl ss s).
Definition E_fun (fuel : nat) : Prop := forall i d cell b s ds,
  forallb (stmt_ok i) b = true -> still s -> (i = true -> j_deferStack s = ds) ->
  agree (post_code i ds) (impl_fun v fuel p d cell b s) (impl_fun v' fuel p d cell b s).
(* a function epilogue: every queued call is inert; after a body that did not throw the frame is on top and is popped *)
Definition E_cde (fuel : nat) : Prop := forall d id jsErr s, still s ->
  agree (fun o s' => still s' /\ (jsErr = None -> forall ds, j_deferStack s = id :: ds -> no_throw o /\ j_deferStack s' = ds))
        (impl_cd v fuel p d (Some id) jsErr false s) (impl_cd v' fuel p d (Some id) jsErr false s).
Definition E_le (fuel : nat) : Prop := forall d id s ds, still s -> tl (j_deferStack s) = ds ->
  agree (fun r s' => still s' /\ r = LRet /\ j_deferStack s' = ds)
        (impl_loop v fuel p d (Some id) false None s) (impl_loop v' fuel p d (Some id) false None s).
(* $panic: no deferred call throws, so its loop ends with the panic recovered or at the top of the stack: $panicStackDepth is null *)
Definition E_cdp (fuel : nat) : Prop := forall d x s, still s ->
  agree (fun o s' => still s' /\ exists e, o = JThrow e)
        (impl_cd v fuel p d None None true (j_set_ps (x :: j_panicStack s) s)) (impl_cd v' fuel p d None None true (j_set_ps (x :: j_panicStack s) s)).
Definition E_lp (fuel : nat) : Prop := forall d cur x s, still s ->
  agree (fun r s' => still s' /\ j_psd s' = None /\ r <> LRet)
        (impl_loop v fuel p d cur true (Some x) s) (impl_loop v' fuel p d cur true (Some x) s).

Lemma calm_step_exec : forall fuel, E_exec fuel -> E_fun fuel -> E_cdp fuel -> E_exec (S fuel).
Proof.
  intros fuel IHe IHf IHp i d cell dl ss s ds Hss HS Hds. cbn [impl_exec].
  destruct ss as [|st rest]; [apply agree_ret; split; [exact HS | intro E; split; [exact I | exact (Hds E)]]|].
  cbn [forallb] in Hss. apply andb_prop in Hss. destruct Hss as [Hst Hrest].
  destruct st; try (destruct i; discriminate Hst).
  all: try destruct (cell_get (j_cells s) cell) as [x r].
  1-4: (* STrace, STraceX, SSetX, SSetR *) apply IHe; [exact Hrest | still_same | exact Hds].
  - (* SRecover *) destruct (js_recover d s) as [rv s1] eqn:Er. destruct (still_recover _ _ _ _ Er HS) as [HS1 Hd1].
    apply IHe; [exact Hrest | still_same | rewrite <- Hd1 in Hds; exact Hds].
  - (* SCall *) destruct i; [discriminate Hst|].
    destruct (j_fresh2 s) as [c s1] eqn:Ef. unfold j_fresh2, j_fresh in Ef. cbn in Ef. inversion Ef; subst c s1; clear Ef.
    match goal with |- context [impl_fun v' fuel p (d + 1) ?c (body_of p f) ?s1] =>
      use (IHf false (d + 1) c (body_of p f) s1 ds (forallb_body _ p f eq_refl Hc) ltac:(still_same) ltac:(discriminate)) o s2 HS2 Ho end.
    destruct o; try (apply agree_ret; split; [exact HS2 | discriminate]).
    all: destruct (cell_get (j_cells s2) cell) as [x' r']; apply IHe; [exact Hrest | still_same | discriminate].
  - (* SCallClo *) use (IHf i (d + 1) cell body s ds ltac:(destruct i; exact Hst) HS Hds) o s2 HS2 Ho.
    destruct o as [| |e]; [apply IHe; [exact Hrest | exact HS2 | intro E; exact (proj2 (Ho E))] ..|].
    apply agree_ret; split; [exact HS2 | intro E; destruct (proj1 (Ho E))].
  - (* SDefer *) destruct i; [discriminate Hst|]. destruct dl; apply IHe; try assumption. apply still_push; [exact Hst | exact HS].
  - (* SDeferClo *) assert (Hb : forallb inert body = true) by (destruct i; exact Hst).
    destruct dl; apply IHe; try assumption. apply still_push; [exact Hb | exact HS].
  - (* SPanic *) destruct i; [discriminate Hst|]. use (IHp (d + 2) v0 s HS) o s2 HS2 Ho.
    destruct Ho as [e ->]. apply agree_ret; split; [exact HS2 | discriminate].
  - (* SReturn *) apply agree_ret; split; [exact HS | intro E; split; [exact I | exact (Hds E)]].
  - (* SRetR *) apply agree_ret; split; [still_same | intro E; split; [exact I | exact (Hds E)]].
  - (* SBlock *) apply IHe; assumption.
Qed.

Lemma calm_step_fun : forall fuel, E_exec fuel -> E_cde fuel -> E_fun (S fuel).
Proof.
  intros fuel IHe IHc i d cell b s ds Hb HS Hds. cbn [impl_fun]. destruct (negb (has_defer b)).
  - use (IHe i d cell None b s ds Hb HS Hds) o s1 HS1 Ho.
    destruct o as [| |e]; apply agree_ret; (split; [exact HS1|]); intro E; destruct (Ho E) as [Hn Hd]; [split; [exact I | exact Hd] .. | destruct Hn].
  - cbv beta iota zeta delta [j_fresh].
    match goal with |- context [impl_exec v' fuel p d cell (Some ?id) b ?s0] =>
      use (IHe i d cell (Some id) b s0 (id :: ds) Hb ltac:(still_same) (fun E => f_equal (cons id) (Hds E))) o s1 HS1 Ho end.
    match goal with |- context [impl_cd v' fuel p ?d' (Some ?id) ?err false s1] => use (IHc d' id err s1 HS1) o2 s2 HS2 Ho2 end.
    assert (Hpost : i = true -> no_throw o2 /\ j_deferStack s2 = ds).
    { intro E. destruct (Ho E) as [Hn Hd]. apply Ho2; [destruct o; [reflexivity | reflexivity | destruct Hn] | exact Hd]. }
    destruct o2 as [| |e]; apply agree_ret; (split; [exact HS2|]); intro E; destruct (Hpost E) as [Hn Hd]; [split; [exact I | exact Hd] .. | destruct Hn].
Qed.

Lemma calm_dcall : forall fuel, E_fun fuel -> forall d c s ds, dcall_inert c -> still s -> j_deferStack s = ds ->
  agree (post_code true ds) (run_dcall v fuel p d c s) (run_dcall v' fuel p d c s).
Proof.
  intros fuel IHf d [b cell|f arg] s ds Hd HS Hds; cbn [run_dcall]; [exact (IHf true _ _ _ _ _ Hd HS (fun _ => Hds))|].
  unfold j_fresh2, j_fresh. cbn. apply (IHf true); [exact Hd | still_same | intros _; exact Hds].
Qed.

Lemma calm_step_le : forall fuel, E_fun fuel -> E_le fuel -> E_le (S fuel).
Proof.
  intros fuel IHf IHl d id s ds HS Hds. cbn [impl_loop].
  destruct (j_pop_deferred id s) as [[c s1]|] eqn:Epop.
  - destruct (still_pop _ _ _ _ Epop HS) as (Hc1 & HS1 & Hd1).
    fold (run_dcall v fuel p d c s1). fold (run_dcall v' fuel p d c s1).
    pose proof (calm_dcall fuel IHf d c s1 _ Hc1 HS1 Hd1) as K. use K o s2 HS2 Ho. destruct (Ho eq_refl) as [Hn Hd2].
    destruct o as [| |e]; [apply IHl; [exact HS2 | rewrite Hd2; exact Hds] .. | destruct Hn].
  - (* the list is exhausted, no panic is being handled and the goroutine is not exiting: the frame is popped *)
    cbn [j_set_ds j_exit]. rewrite (proj1 (proj2 HS)). apply agree_ret; split; [still_same | split; [reflexivity | exact Hds]].
Qed.

Lemma calm_step_cde : forall fuel, E_cdp fuel -> E_cde fuel -> E_le fuel -> E_cde (S fuel).
Proof.
  intros fuel IHp IHc IHl d id jsErr s HS. cbn [impl_cd negb andb].
  destruct (mem_nat id (j_deferStack s)) eqn:Em; cbn [negb].
  2:{ apply agree_ret; split; [exact HS|]. intros _ ds Hd. rewrite Hd in Em. cbn in Em. rewrite Nat.eqb_refl in Em. discriminate Em. }
  destruct jsErr as [ev|].
  - use (IHp (d + 2) PJsErr s HS) o s1 HS1 Ho.
    match goal with |- context [impl_cd v' fuel p ?d' (Some id) ?err false s1] => use (IHc d' id err s1 HS1) o2 s2 HS2 Ho2 end.
    apply agree_ret; split; [exact HS2 | discriminate].
  - cbn [j_set_offset j_panicStack]. rewrite (proj1 HS).
    match goal with |- context [impl_loop v' fuel p d (Some id) false None ?s1] =>
      use (IHl d id s1 (tl (j_deferStack s)) ltac:(still_same) eq_refl) r s3 HS3 Hr end.
    destruct Hr as [-> Hd3]. apply agree_ret; split; [still_same|]. intros _ ds Hd. split; [exact I|].
    cbn. rewrite Hd3, Hd. reflexivity.
Qed.

Lemma calm_step_lp : forall fuel, E_fun fuel -> E_lp fuel -> E_lp (S fuel).
Proof.
  intros fuel IHf IHl d cur x s HS. cbn [impl_loop].
  destruct (match cur with Some id => Some id | None => match j_deferStack s with id :: _ => Some id | [] => None end end) as [id|].
  2:{ apply agree_ret; split; [still_same | split; [reflexivity | discriminate]]. }
  destruct (j_pop_deferred id s) as [[c s1]|] eqn:Epop.
  - destruct (still_pop _ _ _ _ Epop HS) as (Hc1 & HS1 & Hd1).
    fold (run_dcall v fuel p d c s1). fold (run_dcall v' fuel p d c s1).
    pose proof (calm_dcall fuel IHf d c s1 _ Hc1 HS1 eq_refl) as K. use K o s2 HS2 Ho. destruct (Ho eq_refl) as [Hn _].
    (* the call did not throw: either it recovered the panic, or the loop goes on *)
    destruct o as [| |e]; [destruct (j_psd s2) eqn:Epsd; [apply IHl; exact HS2 | apply agree_ret; split; [exact HS2 | split; [exact Epsd | discriminate]]] .. | destruct Hn].
  - apply IHl. still_same.
Qed.

Lemma calm_step_cdp : forall fuel, E_lp fuel -> E_cdp (S fuel).
Proof.
  intros fuel IHl d x s HS. cbn [impl_cd negb andb j_set_offset j_set_ps j_panicStack].
  match goal with |- context [impl_loop v' fuel p d None true (Some x) ?s2] =>
    use (IHl d None x s2 ltac:(still_same)) r s3 HS3 Hr end.
  destruct Hr as [Hpsd Hr].
  destruct r as [|e c|e]; [destruct (Hr eq_refl) | ..]; cbn [j_psd j_set_psd]; rewrite Hpsd;
    (apply agree_ret; split; [still_same | eexists; reflexivity]).
Qed.

Lemma impl_same_calm_defers : forall fuel, E_exec fuel /\ E_fun fuel /\ E_cde fuel /\ E_le fuel /\ E_cdp fuel /\ E_lp fuel.
Proof.
  induction fuel as [|fuel (IHe & IHf & IHc & IHle & IHp & IHlp)].
  - split; [|split; [|split; [|split; [|split]]]]; red; intros; apply agree_none.
  - split; [apply calm_step_exec; assumption|]. split; [apply calm_step_fun; assumption|].
    split; [apply calm_step_cde; assumption|]. split; [apply calm_step_le; assumption|].
    split; [apply calm_step_cdp; assumption | apply calm_step_lp; assumption].
Qed.

End InertDefers.

Definition shares_run (fuel : nat) (p : program) (vrs : list variant) : Prop :=
  forall v, In v vrs -> impl_fun (hd V_FULL vrs) fuel p 0 0 wrapper j_init = impl_fun v fuel p 0 0 wrapper j_init.

Lemma shares_run_core : forall fuel p vrs, Forall (same_core (hd V_FULL vrs)) vrs -> shares_run fuel p vrs.
Proof.
  intros fuel p vrs Hc v Hv. rewrite Forall_forall in Hc.
  exact (proj1 (proj2 (impl_same_core _ _ (Hc v Hv) fuel)) p 0 0%nat wrapper j_init).
Qed.

(* for explicit lists of variants that agree on both flags *)
Ltac share_core := apply shares_run_core; repeat constructor.

Lemma shares_run_panic_free : forall fuel p vrs, panic_free p = true ->
  Forall (fun v => v_goexit_rethrow (hd V_FULL vrs) = v_goexit_rethrow v) vrs -> shares_run fuel p vrs.
Proof.
  intros fuel p vrs Hp Hc v Hv. rewrite Forall_forall in Hc.
  exact (proj1 (proj1 (proj2 (impl_same_panic_free _ _ p (Hc v Hv) Hp fuel)) 0 0%nat wrapper j_init eq_refl quiet_init)).
Qed.

Lemma shares_run_calm_defers : forall fuel p vrs, calm_defers p = true -> shares_run fuel p vrs.
Proof.
  intros fuel p vrs Hc v Hv.
  refine (proj1 (proj1 (proj2 (impl_same_calm_defers _ _ p Hc fuel)) false 0 0%nat wrapper j_init [] eq_refl _ ltac:(discriminate))).
  split; [reflexivity|]. split; [reflexivity|]. intro id. constructor.
Qed.

(* no deferred call throws while a panic is in flight: there is no panic, or deferred calls cannot throw *)
Definition calm (p : program) : bool := panic_free p || calm_defers p.

Lemma shares_run_calm : forall fuel p vrs, calm p = true ->
  Forall (fun v => v_goexit_rethrow (hd V_FULL vrs) = v_goexit_rethrow v) vrs -> shares_run fuel p vrs.
Proof.
  intros fuel p vrs Hc Hg. apply orb_prop in Hc. destruct Hc as [Hp|Hd];
    [exact (shares_run_panic_free fuel p vrs Hp Hg) | exact (shares_run_calm_defers fuel p vrs Hd)].
Qed.

Definition mode_final (m : smode) : final := match m with MPanic v => FFatal v | _ => FNormal end.

(* one run of SpecPanic and one of ImplPanic under the first variant of [vrs]: the observable events (newest first, as
   the machines keep them) once, the [impl_final] of each variant *)
Definition prog_ok (vrs : list variant) (fuel : nat) (p : program) : bool :=
  match spec_fun fuel p 0 wrapper None s_init, impl_fun (hd V_FULL vrs) fuel p 0 0 wrapper j_init with
  | Some (mode, _, g), Some (out, s) =>
      events_eqb (filter observable (j_trace s)) (filter observable (s_trace g)) &&
      forallb (fun v => final_eqb (impl_final v out s) (mode_final mode)) vrs
  | _, _ => false
  end.

(* the run is that of a variant the stack-shape invariant covers, so every $deferred list is empty at its end *)
Lemma prog_ok_good : forall vrs fuel p, v_pushback_asleep_only (hd V_FULL vrs) = true -> shares_run fuel p vrs ->
  prog_ok vrs fuel p = true -> forall v, In v vrs -> prog_good v fuel p.
Proof.
  intros vrs fuel p Hao Hc K v Hv. unfold prog_good, impl_run, spec_run. rewrite <- (Hc v Hv). unfold prog_ok in K.
  destruct (spec_fun fuel p 0 wrapper None s_init) as [[[mode rk] g]|]; [|discriminate].
  destruct (impl_fun (hd V_FULL vrs) fuel p 0 0 wrapper j_init) as [[o s]|] eqn:Run; [|discriminate].
  apply andb_prop in K. destruct K as [K1 K2]. apply events_eqb_eq in K1.
  rewrite forallb_forall in K2. specialize (K2 v Hv). apply final_eqb_eq in K2. split.
  - exists (filter observable (rev (s_trace g)), mode_final mode). split; [reflexivity|].
    cbn [obs]. rewrite !filter_rev, K1, K2. reflexivity.
  - exists o, s. split; [reflexivity|]. intros id _.
    rewrite (impl_defer_lifo_at_most_once _ _ _ _ _ Run id), (proj2 (proj2 (proj2 (run_ends_clean _ fuel p o s Hao Run))) id). reflexivity.
Qed.

(* tree with the Goexit repair only (V_GOEXIT): no panic inside a deferred call (E1-E4), Goexit (E5) *)
Definition enum_calm : list program := enum1 ++ enum2 ++ enum3 ++ enum4 ++ enum5.
(* tree with both repairs (V_REPAIRED): additionally panics inside deferred calls *)
Definition enum_all : list program := enum_calm ++ enum6 ++ enum7.
(* with the $goroutine catch clause repaired too (V_FULL): additionally Goexit together with panics *)
Definition enum_full : list program := enum_all ++ enum8.

(* statements behind one that does not complete are never reached: behind a return, a Goexit, a panic, and the call of a
   closure without defers that starts with a Goexit or a panic *)
Definition ends (st : stmt) : bool :=
  match st with
  | SPanic _ | SReturn | SGoexit | SRetR => true
  | SCallClo (st' :: r) => match st' with SPanic _ | SGoexit => negb (has_defer r) | _ => false end
  | _ => false
  end.
Fixpoint live (b : list stmt) : list stmt :=
  match b with [] => [] | st :: r => st :: (if ends st then [] else live r) end.

Lemma closure_throws : forall vr p fuel d cell b s o s', ends (SCallClo b) = true ->
  impl_fun vr fuel p d cell b s = Some (o, s') -> exists e, o = JThrow e.
Proof.
  intros vr p [|[|fuel]] d cell [|st r] s o s' He H; try discriminate He; try discriminate H.
  - cbn [impl_fun impl_exec] in H. destruct (negb (has_defer _)); [discriminate H|]. cbv beta iota zeta delta [j_fresh] in H. discriminate H.
  - cbn [ends] in He. cbn [impl_fun] in H.
    destruct st; try discriminate He; cbn [has_defer existsb is_defer orb] in H; fold (has_defer r) in H; rewrite He in H; cbn [impl_exec] in H.
    + destruct (impl_cd _ _ _ _ _ _ _ _) as [[o1 s1]|] eqn:E; [|discriminate H].
      apply panic_throws in E as [e ->]; [inversion H; eexists; reflexivity | discriminate].
    + inversion H. eexists; reflexivity.
Qed.

Lemma spec_closure_throws : forall p fuel cell b rk g rk' g', ends (SCallClo b) = true ->
  spec_fun fuel p cell b rk g <> Some (MNormal, rk', g').
Proof.
  intros p [|[|[|fuel]]] cell [|st r] rk g rk' g' He H; try discriminate He; try discriminate H;
    cbn [ends] in He; destruct st; try discriminate He; discriminate H.
Qed.

Lemma impl_exec_live : forall vr p d cell dl b fuel s,
  impl_exec vr fuel p d cell dl (live b) s = impl_exec vr fuel p d cell dl b s.
Proof.
  induction b as [|st b IH]; intros [|fuel] s; try reflexivity. cbn [live].
  destruct (ends st) eqn:He; [|destruct st; cbn [impl_exec]; same_tree ltac:(rewrite ?IH)].
  destruct st; try discriminate He; cbn [impl_exec]; try reflexivity.
  - destruct (impl_fun _ _ _ _ _ _ _) as [[o s2]|] eqn:E; [|reflexivity].
    apply (closure_throws _ _ _ _ _ _ _ _ _ He) in E as [e ->]. reflexivity.
  - destruct (impl_cd _ _ _ _ _ _ _ _) as [[o s2]|] eqn:E; [|reflexivity].
    apply panic_throws in E as [e ->]; [reflexivity | discriminate].
Qed.

Lemma spec_exec_live : forall p cell b fuel l g, spec_exec fuel p cell (live b) l g = spec_exec fuel p cell b l g.
Proof.
  induction b as [|st b IH]; intros [|fuel] l g; try reflexivity. cbn [live].
  destruct (ends st) eqn:He; [|destruct st; cbn [spec_exec]; same_tree ltac:(rewrite ?IH)].
  destruct st; try discriminate He; cbn [spec_exec]; try reflexivity.
  destruct (spec_fun _ _ _ _ _ _) as [[[[|v|] rk'] g2]|] eqn:E; try reflexivity.
  destruct (spec_closure_throws _ _ _ _ _ _ _ _ He E).
Qed.

Fixpoint dead (b : list stmt) : list stmt :=
  match b with [] => [] | st :: r => if ends st then r else dead r end.

(* a dead tail that may go: the body keeps its [has_defer], which selects the scheme [impl_fun] compiles it by, and its
   [unnamed], which selects the cell a caller reads the result from *)
Definition dead_tail (b : list stmt) : bool :=
  match dead b with
  | [] => false
  | _ :: _ => Bool.eqb (has_defer (live b)) (has_defer b) && Bool.eqb (unnamed (live b)) (unnamed b)
  end.
Definition cut_body (b : list stmt) : list stmt := if dead_tail b then live b else b.
Definition cut (p : program) : program := map cut_body p.

Lemma cut_body_keeps : forall b, has_defer (cut_body b) = has_defer b /\ unnamed (cut_body b) = unnamed b.
Proof.
  intro b. unfold cut_body, dead_tail. destruct (dead b); [split; reflexivity|].
  destruct (_ && _) eqn:C; [|split; reflexivity]. apply andb_prop in C. destruct C as [C1 C2]. split; apply eqb_prop; assumption.
Qed.

Lemma impl_fun_cut_body : forall vr p d cell b fuel s, impl_fun vr fuel p d cell (cut_body b) s = impl_fun vr fuel p d cell b s.
Proof.
  intros vr p d cell b [|fuel] s; [reflexivity|]. cbn [impl_fun]. cbv beta iota zeta delta [j_fresh]. rewrite (proj1 (cut_body_keeps b)).
  unfold cut_body. destruct (dead_tail b); [rewrite !impl_exec_live|]; reflexivity.
Qed.

Lemma spec_fun_cut_body : forall p cell b fuel rk g, spec_fun fuel p cell (cut_body b) rk g = spec_fun fuel p cell b rk g.
Proof.
  intros p cell b [|fuel] rk g; [reflexivity|]. cbn [spec_fun]. cbv beta iota zeta delta [s_fresh].
  unfold cut_body. destruct (dead_tail b); [rewrite !spec_exec_live|]; reflexivity.
Qed.

Lemma body_of_cut : forall p f, body_of (cut p) f = cut_body (body_of p f).
Proof. intros p f. exact (map_nth cut_body p [] f). Qed.

(* the function table is looked up inside the recursion: [p] and [cut p] run alike *)
Lemma impl_cut : forall vr p fuel,
  (forall d cell dl ss s, impl_exec vr fuel (cut p) d cell dl ss s = impl_exec vr fuel p d cell dl ss s) /\
  (forall d cell b s, impl_fun vr fuel (cut p) d cell b s = impl_fun vr fuel p d cell b s) /\
  (forall d df e fp s, impl_cd vr fuel (cut p) d df e fp s = impl_cd vr fuel p d df e fp s) /\
  (forall d cur fp l s, impl_loop vr fuel (cut p) d cur fp l s = impl_loop vr fuel p d cur fp l s).
Proof.
  intros vr p. induction fuel as [|fuel (IHe & IHf & IHc & IHl)].
  - repeat split; reflexivity.
  - repeat split; intros; cbn [impl_exec impl_fun impl_cd impl_loop];
      same_tree ltac:(rewrite ?body_of_cut, ?(proj2 (cut_body_keeps _)), ?IHe, ?IHf, ?IHc, ?IHl, ?impl_fun_cut_body).
Qed.

Lemma spec_cut : forall p fuel,
  (forall cell ss l g, spec_exec fuel (cut p) cell ss l g = spec_exec fuel p cell ss l g) /\
  (forall cell b rk g, spec_fun fuel (cut p) cell b rk g = spec_fun fuel p cell b rk g) /\
  (forall act mode gx dl g, spec_defers fuel (cut p) act mode gx dl g = spec_defers fuel p act mode gx dl g).
Proof.
  intros p. induction fuel as [|fuel (IHe & IHf & IHd)].
  - repeat split; reflexivity.
  - repeat split; intros; cbn [spec_exec spec_fun spec_defers];
      same_tree ltac:(rewrite ?body_of_cut, ?(proj2 (cut_body_keeps _)), ?IHe, ?IHf, ?IHd, ?spec_fun_cut_body).
Qed.

Lemma cut_good : forall v fuel p, prog_good v fuel (cut p) -> prog_good v fuel p.
Proof.
  unfold prog_good, spec_run, impl_run. intros v fuel p.
  rewrite (proj1 (proj2 (impl_cut v p fuel))), (proj1 (proj2 (spec_cut p fuel))). exact (fun H => H).
Qed.

(* [bodies_upto] is closed under prefixes, so the enumerations contain [cut p] with [p] *)
Lemma live_in : forall al n b, In b (bodies_upto n al) -> In (live b) (bodies_upto n al).
Proof.
  intros al. induction n as [|n IH]; intros b H; cbn [bodies_upto] in *.
  - destruct H as [<-|[]]. left; reflexivity.
  - destruct H as [<-|H]; [left; reflexivity | right].
    apply in_flat_map in H. destruct H as (st & Hst & H). apply in_map_iff in H. destruct H as (b' & <- & H).
    apply in_flat_map. exists st. split; [exact Hst|]. cbn [live]. apply in_map.
    destruct (ends st); [destruct n; left; reflexivity | exact (IH b' H)].
Qed.

Lemma cut_body_in : forall al n b, In b (bodies_upto n al) -> In (cut_body b) (bodies_upto n al).
Proof. intros al n b H. unfold cut_body. destruct (dead_tail b); [exact (live_in al n b H) | exact H]. Qed.

Definition closed (E : list program) : Prop := forall p, In p E -> In (cut p) E.

Lemma closed_app : forall E F, closed E -> closed F -> closed (E ++ F).
Proof. intros E F HE HF p H. apply in_or_app. apply in_app_or in H. destruct H as [H|H]; [left; exact (HE p H) | right; exact (HF p H)]. Qed.

Lemma closed_one : forall n al, closed (map (fun b => [b]) (bodies_upto n al)).
Proof.
  intros n al p H. apply in_map_iff in H. destruct H as (b & <- & H).
  exact (in_map (fun b => [b]) _ _ (cut_body_in al n b H)).
Qed.

Lemma closed_two : forall n al m bl,
  closed (flat_map (fun a => map (fun b => [a; b]) (bodies_upto m bl)) (bodies_upto n al)).
Proof.
  intros n al m bl p H. apply in_flat_map in H. destruct H as (a & Ha & H). apply in_map_iff in H. destruct H as (b & <- & Hb).
  apply in_flat_map. exists (cut_body a). split; [exact (cut_body_in al n a Ha)|].
  exact (in_map (fun b => [cut_body a; b]) _ _ (cut_body_in bl m b Hb)).
Qed.

Lemma closed_calm : closed enum_calm.
Proof. exact (closed_app _ _ (closed_one _ _) (closed_app _ _ (closed_one _ _) (closed_app _ _ (closed_two _ _ _ _) (closed_app _ _ (closed_two _ _ _ _) (closed_two _ _ _ _))))). Qed.
Lemma closed_panics : closed (enum6 ++ enum7).
Proof. exact (closed_app _ _ (closed_one _ _) (closed_two _ _ _ _)). Qed.
Lemma closed_exit : closed enum8.
Proof. exact (closed_one _ _). Qed.

(* a program with a dead tail need not be run: its [cut] is in the enumeration, has no dead tail, and runs alike *)
Definition skippable (p : program) : bool := existsb dead_tail p.

Lemma dead_live : forall b, dead (live b) = [].
Proof. induction b as [|st b IH]; [reflexivity|]. cbn [live]. destruct (ends st) eqn:E; cbn [dead]; rewrite E; [reflexivity | exact IH]. Qed.

Lemma cut_not_skippable : forall p, skippable (cut p) = false.
Proof.
  intro p. unfold skippable, cut. induction p as [|b p IH]; [reflexivity|]. cbn [map existsb]. rewrite IH, orb_false_r.
  unfold cut_body. destruct (dead_tail b) eqn:E; [unfold dead_tail; rewrite dead_live; reflexivity | exact E].
Qed.

Lemma skip_good : forall (E : list program) (ok : program -> bool) v fuel, closed E ->
  forallb (fun p => skippable p || ok p) E = true ->
  (forall p, In p E -> ok p = true -> prog_good v fuel p) -> forall p, In p E -> prog_good v fuel p.
Proof.
  intros E ok v fuel HE Hsw Hok p Hp. rewrite forallb_forall in Hsw.
  assert (K : forall q, In q E -> skippable q = false -> prog_good v fuel q).
  { intros q Hq Hs. apply (Hok q Hq). specialize (Hsw q Hq). rewrite Hs in Hsw. exact Hsw. }
  destruct (skippable p) eqn:Hs; [|exact (K p Hp Hs)].
  exact (cut_good v fuel p (K (cut p) (HE p Hp) (cut_not_skippable p))).
Qed.

(* The three sweeps.  The variants of a sweep share one run: in [enum_calm] every program is [calm]. *)
Lemma sweep_calm :
  forallb (fun p => skippable p || calm p && prog_ok [V_FULL; V_REPAIRED; V_GOEXIT] ENUM_FUEL p) enum_calm = true.
Proof. vm_compute. reflexivity. Qed.
Lemma sweep_panics : forallb (fun p => skippable p || prog_ok [V_REPAIRED; V_FULL] ENUM_FUEL p) (enum6 ++ enum7) = true.
Proof. vm_compute. reflexivity. Qed.
Lemma sweep_exit : forallb (fun p => skippable p || prog_ok [V_FULL] ENUM_FUEL p) enum8 = true.
Proof. vm_compute. reflexivity. Qed.

Opaque ENUM_FUEL.

Lemma good_calm : forall p v, In p enum_calm -> In v [V_GOEXIT; V_REPAIRED; V_FULL] -> prog_good v ENUM_FUEL p.
Proof.
  intros p v H Hv. revert p H.
  apply (skip_good enum_calm (fun p => calm p && prog_ok [V_FULL; V_REPAIRED; V_GOEXIT] ENUM_FUEL p) v ENUM_FUEL closed_calm sweep_calm).
  intros p _ K. apply andb_prop in K. destruct K as [Hc K].
  refine (prog_ok_good [V_FULL; V_REPAIRED; V_GOEXIT] _ p eq_refl _ K v (proj1 (in_rev _ v) Hv)).
  apply shares_run_calm; [exact Hc | repeat constructor].
Qed.
Lemma good_all : forall p v, In p enum_all -> In v [V_REPAIRED; V_FULL] -> prog_good v ENUM_FUEL p.
Proof.
  intros p v H Hv. apply in_app_or in H. destruct H as [H|H]; [apply good_calm; [assumption | right; assumption]|].
  revert p H. apply (skip_good (enum6 ++ enum7) (prog_ok [V_REPAIRED; V_FULL] ENUM_FUEL) v ENUM_FUEL closed_panics sweep_panics).
  intros p _ K. exact (prog_ok_good [V_REPAIRED; V_FULL] _ p eq_refl ltac:(share_core) K v Hv).
Qed.
Lemma good_full : forall p, In p enum_full -> prog_good V_FULL ENUM_FUEL p.
Proof.
  intros p H. apply in_app_or in H. destruct H as [H|H]; [apply good_all; [assumption | right; left; reflexivity]|].
  revert p H. apply (skip_good enum8 (prog_ok [V_FULL] ENUM_FUEL) V_FULL ENUM_FUEL closed_exit sweep_exit).
  intros p _ K. exact (prog_ok_good [V_FULL] _ p eq_refl ltac:(share_core) K V_FULL (or_introl eq_refl)).
Qed.

Lemma refines_calm : forall p, In p enum_calm ->
  exists r, obs (spec_run ENUM_FUEL p) = Some r /\ obs (impl_run V_GOEXIT ENUM_FUEL p) = Some r.
Proof. intros p H. exact (proj1 (good_calm p V_GOEXIT H (or_introl eq_refl))). Qed.
Lemma lifo_once_calm : forall p, In p enum_calm ->
  exists out s, impl_fun V_GOEXIT ENUM_FUEL p 0 0 wrapper j_init = Some (out, s) /\
    forall id, (id < j_next s)%nat -> pend id (j_trace s) = Some [].
Proof. intros p H. exact (proj2 (good_calm p V_GOEXIT H (or_introl eq_refl))). Qed.
Lemma refines_all : forall p, In p enum_all ->
  exists r, obs (spec_run ENUM_FUEL p) = Some r /\ obs (impl_run V_REPAIRED ENUM_FUEL p) = Some r.
Proof. intros p H. exact (proj1 (good_all p V_REPAIRED H (or_introl eq_refl))). Qed.
Lemma lifo_once_all : forall p, In p enum_all ->
  exists out s, impl_fun V_REPAIRED ENUM_FUEL p 0 0 wrapper j_init = Some (out, s) /\
    forall id, (id < j_next s)%nat -> pend id (j_trace s) = Some [].
Proof. intros p H. exact (proj2 (good_all p V_REPAIRED H (or_introl eq_refl))). Qed.

(* an unrecovered panic raised by a deferred call while Goexit unwinds is swallowed by the catch
   clause of $goroutine (finding panic-during-goexit-swallowed):
     go func(){ defer func(){ panic(2) }(); runtime.Goexit() }() *)
Definition wit_goexit_panic : program := [[SDeferClo [SPanic (PInt 2)]; SGoexit]].
Lemma wit_goexit_panic_runs :
  obs (spec_run 100 wit_goexit_panic) = Some ([], FFatal (PInt 2)) /\
  obs (impl_run V_REPAIRED 100 wit_goexit_panic) = Some ([], FNormal) /\
  obs (impl_run V_FULL 100 wit_goexit_panic) = Some ([], FFatal (PInt 2)).
Proof. repeat split; vm_compute; reflexivity. Qed.

Lemma wit_goexit_panic_cur :
  obs (spec_run 100 wit_goexit_panic) = Some ([], FFatal (PInt 2)) /\
  obs (impl_run V_GOEXIT 100 wit_goexit_panic) = Some ([], FNormal).
Proof. split; vm_compute; reflexivity. Qed.

(* while Goexit unwinds, a deferred call calls a function with a defer of its own, which has to return normally (STrace 5
   is reached): why [v_goexit_rethrow] compares deferStack.length with exitFrames before it throws null again *)
Definition wit_goexit_fixed : program :=
  [[SDeferClo [SCallClo [SDeferClo [STrace 3]]; STrace 5]; SGoexit]].
(* the witnesses under the repaired variants *)
Lemma witnesses_repaired :
  obs (impl_run V_GOEXIT 100 wit_goexit) = obs (spec_run 100 wit_goexit) /\
  obs (impl_run V_GOEXIT 100 wit_goexit_fixed) = obs (spec_run 100 wit_goexit_fixed) /\
  obs (impl_run V_REPAIRED 100 wit_replaced) = obs (spec_run 100 wit_replaced) /\
  obs (impl_run V_REPAIRED 100 wit_skipped) = obs (spec_run 100 wit_skipped) /\
  obs (impl_run V_FULL 100 wit_goexit) = obs (spec_run 100 wit_goexit) /\
  obs (impl_run V_FULL 100 wit_goexit_fixed) = obs (spec_run 100 wit_goexit_fixed) /\
  obs (impl_run V_FULL 100 wit_replaced) = obs (spec_run 100 wit_replaced) /\
  obs (impl_run V_FULL 100 wit_skipped) = obs (spec_run 100 wit_skipped) /\
  obs (impl_run V_FULL 100 wit_goexit_panic) = obs (spec_run 100 wit_goexit_panic) /\
  obs (spec_run 100 wit_goexit_panic) = Some ([], FFatal (PInt 2)) /\
  obs (spec_run 100 wit_skipped) = Some ([ERec (Some (PInt 2)); ERec None; ETrace 0; ETraceX 0 0], FNormal).
Proof. repeat split; vm_compute; reflexivity. Qed.
(* the tree with the Goexit repair only still has the replaced-panic defect *)
Lemma wit_replaced_goexit_variant :
  obs (impl_run V_GOEXIT 100 wit_replaced) = Some ([ERec (Some (PInt 2))], FFatal (PInt 1)).
Proof. vm_compute; reflexivity. Qed.

(* the number of lists of at most n letters out of a *)
Fixpoint geo (a : N) (n : nat) : N := match n with O => 1%N | S m => (1 + a * geo a m)%N end.

Lemma flat_map_length : forall A B (f : A -> list B) c l, (forall x, length (f x) = c) -> length (flat_map f l) = (length l * c)%nat.
Proof. intros A B f c l H. induction l as [|x l IH]; [reflexivity|]. cbn [flat_map length]. rewrite app_length, H, IH. reflexivity. Qed.

Lemma bodies_upto_length : forall al n, N.of_nat (length (bodies_upto n al)) = geo (N.of_nat (length al)) n.
Proof.
  intros al. induction n as [|n IH]; [reflexivity|]. cbn [bodies_upto length geo].
  rewrite (flat_map_length _ _ _ (length (bodies_upto n al))) by (intros; apply map_length).
  rewrite Nat2N.inj_succ, Nat2N.inj_mul, IH. lia.
Qed.

Lemma pairs_length : forall (A B : list (list stmt)),
  N.of_nat (length (flat_map (fun a => map (fun b => [a; b]) B) A)) = (N.of_nat (length A) * N.of_nat (length B))%N.
Proof. intros A B. rewrite (flat_map_length _ _ _ (length B)) by (intros; apply map_length). apply Nat2N.inj_mul. Qed.

Lemma enum_lengths :
  N.of_nat (length enum1) = 6321%N /\ N.of_nat (length enum2) = 177156%N /\ N.of_nat (length enum3) = 11137%N /\
  N.of_nat (length enum4) = 6708%N /\ N.of_nat (length enum5) = 25155%N /\ N.of_nat (length enum6) = 69905%N /\
  N.of_nat (length enum7) = 33345%N /\ N.of_nat (length enum8) = 4681%N.
Proof.
  unfold enum1, enum2, enum3, enum4, enum5, enum6, enum7, enum8.
  rewrite !pairs_length, !map_length, !bodies_upto_length. vm_compute. repeat split; reflexivity.
Qed.

