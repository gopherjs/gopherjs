(* C09 - $methodSet computes Go's method sets: for EVERY environment of legal declarations ([env_ok]) and every type
   term the search can start from ([top_ok]), [mset_impl] and [spec_mset] resolve the same names to the same methods
   ([mset_sim], [same_mset]) - with the repaired flags always, with the current flags where the declarations and the
   search meet none of the four recorded classes ([fields_clean], [mpkg_clean], [type_clean] of C09_Types.v).
   Both sides are the same level-by-level search.  Below the start entry a level holds declared types only: on Go's
   side a list [xs] of them with repetitions, on the run-time's a list [ys] in which [seen] lets a declaration be expanded
   once and [e_mult] says that it stands for two or more ([J] of C09_Mset_Level.v).  Each side's level is brought to
   the same form - the entries not seen before, their children, their candidates merged into the names resolved so
   far ([spec_level]; [level_entry_ok], [level_fold], [impl_level]).  One visited entry is compared with the group of
   its copies through the loaded store (C09_Mset_Store.v; [entry_ok], [group_next], [group_cands]): a declaration
   reached twice at one depth makes its names ambiguous on both sides.  [sim_levels] goes down the levels, the
   declarations not yet seen bounding their number; [first_level] is the start entry, which with the repaired flags need
   not be a declared type ([search_sim]); [probe_agree] carries the result to the answers of a probe script. *)
From Coq Require Import List Arith NArith Bool String Ascii Lia Permutation.
From Verif Require Import Base.Lists Gen.C09_Kinds Model.C09_Types Corr.C09_Eval Model.C09_P4_Wf.
From Verif Require Import Proofs.C09_P4_Strings Proofs.C09_P4_Keys Proofs.C09_P4_Canon Proofs.C09_P4_Ident.
From Verif Require Import Proofs.C09_Types Proofs.C09_Mset_Store Proofs.C09_Mset_Level.
Import ListNotations.
Local Open Scope N_scope.

Lemma str_eqb_dec : forall a b, str_eqb (dec a) (dec b) = (a =? b).
Proof.
  intros a b. destruct (N.eqb_spec a b) as [->|Hne]; [apply str_eqb_refl|].
  destruct (str_eqb (dec a) (dec b)) eqn:E; [|reflexivity]. apply str_eqb_eq, dec_inj in E. contradiction.
Qed.

Lemma find_filter : forall {A} (p : A -> bool) l, find p l = match filter p l with [] => None | x :: _ => Some x end.
Proof. intros. induction l as [|a l IH]; cbn; [reflexivity|]. now destruct (p a). Qed.

(* the model's [mult] of an entry within its level, and what it does to the candidates *)
Definition multI (fl : flags) (s : st) (cur : list ent) (e : ent) : bool :=
  fx_diamond fl &&
  (existsb (fun e' => str_eqb (tkey fl s (e_typ e')) (tkey fl s (e_typ e)) && e_mult e') cur ||
   (1 <? N.of_nat (List.length (filter (fun e' => str_eqb (tkey fl s (e_typ e')) (tkey fl s (e_typ e))) cur)))).

Definition dupc (m : bool) (l : list cand) : list cand := if m then l ++ l else l.

Definition kid_of (fc : fhdr * ty) : list (N * bool) :=
  if fh_emb (fst fc) then
    match snd fc with T (LNamed d) [] => [(d, false)] | T LPtr [T (LNamed d) []] => [(d, true)] | _ => [] end
  else [].
Definition kids (t : ty) : list (N * bool) :=
  match t with T (LStruct _ fs) cs => flat_map kid_of (zip fs cs) | _ => [] end.
(* the level below an entry of underlying type [t] that was reached through a pointer or not ([b]): Go's, the run-time's *)
Definition chS (t : ty) (b : bool) : list sx := map (fun k => (fst k, snd k || b)) (kids t).
Definition chI (t : ty) (b m : bool) : list iy := map (fun k => (fst k, snd k || b, m)) (kids t).

Definition mkS (x : sx) : sent := Build_sent (T (LNamed (fst x)) []) (snd x).

(* Go's candidates of an entry: the declared methods of its type, then the fields or the interface methods of its
   underlying type ([spec_cands]) *)
Definition ownS (env : list decl) (t : ty) (b : bool) : list scand :=
  match t with
  | T (LNamed d) _ =>
      map (fun m => ((me_name m, me_pkg m), if me_ptr m && negb b then None else Some (me_sig m, Some d)))
          (d_meths (nthN d env decl0))
  | _ => []
  end.
Definition tailS (l : lab) (cs : list ty) (ow : option N) : list scand :=
  match l with
  | LStruct pkg fs => map (fun fc => ((fh_name (fst fc), if fh_exp (fst fc) then ""%string else pkg), None)) (zip fs cs)
  | LIface ms => map (fun mc => ((mh_name (fst mc), mh_pkg (fst mc)), Some (snd mc, ow))) (zip ms cs)
  | _ => []
  end.

Definition lab_of (u : ty) : lab := match u with T l _ => l end.
Definition args_of (u : ty) : list ty := match u with T _ cs => cs end.

Lemma spec_cands : forall env t b,
  snd (spec_entry env (Build_sent t b)) = ownS env t b ++ tailS (lab_of (under env t)) (args_of (under env t)) (owner_of t).
Proof.
  intros env t b. unfold spec_entry, ownS, tailS. cbn [se_ty se_ind].
  destruct (under env t) as [[] cs]; cbn [snd lab_of args_of]; rewrite ?app_nil_r; reflexivity.
Qed.

Lemma wfb_named : forall nd d cs, wfb nd (T (LNamed d) cs) = true <-> d < nd /\ cs = [].
Proof.
  intros nd d cs. cbn. rewrite !andb_true_iff, N.ltb_lt. destruct cs; cbn; intuition discriminate.
Qed.

Lemma basic_kinds : forall i, kind_of_basic i <> kindPtr /\ kind_of_basic i <> kindInterface.
Proof.
  intro i. unfold kind_of_basic, nthN.
  assert (H : forallb (fun p : string * N => negb (snd p =? kindPtr) && negb (snd p =? kindInterface)) ((""%string, 0) :: predeclared) = true) by reflexivity.
  rewrite forallb_forall in H.
  assert (Hin : In (nth (N.to_nat i) predeclared (""%string, 0)) ((""%string, 0) :: predeclared)).
  { destruct (nth_in_or_default (N.to_nat i) predeclared (""%string, 0)) as [Hin | ->]; [now right|now left]. }
  apply H in Hin. apply andb_true_iff in Hin as [I1 I2]. apply negb_true_iff, N.eqb_neq in I1. apply negb_true_iff, N.eqb_neq in I2. auto.
Qed.

Lemma kind_lab_ptr : forall l, (kind_lab l =? kindPtr) = match l with LPtr => true | _ => false end.
Proof. intro l. destruct l; try reflexivity. apply N.eqb_neq, basic_kinds. Qed.
Lemma kind_lab_iface : forall l, (kind_lab l =? kindInterface) = match l with LIface _ => true | _ => false end.
Proof. intro l. destruct l; try reflexivity. apply N.eqb_neq, basic_kinds. Qed.

Lemma Forall2_map_in : forall {A B A' B'} (R : A -> B -> Prop) (R' : A' -> B' -> Prop) (f : A -> A') (g : B -> B') l l',
  Forall2 R l l' -> (forall a b, In a l -> R a b -> R' (f a) (g b)) -> Forall2 R' (map f l) (map g l').
Proof.
  intros A B A' B' R R' f g l l' F. induction F as [|a b l l' H _ IH]; intro K; cbn; constructor.
  - apply K; [now left|exact H].
  - apply IH. intros a0 b0 Hin. apply K. now right.
Qed.
Lemma Forall2_zip : forall {A B C} (R : B -> C -> Prop) (fs : list A) ids cs, Forall2 R ids cs ->
  Forall2 (fun x y => fst x = fst y /\ R (snd y) (snd x)) (zip fs cs) (zip fs ids).
Proof.
  intros A B C R fs ids cs F. revert fs. induction F; intros [|f fs]; cbn; constructor; auto.
Qed.
Lemma in_zip : forall {A B} (a : list A) (b : list B) x, In x (zip a b) -> In (fst x) a /\ In (snd x) b.
Proof.
  intros A B. induction a as [|x0 a IH]; intros [|y b] x H; cbn in H; try contradiction.
  destruct H as [<-|H]; [split; now left|]. destruct (IH _ _ H). split; now right.
Qed.

Lemma partition_perm : forall {A} (p : A -> bool) l, Permutation l (filter (fun a => negb (p a)) l ++ filter p l).
Proof.
  intros A p l. induction l as [|a l IH]; [constructor|]. cbn. destruct (p a); cbn; [now apply Permutation_cons_app|now constructor].
Qed.

Lemma index_of_nth : forall l n k, NoDup l -> (n < List.length l)%nat -> index_of (nth n l 0) l k = Some (k + N.of_nat n).
Proof.
  induction l as [|x l IH]; intros n k ND Hn; cbn in Hn; [lia|]. inversion ND as [|? ? Hx ND']; subst. cbn [index_of]. destruct n; cbn [nth].
  - rewrite N.eqb_refl. f_equal. lia.
  - destruct (N.eqb_spec (nth n l 0) x) as [E|_]; [destruct Hx; rewrite <- E; apply nth_In; lia|].
    rewrite IH by (auto; lia). f_equal. lia.
Qed.
Lemma index_of_none : forall l x k, ~ In x l -> index_of x l k = None.
Proof.
  induction l as [|y l IH]; intros x k H; [reflexivity|]. cbn [index_of]. destruct (N.eqb_spec x y) as [->|_]; [destruct H; now left|].
  apply IH. intro. apply H. now right.
Qed.

Definition named_or_ptr (t : ty) : bool :=
  match t with T (LNamed _) [] | T LPtr [T (LNamed _) []] => true | _ => false end.

Lemma nodup_cnt : forall (xs : list (N * bool)) d, nodup_ty (map (fun x => T (LNamed (fst x)) []) xs) = true -> (cnt d xs <= 1)%nat.
Proof.
  induction xs as [|x xs IH]; intros d H; [cbn; lia|]. cbn [map nodup_ty] in H. apply andb_true_iff in H as [H1 H2].
  specialize (IH d H2). unfold cnt in *. cbn [filter]. destruct (N.eqb_spec (fst x) d) as [E|_]; [|exact IH]. cbn [List.length].
  destruct (filter _ xs) as [|y r] eqn:Ef; [cbn; lia|]. exfalso. apply negb_true_iff in H1.
  assert (Hy : In y (filter (fun x0 : N * bool => fst x0 =? d) xs)) by (rewrite Ef; now left). apply filter_In in Hy as [Hy Ey].
  apply N.eqb_eq in Ey. rewrite existsb_map in H1. assert (existsb (fun a : N * bool => identical (T (LNamed (fst x)) []) (T (LNamed (fst a)) [])) xs = true); [|congruence].
  apply existsb_exists. exists y. split; [exact Hy|]. cbn. rewrite E, Ey, N.eqb_refl. reflexivity.
Qed.

Section Sim.
  Variables (env : list decl) (s : st) (fl : flags).
  Hypothesis Ok : env_ok env = true.
  Hypothesis Ld : Loaded env s.
  Let nd : N := N.of_nat (List.length env).
  Let named (d : N) : N := nthN d (s_named s) 0.

  (* the repaired run-time, or the current one on declarations outside two of the recorded classes: it keys a method by
     its bare name, which must tell the method names apart ([mpkg_clean]), and it does not look at fields, none of which
     may be called like a method ([fields_clean]) *)
  Hypothesis Clean : fl = flags_fixed \/ (fl = flags_current /\ fields_clean env = true /\ mpkg_clean env = true).
  Lemma Mode : fl = flags_fixed \/ fl = flags_current.
  Proof. destruct Clean as [E|[E _]]; auto. Qed.

  (* the [pr] and [relv] of C09_Mset_Level.v's section Rel *)
  Definition pr (nm : string * string) : string * string := if fx_mpkg fl then nm else (fst nm, ""%string).
  Definition relv (nm : string * string) : Prop := fl = flags_fixed \/ In nm (meth_names env).

  Lemma RelMeth : forall d m, d < nd -> In m (d_meths (nthN d env decl0)) -> relv (me_name m, me_pkg m).
  Proof.
    intros d m H Hin. right. unfold meth_names. apply in_flat_map. exists (nthN d env decl0). split; [apply nth_In; unfold nd in H; lia|].
    apply in_or_app. left. now apply (in_map (fun m => (me_name m, me_pkg m))).
  Qed.
  Lemma RelIface : forall d ms cs mh, d < nd -> d_under (nthN d env decl0) = T (LIface ms) cs -> In mh ms ->
    relv (mh_name mh, mh_pkg mh).
  Proof.
    intros d ms cs mh H U Hin. right. unfold meth_names. apply in_flat_map. exists (nthN d env decl0). split; [apply nth_In; unfold nd in H; lia|].
    apply in_or_app. right. rewrite U. now apply (in_map (fun m => (mh_name m, mh_pkg m))).
  Qed.
  Lemma PrInj : forall a b, relv a -> relv b -> pr a = pr b -> a = b.
  Proof.
    unfold pr, relv. intros a b Ha Hb E. destruct Clean as [Ef|(Ef & _ & Hm)]; rewrite Ef in *; cbn [fx_mpkg flags_fixed flags_current] in E; [exact E|].
    destruct Ha as [Ha|Ha], Hb as [Hb|Hb]; try discriminate. injection E as E1. unfold mpkg_clean in Hm. rewrite forallb_forall in Hm.
    specialize (Hm a Ha). rewrite forallb_forall in Hm. specialize (Hm b Hb). rewrite E1, String.eqb_refl in Hm. cbn in Hm.
    apply String.eqb_eq in Hm. destruct a, b; cbn in *; congruence.
  Qed.
  Lemma FieldsOut : fl = flags_current -> forall d pkg fs cs f nm, d < nd ->
    d_under (nthN d env decl0) = T (LStruct pkg fs) cs -> In f fs -> relv nm -> fst nm <> fh_name f.
  Proof.
    intros Ef d pkg fs cs f nm H U Hfd [E|Hn] E1; [rewrite Ef in E; discriminate E|].
    destruct Clean as [E|(_ & Hf & _)]; [rewrite Ef in E; discriminate E|]. unfold fields_clean in Hf. rewrite forallb_forall in Hf.
    assert (Hin : In (nthN d env decl0) env) by (apply nth_In; unfold nd in H; lia). specialize (Hf _ Hin). rewrite U in Hf.
    rewrite forallb_forall in Hf. specialize (Hf f Hfd). apply negb_true_iff in Hf.
    assert (existsb (fun n : string * string => String.eqb (fst n) (fh_name f)) (meth_names env) = true); [|congruence].
    apply existsb_exists. exists nm. split; [exact Hn|]. rewrite E1. apply String.eqb_refl.
  Qed.

  Lemma tkey_fl : forall i, tkey fl s i = dec i.
  Proof. intro i. destruct Mode as [-> | ->]; reflexivity. Qed.
  Lemma mkey_pr : forall m, mkey fl m = pr (rm_name m, rm_pkg m).
  Proof. intro m. unfold mkey, pr. now destruct (fx_mpkg fl). Qed.
  Lemma merge_fl : merge_impl fl = @merge rmeth.
  Proof. destruct Mode as [-> | ->]; reflexivity. Qed.

  Definition mkE (y : iy) : ent := Build_ent (named (keyI y)) (snd (fst y)) (snd y).

  Let G : Good s := ld_good env s Ld.
  Let I : Inv s := proj1 G.   (* hides [I : True], which is [Logic.I] below *)
  Lemma nd_s : nd_of s = nd. Proof. exact (ld_nd env s Ld). Qed.
  Lemma in_range : forall d, d < nd -> (N.to_nat d < List.length (s_named s))%nat.
  Proof. intros d H. pose proof nd_s as E. unfold nd_of, nd in *. lia. Qed.

  Lemma decl_facts : forall d, d < nd -> decl_ok nd (nthN d env decl0) = true /\ decl_loaded s d (nthN d env decl0).
  Proof.
    intros d H. assert (Hn : (N.to_nat d < List.length env)%nat) by (unfold nd in H; lia). split.
    - unfold env_ok in Ok. rewrite forallb_forall in Ok. apply Ok. unfold nthN. now apply nth_In.
    - pose proof (ld_decl env s Ld (N.to_nat d) Hn) as L. now rewrite N2Nat.id in L.
  Qed.

  Lemma rep_named_inv : forall i d, rep s i (T (LNamed d) []) -> i = named d.
  Proof. intros i d R. inversion R; subst; [reflexivity|discriminate]. Qed.

  Lemma named_owner : forall d, d < nd -> index_of (named d) (s_named s) 0 = Some d.
  Proof.
    intros d H. unfold named, nthN. rewrite index_of_nth; [f_equal; lia|exact (inv_nodup s I)|now apply in_range].
  Qed.

  (* a method of the run-time denotes Go's method (signature, owner) under the name nm *)
  Definition rv (nm : string * string) (x : ty * option N) (m : rmeth) : Prop :=
    rm_name m = fst nm /\ rm_pkg m = snd nm /\ rep s (rm_typ m) (fst x) /\ wfb nd (fst x) = true /\
    index_of (rm_owner m) (s_named s) 0 = snd x.
  Definition rkey (m : rmeth) : string * string := (rm_name m, rm_pkg m).
  Lemma rv_rkey : forall nm x m, rv nm x m -> rkey m = nm.
  Proof. intros nm x m (A & B & _). unfold rkey. rewrite A, B. symmetry. apply surjective_pairing. Qed.

  Local Notation Rcs := (C09_Mset_Level.Rcs rv relv pr rkey).
  Local Notation Rbs := (C09_Mset_Level.Rbs rv relv pr rkey).
  Definition Rc_pos : forall a b, Forall2 (crel rv relv pr) a b -> Rcs a b := Rcs_pos rv relv pr rkey PrInj rv_rkey.

  (* the names an object declares itself *)
  Definition ownI (i : N) (b : bool) : list cand :=
    map (fun m => (mkey fl m, Some m)) (r_methods (get s i)) ++
    (if b then map (fun m => (mkey fl m, Some m)) (ptr_methods s i)
     else if fx_pshadow fl then map (fun m => (mkey fl m, @None rmeth)) (ptr_methods s i) else []).

  Lemma decl_ok_inv : forall d l cs, d < nd -> d_under (nthN d env decl0) = T l cs ->
    forallb (wfb nd) cs = true /\ struct_ok (T l cs) = true /\ l <> LPtr /\
    match l with LIface _ => d_meths (nthN d env decl0) = [] | _ => True end /\
    forall m, In m (d_meths (nthN d env decl0)) -> wfb nd (me_sig m) = true.
  Proof.
    intros d l cs H U. destruct (decl_facts d H) as [Dk _]. unfold decl_ok in Dk. rewrite U in Dk.
    apply andb_true_iff in Dk as [Dk Hh]. apply andb_true_iff in Dk as [Dk So]. apply andb_true_iff in Dk as [W Wm].
    rewrite forallb_forall in Wm. apply andb_true_iff in W as [_ W]. repeat split; auto using in_map.
    - intros ->. discriminate Hh.
    - destruct l; try exact Logic.I. now destruct (d_meths (nthN d env decl0)).
  Qed.

  (* the current run-time does not let a pointer-receiver method reached without indirection hide deeper names:
     such entries are excluded for it *)
  Definition unblocked (d : N) (b : bool) : Prop :=
    fl = flags_fixed \/ b = true \/ filter me_ptr (d_meths (nthN d env decl0)) = [].

  (* some of the declared methods of d against the run-time's list of them; [hide]: they are pointer-receiver methods
     reached without indirection *)
  Lemma meths_rel : forall d b (p : meth -> bool) (hide : bool) rms, d < nd ->
    Forall2 (meth_rel s (named d)) (filter p (d_meths (nthN d env decl0))) rms ->
    (forall m, p m = true -> me_ptr m && negb b = hide) ->
    Rcs (map (fun m => ((me_name m, me_pkg m), if me_ptr m && negb b then None else Some (me_sig m, Some d)))
             (filter p (d_meths (nthN d env decl0))))
        (map (fun rm => (mkey fl rm, if hide then None else Some rm)) rms).
  Proof.
    intros d b p hide rms H F Hp. destruct (d_under (nthN d env decl0)) as [l cs] eqn:U.
    destruct (decl_ok_inv d l cs H U) as (_ & _ & _ & _ & Wm).
    apply Rc_pos, (Forall2_map_in _ _ _ _ _ _ F). intros m rm Hin (A & B & C & D). apply filter_In in Hin as [Hin P].
    unfold crel. cbn [fst snd]. rewrite mkey_pr, A, B, (Hp m P). split; [now apply (RelMeth d)|]. split; [reflexivity|].
    destruct hide; [exact Logic.I|]. unfold rv. cbn [fst snd]. rewrite D. repeat split; auto. now apply named_owner.
  Qed.

  (* Go lists the declared methods in source order, the run-time the value receivers first: the same candidates *)
  Lemma own_rel : forall d b, d < nd -> unblocked d b -> Rcs (ownS env (T (LNamed d) []) b) (ownI (named d) b).
  Proof.
    intros d b H Ub. destruct (decl_facts d H) as [_ Dl]. unfold decl_loaded in Dl. fold (named d) in Dl.
    destruct (d_under (nthN d env decl0)) as [l cs]. destruct Dl as (_ & _ & _ & _ & Mv & Mp).
    unfold ownS, ownI. eapply Rcs_perm; [apply Permutation_sym, Permutation_map, (partition_perm me_ptr)|]. rewrite map_app.
    apply Rcs_app.
    - apply (meths_rel d b _ false _ H Mv). intros m P. apply negb_true_iff in P. now rewrite P.
    - destruct b; [apply (meths_rel d true _ false _ H Mp); intros m _; apply andb_false_r|].
      destruct Ub as [Ef|[Ub|Ub]]; [|discriminate Ub|].
      + replace (fx_pshadow fl) with true by (now rewrite Ef). apply (meths_rel d false _ true _ H Mp). intros m P. now rewrite P.
      + rewrite Ub in Mp |- *. inversion Mp. destruct (fx_pshadow fl); apply Rcs_nil.
  Qed.

  (* the names an object has through its underlying type: fields, interface methods *)
  Definition tailI (l : lab) (ids : list N) (i : N) : list cand :=
    match l with
    | LStruct pkg fs =>
        if fx_field fl then
          map (fun x => ((fh_name (fst x), if fx_mpkg fl then (if fh_exp (fst x) then ""%string else pkg) else ""%string), @None rmeth))
              (zip fs ids)
        else []
    | LIface ms => map (fun m => (mkey fl m, Some m))
                       (map (fun x => Build_rmeth (mh_name (fst x)) (mh_pkg (fst x)) (snd x) i) (zip ms ids))
    | _ => []
    end.

  (* the current run-time is compared on declared types only *)
  Definition declared (l : lab) (cs : list ty) : Prop :=
    fl = flags_fixed \/ exists d, d < nd /\ d_under (nthN d env decl0) = T l cs.

  Lemma tail_rel : forall l cs ids i, Forall2 (rep s) ids cs -> forallb (wfb nd) cs = true -> declared l cs ->
    Rcs (tailS l cs (index_of i (s_named s) 0)) (tailI l ids i).
  Proof.
    intros l cs ids i F Wc Dc. rewrite forallb_forall in Wc.
    destruct l; try apply Rcs_nil; unfold tailS, tailI.
    - destruct Mode as [Ef|Ef].
      + (* the repaired run-time enters the fields under the names Go gives them *)
        rewrite Ef. cbn [fx_field fx_mpkg flags_fixed]. apply Rc_pos, (Forall2_map_in _ _ _ _ _ _ (Forall2_zip (rep s) fs ids cs F)).
        intros x y _ [E _]. split; [now left|]. unfold pr. rewrite Ef. cbn [fst snd fx_mpkg flags_fixed]. rewrite E. auto.
      + (* the current one enters none: no method is called like one of them *)
        destruct Dc as [Ef'|(d & Hd & U)]; [rewrite Ef in Ef'; discriminate Ef'|].
        rewrite Ef. cbn [fx_field flags_current]. split; [|split; [|intros ? ? []]].
        2: { intros nm v Hin. apply in_map_iff in Hin as [x [E _]]. discriminate E. }
        intros nm Hn. rewrite (res_absent _ nm); [exact Logic.I|].
        intros x Hx E. apply in_map_iff in Hx as [[f c] [<- Hx]]. cbn [fst] in E. apply in_zip in Hx as [Hx _].
        apply (FieldsOut Ef d pkg fs cs f nm Hd U Hx Hn). now rewrite <- E.
    - rewrite map_map. apply Rc_pos, (Forall2_map_in _ _ _ _ _ _ (Forall2_zip (rep s) ms ids cs F)).
      intros x y Hx [E R]. apply in_zip in Hx as [Hm Hc]. unfold crel, rv. rewrite mkey_pr. cbn [fst snd rm_name rm_pkg rm_typ rm_owner]. rewrite <- E.
      repeat split; auto. destruct Dc as [Ef|(d & Hd & U)]; [now left|exact (RelIface d ms cs (fst x) Hd U Hm)].
  Qed.

  (* the current run-time is compared on entries that are declared types and [unblocked] *)
  Definition blk_ok (t : ty) (b : bool) : Prop :=
    fl = flags_fixed \/ exists d, t = T (LNamed d) [] /\ d < nd /\ unblocked d b.

  (* an entry: a type term and the object that stands for it - what [level_entry] reads of the object, in terms of the
     underlying type [under env t] and the declarations *)
  Record entry_ok (t : ty) (i : N) : Prop := {
    eo_rep : rep s i t;
    eo_twf : wfb nd t = true;
    eo_wf : forallb (wfb nd) (args_of (under env t)) = true;
    eo_struct : struct_ok (under env t) = true;
    eo_lab : r_lab (get s i) = lab_of (under env t);
    eo_ids : Forall2 (rep s) (r_ids (get s i)) (args_of (under env t));
    eo_kind : r_kind (get s i) = kind_lab (lab_of (under env t));
    eo_owner : index_of i (s_named s) 0 = owner_of t;
    eo_own : forall b, blk_ok t b -> Rcs (ownS env t b) (if r_named (get s i) then ownI i b else []);
    eo_iface : match lab_of (under env t) with LIface _ => r_named (get s i) = true -> ownI i true = [] /\ ownI i false = [] | _ => True end }.

  Lemma entry_named : forall d, d < nd -> entry_ok (T (LNamed d) []) (named d).
  Proof.
    intros d H. destruct (d_under (nthN d env decl0)) as [l cs] eqn:U.
    destruct (decl_ok_inv d l cs H U) as (W & So & _ & Hi & _). destruct (decl_facts d H) as [_ Dl].
    unfold decl_loaded in Dl. fold (named d) in Dl. rewrite U in Dl. destruct Dl as (Nm & Lb & Ids & Kd & Mv & Mp).
    split; cbn [under]; rewrite ?U; auto.
    - apply rep_named. now apply in_range.
    - now apply wfb_named.
    - cbn. now apply named_owner.
    - intros b Hb. rewrite Nm. apply own_rel; [exact H|]. destruct Hb as [Ef|(d' & E & _ & Ub)]; [now left|]. now injection E as <-.
    - cbn [lab_of]. destruct l; try exact Logic.I. intros _. unfold ownI. rewrite Hi in Mv, Mp. cbn in Mv, Mp. inversion Mv. inversion Mp.
      now destruct (fx_pshadow fl).
  Qed.

  Lemma entry_comp : forall i l cs, composite l = true -> wfb nd (T l cs) = true -> struct_ok (T l cs) = true ->
    rep s i (T l cs) -> entry_ok (T l cs) i.
  Proof.
    intros i l cs C W So R.
    assert (Nn : ~ In i (s_named s)).
    { inversion R; subst; try discriminate C.
      match goal with H : lookup_tbl _ _ _ = Some _ |- _ => exact (named_not_cached s I _ _ _ H) end. }
    assert (W' := W). rewrite <- nd_s in W'. destruct (rep_obj s G i l cs C W' R) as (Lb & Ids & Nm & Kd).
    assert (U : under env (T l cs) = T l cs) by (destruct l; try discriminate C; reflexivity).
    assert (Ow : owner_of (T l cs) = None) by (destruct l; try discriminate C; reflexivity).
    split; rewrite ?U; auto.
    - now apply andb_true_iff in W.
    - rewrite Ow. now apply index_of_none.
    - intros b _. rewrite Nm. replace (ownS env (T l cs) b) with (@nil scand) by (destruct l; try discriminate C; reflexivity). apply Rcs_nil.
    - cbn [lab_of]. destruct l; try exact Logic.I. rewrite Nm. discriminate.
  Qed.

  (* the object of a type that is not written as a pointer type is not a pointer: no declared type has a pointer underneath *)
  Lemma not_ptr : forall l0 cs0 i, entry_ok (T l0 cs0) i -> l0 <> LPtr -> (r_kind (get s i) =? kindPtr) = false.
  Proof.
    intros l0 cs0 i E Hn. rewrite (eo_kind _ _ E), kind_lab_ptr. destruct (under env (T l0 cs0)) as [l cs] eqn:U. cbn [lab_of].
    destruct l; try reflexivity.
    destruct l0; try (injection U as U _; congruence); [|destruct (Hn eq_refl)].
    destruct (proj1 (wfb_named _ _ _) (eo_twf _ _ E)) as [Wd _].
    now destruct (decl_ok_inv d LPtr cs Wd U) as (_ & _ & Hp & _).
  Qed.

  Lemma entry_names : forall t b b', map fst (snd (spec_entry env (Build_sent t b))) = map fst (snd (spec_entry env (Build_sent t b'))).
  Proof.
    intros t b b'. rewrite !spec_cands, !map_app. f_equal.
    unfold ownS. destruct t as [[] ?]; try reflexivity. now rewrite !map_map.
  Qed.

  (* the next level: an embedded field is a declared type or a pointer to one - on both sides the same child *)
  Lemma field_kid : forall f c id b m, rep s id c -> wfb nd c = true -> emb_named (f, c) = true ->
    (if fh_emb (fst (f, c)) then match snd (f, c) with T LPtr [x] => [Build_sent x true] | x => [Build_sent x b] end else []) =
      map mkS (map (fun k => (fst k, snd k || b)) (kid_of (f, c))) /\
    (if fh_emb f then
       if r_kind (get s id) =? kindPtr then [Build_ent (nth 0 (r_ids (get s id)) 0) true m] else [Build_ent id b m]
     else []) = map mkE (map (fun k => (fst k, snd k || b, m)) (kid_of (f, c))) /\
    forall k, In k (kid_of (f, c)) -> fst k < nd.
  Proof.
    intros f [l0 cs0] id b m R W En. unfold emb_named, kid_of in *. cbn [fst snd] in *.
    destruct (fh_emb f); [|repeat split; intros ? []]. cbn [negb orb] in En. destruct l0; try discriminate En.
    - (* a declared type: its object is not a pointer *)
      destruct cs0; [|discriminate En]. apply rep_named_inv in R. subst id. apply wfb_named in W as [W _].
      rewrite (not_ptr _ _ _ (entry_named d W)) by discriminate.
      repeat split. intros k [<-|[]]. exact W.
    - (* a pointer to a declared type: the pointer object holds the id of the declared type *)
      destruct cs0 as [|[l1 cs1] r]; try discriminate En. destruct l1, cs1, r; try discriminate En.
      assert (Wd : d < nd) by (cbn [wfb forallb] in W; apply andb_true_iff in W as [_ W]; rewrite andb_true_r in W; now apply wfb_named in W).
      rewrite <- nd_s in W. destruct (rep_obj s G id LPtr _ eq_refl W R) as (_ & Ids & _ & Kd). rewrite Kd.
      inversion Ids as [|j ? js ? Rj Rn]; subst. inversion Rn; subst. apply rep_named_inv in Rj. subst j.
      split; [reflexivity|]. split; [reflexivity|]. intros k [<-|[]]. exact Wd.
  Qed.

  Lemma fields_kids : forall fs ids cs b m, Forall2 (rep s) ids cs -> forallb (wfb nd) cs = true -> forallb emb_named (zip fs cs) = true ->
    flat_map (fun fc : fhdr * ty => if fh_emb (fst fc) then match snd fc with T LPtr [x] => [Build_sent x true] | x => [Build_sent x b] end else [])
             (zip fs cs) = map mkS (map (fun k => (fst k, snd k || b)) (flat_map kid_of (zip fs cs))) /\
    flat_map (fun x : fhdr * N => if fh_emb (fst x) then
                         if r_kind (get s (snd x)) =? kindPtr then [Build_ent (nth 0 (r_ids (get s (snd x))) 0) true m] else [Build_ent (snd x) b m]
                       else []) (zip fs ids) = map mkE (map (fun k => (fst k, snd k || b, m)) (flat_map kid_of (zip fs cs))) /\
    forall k, In k (flat_map kid_of (zip fs cs)) -> fst k < nd.
  Proof.
    intros fs ids cs b m F. revert fs. induction F as [|id c ids cs R _ IH]; intros [|f fs] W So; try (repeat split; intros ? []).
    cbn [zip flat_map forallb] in *. apply andb_true_iff in W as [W1 W2]. apply andb_true_iff in So as [So1 So2]. rewrite !map_app.
    destruct (field_kid f c id b m R W1 So1) as (A1 & A2 & A3), (IH fs W2 So2) as (B1 & B2 & B3).
    split; [exact (f_equal2 (@app _) A1 B1)|]. split; [exact (f_equal2 (@app _) A2 B2)|].
    intros k Hk. apply in_app_or in Hk as [Hk|Hk]; auto.
  Qed.

  Lemma entry_kids : forall t i b, entry_ok t i ->
    fst (spec_entry env (Build_sent t b)) = map mkS (chS (under env t) b) /\ forall k, In k (kids (under env t)) -> fst k < nd.
  Proof.
    intros t i b [_ _ W So _ Ids _ _ _ _]. unfold spec_entry, chS, kids. cbn [se_ty se_ind]. destruct (under env t) as [l cs]. cbn [args_of] in *.
    destruct l; try (split; [reflexivity|intros ? []]). cbn [struct_ok fst] in *.
    destruct (fields_kids fs _ cs b false Ids W So) as (A & _ & C). auto.
  Qed.

  (* what the run-time does with an entry whose object is known: the children and the candidates in terms of the declarations *)
  Definition candsI (i : N) (l : lab) (b : bool) : list cand :=
    (if r_named (get s i) then ownI i b else []) ++ tailI l (r_ids (get s i)) i.

  Lemma level_entry_ok : forall t i cur next cands seen b m, entry_ok t i ->
    level_entry fl s cur (next, cands, seen) (Build_ent i b m) =
    if existsb (str_eqb (dec i)) seen then (next, cands, seen)
    else (next ++ map mkE (chI (under env t) b (multI fl s cur (Build_ent i b m))),
          cands ++ dupc (multI fl s cur (Build_ent i b m)) (candsI i (lab_of (under env t)) b), dec i :: seen).
  Proof.
    intros t i cur next cands seen b m [_ _ W So Lb Ids Kd _ _ Hi]. destruct (under env t) as [l cs]. cbn [lab_of args_of] in *.
    unfold level_entry. cbv beta iota zeta. fold (multI fl s cur (Build_ent i b m)). generalize (multI fl s cur (Build_ent i b m)). intro mult.
    cbn [e_typ e_ind e_mult]. rewrite (tkey_fl i). destruct (existsb (str_eqb (dec i)) seen); [reflexivity|].
    unfold candsI, tailI, iface_methods, dupc, chI, kids.
    rewrite Lb, Kd, kind_lab_iface. fold (ownI i b).
    assert (Fd : fx_ifdup fl = true) by (destruct Mode as [-> | ->]; reflexivity). rewrite Fd.
    destruct l; destruct (r_named (get s i)); cbn [andb map app]; rewrite ?app_nil_r; try reflexivity.
    (* a struct, declared or not: its embedded fields *)
    1,2: cbn [struct_ok] in So; rewrite (proj1 (proj2 (fields_kids fs _ cs b mult Ids W So))); reflexivity.
    (* a declared interface has no methods of its own: its interface methods are entered once *)
    assert (Eo : ownI i b = []) by (destruct (Hi eq_refl); now destruct b). rewrite ?Eo. unfold ownI in Eo. apply app_eq_nil in Eo as [_ Eo].
    rewrite Eo. cbn [map app]. now rewrite ?app_nil_r.
  Qed.

  Lemma entry_cands : forall t i b, entry_ok t i -> blk_ok t b ->
    Rcs (snd (spec_entry env (Build_sent t b))) (candsI i (lab_of (under env t)) b).
  Proof.
    intros t i b E Hb. rewrite spec_cands.
    assert (Dc : declared (lab_of (under env t)) (args_of (under env t))).
    { destruct Hb as [Ef|(d & -> & Hd & _)]; [now left|]. right. exists d. split; [exact Hd|]. cbn [under]. now destruct (d_under _). }
    apply Rcs_app; [now apply (eo_own _ _ E)|]. rewrite <- (eo_owner _ _ E).
    apply tail_rel; [apply (eo_ids _ _ E)|apply (eo_wf _ _ E)|exact Dc].
  Qed.

  Lemma named_eqb : forall d d', d < nd -> d' < nd -> (named d =? named d') = (d =? d').
  Proof.
    intros d d' H H'. destruct (N.eqb_spec d d') as [->|Hne]; [apply N.eqb_refl|]. apply N.eqb_neq. intro E.
    apply Hne. apply (named_inj s I d d'); auto using in_range.
  Qed.

  (* the run-time's [seen], a list of object keys, read as the set [sn] of declarations *)
  Definition seenI_as (seen : list str) (sn : N -> bool) : Prop :=
    forall d, d < nd -> existsb (str_eqb (dec (named d))) seen = sn d.

  Lemma multI_many : forall ys y, (forall y', In y' ys -> keyI y' < nd) -> keyI y < nd ->
    multI fl s (map mkE ys) (mkE y) = fx_diamond fl && many (keyI y) ys.
  Proof.
    intros ys y Hr Hy. unfold multI, many. f_equal. rewrite existsb_map, filter_map_comm, map_length.
    assert (E : forall y', In y' ys -> str_eqb (tkey fl s (e_typ (mkE y'))) (tkey fl s (e_typ (mkE y))) = (keyI y' =? keyI y)).
    { intros y' Hy'. rewrite !tkey_fl, str_eqb_dec. apply named_eqb; auto. }
    rewrite (existsb_ext_in _ (fun y' => (keyI y' =? keyI y) && snd y') ys) by (intros y' Hy'; now rewrite (E y' Hy')).
    now rewrite (filter_ext_in _ (fun y' => keyI y' =? keyI y) ys E).
  Qed.

  (* the run-time's side of one level of declared types: what a visited entry contributes *)
  Definition under_d (d : N) : ty := d_under (nthN d env decl0).
  Definition chIy (ys : list iy) (y : iy) : list iy :=
    chI (under_d (keyI y)) (snd (fst y)) (fx_diamond fl && many (keyI y) ys).
  Definition candIy (ys : list iy) (y : iy) : list cand :=
    dupc (fx_diamond fl && many (keyI y) ys) (candsI (named (keyI y)) (lab_of (under_d (keyI y))) (snd (fst y))).

  (* the fold of [level_entry] over (the rest [ys] of) a level [ys0] of declared types expands the entries of [visit] *)
  Lemma level_fold : forall ys0 ys next cands seen sn, (forall y, In y ys0 -> keyI y < nd) -> (forall y, In y ys -> keyI y < nd) ->
    seenI_as seen sn ->
    exists seen', fold_left (level_entry fl s (map mkE ys0)) (map mkE ys) (next, cands, seen) =
      (next ++ map mkE (flat_map (chIy ys0) (visit sn ys)), cands ++ flat_map (candIy ys0) (visit sn ys), seen') /\
      seenI_as seen' (fun d => existsb (N.eqb d) (map keyI (visit sn ys)) || sn d).
  Proof.
    intros ys0 ys. induction ys as [|[[d b] m] ys IH]; intros next cands seen sn Hr0 Hr Hs.
    - exists seen. cbn. now rewrite !app_nil_r.
    - assert (Hd : d < nd) by apply (Hr (d, b, m)), in_eq.
      cbn [map fold_left visit]. change (mkE (d, b, m)) with (Build_ent (named d) b m).
      rewrite (level_entry_ok _ _ _ _ _ _ b m (entry_named d Hd)), (Hs _ Hd). change (keyI (d, b, m)) with d. change (under env (T (LNamed d) [])) with (under_d d).
      destruct (sn d) eqn:Ey; [apply IH; auto; intros; apply Hr; now right|].
      change (Build_ent (named d) b m) with (mkE (d, b, m)). rewrite (multI_many ys0 (d, b, m) Hr0 Hd). change (keyI (d, b, m)) with d.
      destruct (IH (next ++ map mkE (chI (under_d d) b (fx_diamond fl && many d ys0)))
                   (cands ++ dupc (fx_diamond fl && many d ys0) (candsI (named d) (lab_of (under_d d)) b))
                   (dec (named d) :: seen) (fun d' => (d' =? d) || sn d')) as [seen' [E1 E2]]; auto.
      + intros; apply Hr; now right.
      + intros d' Hd'. cbn [existsb]. now rewrite str_eqb_dec, named_eqb, (Hs d' Hd').
      + exists seen'. rewrite E1. cbn [flat_map map]. unfold chIy at 2, candIy at 2, keyI. cbn [fst snd]. rewrite map_app, <- !app_assoc.
        split; [reflexivity|]. intros d' Hd'. rewrite (E2 d' Hd'). cbn [existsb]. now destruct (d' =? d), (existsb (N.eqb d') _), (sn d').
  Qed.

  Definition chSx (x : sx) : list sx := chS (under_d (fst x)) (snd x).
  Definition candSx (x : sx) : list scand := snd (spec_entry env (mkS x)).
  Definition snS (seenS : list ty) (d : N) : bool := existsb (identical (T (LNamed d) [])) seenS.

  Lemma spec_next_level : forall xs' : list sx, (forall x, In x xs' -> fst x < nd) ->
    flat_map fst (map (spec_entry env) (map mkS xs')) = map mkS (flat_map chSx xs').
  Proof.
    intros xs' Hr'. rewrite !flat_map_map, map_flat_map. apply flat_map_ext_in. intros x Hx.
    exact (proj1 (entry_kids _ _ (snd x) (entry_named _ (Hr' x Hx)))).
  Qed.

  Lemma spec_level : forall f (xs : list sx) seenS base, (forall x, In x xs -> fst x < nd) ->
    let xs' := filter (fun x : sx => negb (snS seenS (fst x))) xs in
    spec_levels env (S f) (map mkS xs) seenS base =
    match xs' with
    | [] => base
    | _ :: _ => spec_levels env f (map mkS (flat_map chSx xs')) (map (fun x => T (LNamed (fst x)) []) xs' ++ seenS)
                            (merge base (flat_map candSx xs'))
    end.
  Proof.
    intros f xs seenS base Hr. cbv zeta. cbn [spec_levels]. rewrite filter_map_comm. cbn [mkS se_ty].
    change (fun a : sx => negb (existsb (identical (T (LNamed (fst a)) [])) seenS)) with (fun x : sx => negb (snS seenS (fst x))).
    remember (filter (fun x : sx => negb (snS seenS (fst x))) xs) as xs' eqn:Ex.
    assert (Hr' : forall x, In x xs' -> fst x < nd) by (intros x Hx; rewrite Ex in Hx; apply filter_In in Hx as [Hx _]; auto).
    clear Ex. rewrite (spec_next_level xs' Hr'), !flat_map_map, !map_map. cbn [mkS se_ty]. change merge_level with (@merge (ty * option N)).
    now destruct xs'.
  Qed.

  (* what the current run-time needs of a level: no declaration twice, no pointer-receiver method out of reach - which is
     what [levels_clean] checks, level by level *)
  Definition level_ok (xs' : list sx) : Prop :=
    fl = flags_fixed \/ ((forall d, (cnt d xs' <= 1)%nat) /\ forall x, In x xs' -> unblocked (fst x) (snd x)).
  Definition lv_clean (fuel : nat) (xs : list sx) (seenS : list ty) : Prop :=
    fl = flags_fixed \/ levels_clean env fuel (map mkS xs) seenS = true.

  Lemma clean_level : forall f (xs : list sx) seenS, (forall x, In x xs -> fst x < nd) -> lv_clean (S f) xs seenS ->
    let xs' := filter (fun x : sx => negb (snS seenS (fst x))) xs in
    xs' <> [] -> level_ok xs' /\ lv_clean f (flat_map chSx xs') (map (fun x : sx => T (LNamed (fst x)) []) xs' ++ seenS).
  Proof.
    intros f xs seenS Hr [Ef|H] xs' Hne; [split; now left|].
    cbn [levels_clean] in H. rewrite filter_map_comm in H. cbn [mkS se_ty] in H.
    change (fun a : sx => negb (existsb (identical (T (LNamed (fst a)) [])) seenS)) with (fun x : sx => negb (snS seenS (fst x))) in H.
    fold xs' in H.
    assert (Hr' : forall x, In x xs' -> fst x < nd) by (intros x Hx; apply filter_In in Hx as [Hx _]; auto).
    destruct (map mkS xs') as [|e0 es] eqn:Em; [destruct xs'; [now destruct Hne|discriminate Em]|]. rewrite <- Em in H. clear Em e0 es.
    apply andb_true_iff in H as [H Hbelow]. apply andb_true_iff in H as [Hnodup Hfree].
    rewrite (spec_next_level xs' Hr'), map_map in Hbelow. cbn [mkS se_ty] in Hnodup, Hbelow. rewrite map_map in Hnodup. cbn [mkS se_ty] in Hnodup.
    split; [|now right].
    right. split; [intro d; now apply nodup_cnt|]. intros [d b] Hx. unfold unblocked. cbn [fst snd]. right.
    unfold blockers_free in Hfree. rewrite forallb_forall in Hfree. specialize (Hfree (mkS (d, b)) (in_map mkS _ _ Hx)). cbn [mkS se_ty se_ind fst snd] in Hfree.
    destruct b; [now left|right]. induction (d_meths (nthN d env decl0)) as [|m l IHl]; [reflexivity|]. cbn [forallb filter] in *.
    apply andb_true_iff in Hfree as [Hm Hl]. rewrite andb_true_r in Hm. apply negb_true_iff in Hm. rewrite Hm. auto.
  Qed.

  Lemma filter_length_lt : forall {A} (p q : A -> bool) l a, (forall x, q x = true -> p x = true) ->
    In a l -> p a = true -> q a = false -> (List.length (filter q l) < List.length (filter p l))%nat.
  Proof.
    intros A p q l a Hqp. assert (Le : forall l, (List.length (filter q l) <= List.length (filter p l))%nat).
    { induction l0 as [|x l0 IH]; cbn; [lia|]. destruct (q x) eqn:Eq; [rewrite (Hqp x Eq); cbn; lia|destruct (p x); cbn; lia]. }
    induction l as [|x l IH]; intros Hin Pa Qa; [destruct Hin|]. cbn. destruct Hin as [->|Hin].
    - rewrite Pa, Qa. cbn. specialize (Le l). lia.
    - specialize (IH Hin Pa Qa). destruct (q x) eqn:Eq; [rewrite (Hqp x Eq); cbn; lia|destruct (p x); cbn; lia].
  Qed.

  (* the declarations not yet seen: fewer after every level that expands an entry, so the fuel of neither side runs out *)
  Definition unseen (seenS : list ty) : nat :=
    List.length (filter (fun d => negb (snS seenS d)) (map N.of_nat (seq 0 (List.length env)))).

  Lemma snS_app : forall xs' seenS d, snS (map (fun x : sx => T (LNamed (fst x)) []) xs' ++ seenS) d = existsb (N.eqb d) (map fst xs') || snS seenS d.
  Proof.
    intros xs' seenS d. unfold snS. rewrite existsb_app, !existsb_map. f_equal. apply existsb_ext_in. intros x _. cbn. apply andb_true_r.
  Qed.

  Lemma unseen_less : forall x0 xs' seenS, In x0 xs' -> fst x0 < nd -> snS seenS (fst x0) = false ->
    (unseen (map (fun x : sx => T (LNamed (fst x)) []) xs' ++ seenS) < unseen seenS)%nat.
  Proof.
    intros x0 xs' seenS Hin Hr Hs. unfold unseen. apply (filter_length_lt _ _ _ (fst x0)).
    - intros d. rewrite snS_app. now destruct (existsb _ _).
    - apply in_map_iff. exists (N.to_nat (fst x0)). split; [lia|]. apply in_seq. unfold nd in Hr. lia.
    - now rewrite Hs.
    - rewrite snS_app. replace (existsb (N.eqb (fst x0)) (map fst xs')) with true; [reflexivity|].
      symmetry. apply (existsb_eqb_In N.eqb N.eqb_eq). now apply in_map.
  Qed.

  Lemma cnt_unseen : forall (sn : N -> bool) d xs, sn d = false -> cnt d (filter (fun x : sx => negb (sn (fst x))) xs) = cnt d xs.
  Proof.
    intros sn d xs Hd. unfold cnt. induction xs as [|x xs IH]; [reflexivity|]. cbn [filter].
    destruct (N.eqb_spec (fst x) d) as [E|Hne].
    - rewrite E, Hd. cbn [negb filter]. rewrite E, N.eqb_refl. cbn [List.length]. now rewrite IH.
    - destruct (negb (sn (fst x))); [cbn [filter]; apply N.eqb_neq in Hne; rewrite Hne|]; exact IH.
  Qed.

  (* the group of a visited entry under [level_ok]: as the model's flag says *)
  Lemma group_flag : forall xs ys sn d b m, J xs ys -> In (d, b, m) ys -> sn d = false ->
    level_ok (filter (fun x : sx => negb (sn (fst x))) xs) ->
    group (filter (fun x : sx => fst x =? d) xs) d b (fx_diamond fl && many d ys) /\
    (fx_diamond fl && many d ys = false -> unblocked d b).
  Proof.
    intros xs ys sn d b m HJ Hin Hd Hl. pose proof (J_group xs ys d b m HJ Hin) as Gp.
    destruct Mode as [Ef|Ef]; rewrite Ef; cbn [fx_diamond flags_fixed flags_current andb].
    - (* the repaired run-time: its flag says whether the group has two members *)
      split; [exact Gp|now left].
    - (* the current one: the level holds no declaration twice *)
      destruct Hl as [Ef'|[Hc Hu]]; [rewrite Ef in Ef'; discriminate Ef'|].
      assert (EG : filter (fun x : sx => fst x =? d) xs = [(d, b)]).
      { unfold group in Gp. destruct (many d ys); [|exact Gp]. specialize (Hc d). rewrite (cnt_unseen sn d xs Hd) in Hc. unfold cnt in Hc. lia. }
      split; [exact EG|]. intros _. apply (Hu (d, b)). apply filter_In. cbn [fst]. rewrite Hd. split; [|reflexivity].
      assert (Hg : In (d, b) (filter (fun x : sx => fst x =? d) xs)) by (rewrite EG; now left). now apply filter_In in Hg.
  Qed.

  (* one visited entry against the group of its copies: the next level, the candidates *)
  Lemma group_next : forall xs ys sn y, J xs ys -> In y ys -> sn (keyI y) = false ->
    level_ok (filter (fun x : sx => negb (sn (fst x))) xs) ->
    J (flat_map chSx (filter (fun x : sx => fst x =? keyI y) xs)) (chIy ys y).
  Proof.
    intros xs ys sn [[d b] m] HJ Hin Hd Hl. unfold keyI in Hd. cbn [fst] in Hd.
    destruct (group_flag xs ys sn d b m HJ Hin Hd Hl) as [F1 _].
    unfold chIy, chI, keyI. cbn [fst snd]. apply (J_kids (kids (under_d d)) chSx _ d b); [|exact F1].
    intros x Hx. apply filter_In in Hx as [_ Hx]. apply N.eqb_eq in Hx. unfold chSx, chS. now rewrite Hx.
  Qed.

  Lemma group_cands : forall xs ys sn y, J xs ys -> In y ys -> keyI y < nd -> sn (keyI y) = false ->
    level_ok (filter (fun x : sx => negb (sn (fst x))) xs) ->
    Rcs (flat_map candSx (filter (fun x : sx => fst x =? keyI y) xs)) (candIy ys y).
  Proof.
    intros xs ys sn [[d b] m] HJ Hin Hd Hsn Hl. unfold keyI in *. cbn [fst snd] in *.
    destruct (group_flag xs ys sn d b m HJ Hin Hsn Hl) as [F1 F2]. unfold group in F1.
    assert (Ec : forall b', unblocked d b' -> Rcs (candSx (d, b')) (candsI (named d) (lab_of (under_d d)) b')).
    { intros b' Ub. apply (entry_cands _ _ b' (entry_named d Hd)). right. exists d. auto. }
    unfold candIy, keyI. cbn [fst snd]. destruct (fx_diamond fl && many d ys) eqn:Em.
    - (* only the repaired run-time counts a declaration twice *)
      assert (Ef : fl = flags_fixed) by (destruct Mode as [Ef|Ef]; [exact Ef|rewrite Ef in Em; discriminate Em]).
      apply (Rcs_many rv relv pr rkey candSx _ (d, b)); [exact F1|apply Ec; now left| |intros nm v _; now left].
      intros [d' b'] Hg. apply filter_In in Hg as [_ Ed]. apply N.eqb_eq in Ed. cbn in Ed. subst d'. unfold candSx, mkS. cbn [fst snd].
      apply (entry_names (T (LNamed d) []) b' b).
    - rewrite F1. cbn [flat_map]. rewrite app_nil_r. exact (Ec b (F2 eq_refl)).
  Qed.

  Lemma bfs_nil : forall fuel seen base, bfs fl s fuel [] seen base = base.
  Proof. intros [|f] seen base; reflexivity. Qed.

  Lemma kid_range : forall d k, d < nd -> In k (kids (under_d d)) -> fst k < nd.
  Proof.
    intros d k H Hk. exact (proj2 (entry_kids _ _ false (entry_named d H)) k Hk).
  Qed.

  Lemma impl_level : forall f ys seenI baseI sn, (forall y, In y ys -> keyI y < nd) -> seenI_as seenI sn ->
    exists seenI', bfs fl s (S f) (map mkE ys) seenI baseI =
                   bfs fl s f (map mkE (flat_map (chIy ys) (visit sn ys))) seenI' (merge baseI (flat_map (candIy ys) (visit sn ys))) /\
                   seenI_as seenI' (fun d => existsb (N.eqb d) (map keyI (visit sn ys)) || sn d).
  Proof.
    intros f ys seenI baseI sn Hy Hs. destruct (level_fold ys ys [] [] seenI sn Hy Hy Hs) as [seenI' [Ef Hs']]. cbn [app] in Ef.
    exists seenI'. split; [|exact Hs']. destruct ys as [|y0 ys0]; [cbn; now rewrite bfs_nil|].
    cbn [bfs]. change (mkE y0 :: map mkE ys0) with (map mkE (y0 :: ys0)) in *. cbn [map].
    change (mkE y0 :: map mkE ys0) with (map mkE (y0 :: ys0)). now rewrite Ef, merge_fl.
  Qed.

  Lemma sim_levels : forall fS fI xs ys seenS seenI baseS baseI,
    (forall x, In x xs -> fst x < nd) -> (forall y, In y ys -> keyI y < nd) -> J xs ys ->
    seenI_as seenI (snS seenS) -> Rbs baseS baseI -> lv_clean fS xs seenS -> (unseen seenS < fS)%nat -> (fS <= fI)%nat ->
    Rbs (spec_levels env fS (map mkS xs) seenS baseS) (bfs fl s fI (map mkE ys) seenI baseI).
  Proof.
    induction fS as [|fS IH]; intros fI xs ys seenS seenI baseS baseI Hx Hy HJ Hs Hb Hl Hm Hf; [lia|].
    destruct fI as [|fI]; [lia|]. rewrite (spec_level fS xs seenS baseS Hx). cbv zeta.
    destruct (impl_level fI ys seenI baseI (snS seenS) Hy Hs) as [seenI' [Eb Hs']]. rewrite Eb. clear Eb.
    pose proof (level_keys xs ys (snS seenS) HJ) as K. pose proof (clean_level fS xs seenS Hx Hl) as Hc. cbv zeta in Hc.
    set (xs' := filter (fun x : sx => negb (snS seenS (fst x))) xs) in *. set (vs := visit (snS seenS) ys) in *.
    destruct xs' as [|x0 r] eqn:Ex.
    - (* nothing new on Go's side: the run-time's level changes nothing *)
      assert (Ev : vs = []) by (destruct vs as [|y0 v]; [reflexivity|]; destruct (proj2 (K (keyI y0))); now left).
      rewrite Ev. cbn [flat_map map]. now rewrite bfs_nil.
    - assert (Hx0 : In x0 xs') by (rewrite Ex; now left). rewrite <- Ex in *. clear Ex r.
      assert (Hx' : forall x, In x xs' -> In x xs /\ snS seenS (fst x) = false).
      { intros x Hin. apply filter_In in Hin as [H1 H2]. split; [exact H1|now apply negb_true_iff]. }
      destruct Hc as [Hl1 Hl']; [intro E0; rewrite E0 in Hx0; destruct Hx0|].
      apply IH.
      + intros x Hin. apply in_flat_map in Hin as [x1 [H1 Hin]]. apply in_map_iff in Hin as [k [<- Hk]].
        exact (kid_range _ k (Hx _ (proj1 (Hx' _ H1))) Hk).
      + intros y Hin. apply in_flat_map in Hin as [y1 [H1 Hin]]. apply in_map_iff in Hin as [k [<- Hk]].
        exact (kid_range _ k (Hy _ (proj1 (visit_in _ _ _ H1))) Hk).
      + (* the next levels *)
        exact (level_transfer J chSx (chIy ys) J_nil J_app J_perm xs ys (snS seenS) HJ
                 (fun y Hin Hsn => group_next xs _ (snS seenS) y HJ Hin Hsn Hl1)).
      + (* the seen sets *) intros d Hd. rewrite (Hs' d Hd), snS_app. f_equal. apply eq_true_iff_eq. rewrite !(existsb_eqb_In N.eqb N.eqb_eq). symmetry. apply K.
      + (* the names resolved *) apply Rbs_merge; [exact Hb|].
        exact (level_transfer Rcs candSx (candIy ys) (Rcs_nil _ _ _ _) (Rcs_app _ _ _ _) (Rcs_perm _ _ _ _) xs ys (snS seenS) HJ
                 (fun y Hin Hsn => group_cands xs _ (snS seenS) y HJ Hin (Hy y Hin) Hsn Hl1)).
      + exact Hl'.
      + (* fuel *) destruct (Hx' _ Hx0) as [H1 H2]. pose proof (unseen_less x0 xs' seenS Hx0 (Hx _ H1) H2). lia.
      + lia.
  Qed.

  (* the run-time's fuel counts objects, Go's counts declarations: no less *)
  Lemma named_le_types : (List.length env <= List.length (s_types s))%nat.
  Proof.
    assert (E : List.length (s_named s) = List.length env) by (pose proof nd_s as E; unfold nd_of, nd in E; lia).
    rewrite <- E, <- (map_length N.to_nat), <- (seq_length (List.length (s_types s)) 0). apply NoDup_incl_length.
    - apply FinFun.Injective_map_NoDup; [intros a b; apply N2Nat.inj|exact (inv_nodup s I)].
    - intros n Hn. apply in_map_iff in Hn as [i [<- Hi]]. apply in_seq. pose proof (inv_named s I i Hi). lia.
  Qed.

  Lemma unseen_le : forall seenS, (unseen seenS <= List.length env)%nat.
  Proof.
    intro seenS. unfold unseen.
    assert (Le : forall (p : N -> bool) l, (List.length (filter p l) <= List.length l)%nat).
    { induction l as [|d l IH]; cbn; [lia|]. destruct (p d); cbn; lia. }
    etransitivity; [apply Le|]. now rewrite map_length, seq_length.
  Qed.

  (* a type the search can start from: a declared type, a composite type, or a pointer to one of these *)
  Definition start_ok (x : ty) : bool :=
    wfb nd x && match x with T (LBasic _) _ => false | _ => struct_ok x end.
  Definition top_ok (t : ty) : bool :=
    wfb nd t && match t with T LPtr [x] => start_ok x | _ => start_ok t end.
  (* ... and for the current run-time: a declared type, or a pointer to one, whose search is clean *)
  Definition start_clean (x : ty) (b : bool) : Prop :=
    fl = flags_fixed \/ exists d, x = T (LNamed d) [] /\ levels_clean env (S (S (List.length env))) [Build_sent x b] [] = true.
  Definition top_clean (t : ty) : Prop := fl = flags_fixed \/ (named_or_ptr t = true /\ type_clean env t = true).
  Lemma top_start : forall t, top_clean t ->
    match t with T LPtr [x] => start_clean x true | _ => start_clean t false end.
  Proof.
    intros [l cs] [Ef|[Hn Ht]]; [destruct l; try (now left); destruct cs as [|x [|? ?]]; now left|].
    unfold type_clean in Ht. destruct l; try discriminate Hn.
    - destruct cs; [|discriminate Hn]. right. eauto.
    - destruct cs as [|[l1 cs1] r]; [discriminate Hn|]. destruct l1, cs1, r; try discriminate Hn. right. eauto.
  Qed.

  Lemma start_entry : forall x ix, start_ok x = true -> rep s ix x -> entry_ok x ix.
  Proof.
    intros [l0 cs0] ix Hs R. apply andb_true_iff in Hs as [W So]. destruct (composite l0) eqn:C.
    - apply entry_comp; auto. destruct l0; try discriminate C; exact So.
    - destruct l0; try discriminate C; [discriminate So|]. apply wfb_named in W as [Hd ->]. apply rep_named_inv in R. subst ix.
      now apply entry_named.
  Qed.

  Lemma first_level : forall x ix b fS fI, fl = flags_fixed -> entry_ok x ix -> (List.length env < fS)%nat -> (fS <= fI)%nat ->
    Rbs (spec_levels env (S fS) [Build_sent x b] [] []) (bfs fl s (S fI) [Build_ent ix b false] [] []).
  Proof.
    intros x ix b fS fI Ef E Hf Hf'. cbn [spec_levels bfs filter existsb negb map flat_map fold_left].
    rewrite (level_entry_ok x ix _ _ _ _ b false E). cbn [existsb]. rewrite !app_nil_r.
    assert (Em : multI fl s [Build_ent ix b false] (Build_ent ix b false) = false).
    { unfold multI. cbn [existsb filter e_typ e_mult]. rewrite str_eqb_refl. cbn. apply andb_false_r. }
    rewrite Em. unfold dupc. cbn [app].
    destruct (entry_kids x ix b E) as [En Kr]. rewrite En.
    change merge_level with (@merge (ty * option N)). rewrite merge_fl.
    apply sim_levels; try assumption.
    - intros x1 Hin. apply in_map_iff in Hin as [k [<- Hk]]. exact (Kr k Hk).
    - intros y Hin. apply in_map_iff in Hin as [k [<- Hk]]. exact (Kr k Hk).
    - (* the group of the start entry is the entry itself; which declaration it is plays no role (0) *)
      pose proof (J_kids (kids (under env x)) (fun x0 : sx => map (fun k : N * bool => (fst k, snd k || snd x0)) (kids (under env x))) [(0, b)] 0 b false) as HJ.
      cbn [flat_map snd] in HJ. rewrite app_nil_r in HJ. apply HJ; [auto|reflexivity].
    - (* the start entry is seen on both sides *)
      intros d Hd. cbn [existsb snS]. rewrite str_eqb_dec. f_equal. apply eq_true_iff_eq.
      rewrite N.eqb_eq. pose proof (eo_twf _ _ E) as W. rewrite <- nd_s in W.
      apply (rep_unique s I (T (LNamed d) []) x (named d) ix); auto.
      + rewrite nd_s. now apply wfb_named.
      + apply rep_named. now apply in_range.
      + exact (eo_rep _ _ E).
    - apply Rbs_merge; [apply Rbs_nil|]. apply (entry_cands x ix b E). now left.
    - now left.
    - eapply Nat.le_lt_trans; [apply unseen_le|exact Hf].
  Qed.

  (* [same_sets] of methods: related by [rv], so the signature is represented and the owner is the same *)
  Definition same_mset : list ((string * string) * (ty * option N)) -> list rmeth -> Prop := same_sets rv rkey.

  Lemma search_sim : forall x ix b, entry_ok x ix -> start_clean x b ->
    same_mset (picks (spec_levels env (S (S (List.length env))) [Build_sent x b] [] []))
              (flat_map (fun c : cand => match snd c with Some m => [m] | None => [] end)
                        (bfs fl s (S (S (List.length (s_types s)))) [Build_ent ix b false] [] [])).
  Proof.
    intros x ix b E Hc. apply (Rbs_sets rv relv pr rkey PrInj). pose proof named_le_types as Hn.
    destruct Hc as [Ef|(d & -> & Hl)]; [apply (first_level _ _ b _ _ Ef E); lia|].
    (* the current flags: the start is a declared type, a level of the search like those below it *)
    destruct (proj1 (wfb_named _ _ _) (eo_twf _ _ E)) as [Wd _]. rewrite (rep_named_inv _ _ (eo_rep _ _ E)).
    apply (sim_levels _ _ [(d, b)] [(d, b, false)] [] [] [] []).
    - intros x [<-|[]]. exact Wd.
    - intros y [<-|[]]. exact Wd.
    - exact (J_kids [(d, false)] (fun x => [(d, snd x)]) [(0, b)] 0 b false (fun _ _ => eq_refl) eq_refl).
    - intros d' _. reflexivity.
    - apply Rbs_nil.
    - now right.
    - eapply Nat.le_lt_trans; [apply unseen_le|lia].
    - lia.
  Qed.

  Lemma is_if_iface : forall t i, entry_ok t i -> (r_kind (get s i) =? kindInterface) = is_iface env t.
  Proof. intros t i E. unfold is_iface. rewrite (eo_kind _ _ E), kind_lab_iface. now destruct (under env t) as [[] ?]. Qed.

  Theorem mset_sim : forall t i, top_ok t = true -> top_clean t -> rep s i t -> same_mset (spec_mset env t) (mset_impl fl s i).
  Proof.
    intros t i Ht Hc R. apply top_start in Hc. apply andb_true_iff in Ht as [W Ht]. unfold spec_mset, mset_impl.
    destruct t as [l0 cs0]. destruct (lab_ident l0 LPtr) eqn:El. (* two cases instead of ten: l0 is LPtr or not *)
    - (* *x: the search starts from x, reached through a pointer; nothing if x is an interface *)
      destruct l0; try discriminate El. cbn [wfb lab_wf] in W. apply andb_true_iff in W as [Wl Wc].
      destruct cs0 as [|x [|? ?]]; try discriminate Wl.
      assert (W' : wfb (nd_of s) (T LPtr [x]) = true) by (rewrite nd_s; cbn [wfb lab_wf]; now rewrite Wc).
      destruct (rep_obj s G i LPtr [x] eq_refl W' R) as (_ & Ids & _ & Kd).
      inversion Ids as [|ix ? ids ? Rx Rn Ei]; subst. inversion Rn; subst.
      pose proof (start_entry x ix Ht Rx) as E. rewrite Kd, N.eqb_refl. cbn [nth andb].
      rewrite (is_if_iface x ix E). destruct (is_iface env x); [|now apply search_sim].
      split; [intros ? []|split; [intros ? ? []|reflexivity]].
    - destruct l0; try discriminate El;
        (pose proof (start_entry _ i Ht R) as E; rewrite (not_ptr _ _ i E) by discriminate; now apply search_sim).
  Qed.

  Section Answers.
    Variables (ms : list ((string * string) * (ty * option N))) (mi : list rmeth).
    Hypothesis Sm : same_mset ms mi.

    (* PMset: the same names with the same owners *)
    Lemma mset_answer :
      ans_eqb (AMset (map (fun x => (rm_name x, rm_pkg x, index_of (rm_owner x) (s_named s) 0)) mi))
              (AMset (map (fun x : (string * string) * (ty * option N) => (fst (fst x), snd (fst x), snd (snd x))) ms)) = true.
    Proof.
      destruct Sm as (IS & _ & L). cbn [ans_eqb]. rewrite !map_length, L, N.eqb_refl. cbn [andb]. apply forallb_forall. intros o Ho.
      apply in_map_iff in Ho as [m [<- Hm]]. destruct (IS m Hm) as (v & Hv & (_ & _ & _ & _ & D)). cbn [snd] in D.
      apply existsb_exists. exists (rm_name m, rm_pkg m, snd v). split.
      - exact (in_map (fun x : (string * string) * (ty * option N) => (fst (fst x), snd (fst x), snd (snd x))) _ (_, v) Hv).
      - unfold me_eqb. cbn [fst snd]. rewrite D, !String.eqb_refl. cbn. destruct (snd v); [apply N.eqb_refl|reflexivity].
    Qed.

    (* PAssert to an interface: the interface's methods one by one *)
    Definition tm_rel (a : (string * string) * ty) (b : rmeth) : Prop :=
      rm_name b = fst (fst a) /\ rm_pkg b = snd (fst a) /\ rep s (rm_typ b) (snd a) /\ wfb nd (snd a) = true.

    Lemma has_method : forall a b, tm_rel a b ->
      existsb (fun vm => meth_match vm b) mi =
      existsb (fun vm : (string * string) * (ty * option N) => nm_eqb (fst vm) (fst a) && identical (fst (snd vm)) (snd a)) ms.
    Proof.
      destruct Sm as (IS & SI & _). intros [nm sg] b (A & B & C & D). cbn [fst snd] in *. rewrite <- nd_s in D.
      (* a method of the one set and the method of that name in the other: the same signature iff the same object *)
      assert (U : forall n v vm, rv n v vm -> meth_match vm b = nm_eqb n nm && identical (fst v) sg).
      { intros n v vm (A' & B' & C' & D' & _). rewrite <- nd_s in D'. unfold meth_match, nm_eqb. cbn [fst snd]. rewrite A, B, A', B'. f_equal.
        apply eq_true_iff_eq. rewrite N.eqb_eq. now apply (rep_unique s I (fst v) sg). }
      apply eq_true_iff_eq. rewrite !existsb_exists. split.
      - intros [vm [Hin Hm]]. destruct (IS vm Hin) as (v & Hv & R). exists (rkey vm, v). split; [exact Hv|]. cbn [fst snd]. now rewrite <- (U _ _ _ R).
      - intros [[n v] [Hv Hm]]. destruct (SI n v Hv) as (vm & Hin & R). exists vm. split; [exact Hin|]. cbn [fst snd] in Hm. now rewrite (U _ _ _ R).
    Qed.

    (* hence the methods the dynamic type lacks have the same names on both sides, in the interface's order *)
    Lemma lacks_rel : forall tms rms, Forall2 tm_rel tms rms ->
      map rm_name (filter (fun tm => negb (existsb (fun vm => meth_match vm tm) mi)) rms) =
      map (fun tm : (string * string) * ty => fst (fst tm))
          (filter (fun tm => negb (existsb (fun vm : (string * string) * (ty * option N) => nm_eqb (fst vm) (fst tm) && identical (fst (snd vm)) (snd tm)) ms)) tms).
    Proof.
      intros tms rms F. induction F as [|x y tms rms H _ IH]; [reflexivity|]. cbn [filter]. rewrite (has_method x y H).
      destruct (existsb _ ms); cbn [negb map]; [exact IH|]. now rewrite IH, (proj1 H).
    Qed.
  End Answers.

  Lemma iface_rel : forall tj idj, entry_ok tj idj -> Forall2 tm_rel (iface_meths env tj) (iface_methods s idj).
  Proof.
    intros tj idj [_ _ Wc _ Lb Ids _ _ _ _]. unfold iface_meths, iface_methods. rewrite Lb. destruct (under env tj) as [l sigs]. cbn [lab_of args_of] in *.
    destruct l; try constructor. rewrite forallb_forall in Wc.
    apply (Forall2_map_in _ _ _ _ _ _ (Forall2_zip (rep s) ms _ sigs Ids)).
    intros x y Hx [Ef R]. apply in_zip in Hx as [_ Hx]. unfold tm_rel. cbn [fst snd rm_name rm_pkg rm_typ]. rewrite Ef. auto.
  Qed.

  Section Probes.
    Variables (univ : list ty) (ids : list N).
    Hypothesis Ru : Forall2 (rep s) ids univ.
    Definition univ_ok (t : ty) : bool := top_ok t && start_ok t.
    Hypothesis Wu : forallb univ_ok univ = true.
    Let n : N := N.of_nat (List.length univ).
    Let tyU (i : N) : ty := nthN i univ (T (LBasic 0) []).

    Definition probe_ok (p : probe) : bool :=
      match p with
      | PIdent i j | PAssert i j => (i <? n) && (j <? n)
      | PMset i => i <? n
      | PEq _ _ => false
      end.

    Lemma univ_at : forall i, i < n -> rep s (nthN i ids 0) (tyU i) /\ top_ok (tyU i) = true /\ start_ok (tyU i) = true.
    Proof.
      intros i Hi. assert (Hn : (N.to_nat i < List.length univ)%nat) by (unfold n in Hi; lia). split.
      - unfold nthN, tyU. now apply (Forall2_nth (rep s)).
      - rewrite forallb_forall in Wu. apply andb_true_iff, Wu. unfold tyU, nthN. now apply nth_In.
    Qed.

    Lemma spec_mset_at : forall i, i < n -> nthN i (map (spec_mset env) univ) [] = spec_mset env (tyU i).
    Proof.
      intros i Hi. unfold nthN, tyU. rewrite (nth_indep _ [] (spec_mset env (T (LBasic 0) []))) by (rewrite map_length; unfold n in Hi; lia).
      apply map_nth.
    Qed.

    (* the types whose method sets a probe needs: for the current run-time their search has to be clean *)
    Definition probe_clean (p : probe) : Prop :=
      match p with PAssert i _ | PMset i => top_clean (tyU i) | _ => True end.

    Lemma univ_same : forall i j, i < n -> j < n -> (nthN i ids 0 =? nthN j ids 0) = identical (tyU i) (tyU j).
    Proof.
      intros i j Hi Hj. destruct (univ_at i Hi) as (Ri & Ti & _), (univ_at j Hj) as (Rj & Tj & _).
      apply andb_true_iff in Ti as [Wi _]. apply andb_true_iff in Tj as [Wj _]. rewrite <- nd_s in Wi, Wj.
      apply eq_true_iff_eq. rewrite N.eqb_eq. now apply (rep_unique s I).
    Qed.

    Theorem probe_agree : forall p, probe_ok p = true -> probe_clean p ->
      ans_eqb (answer fl s ids p) (spec_answer env univ p) = true.
    Proof.
      intros [i j|i j|i|a b] Hp Hc; cbn [probe_ok] in Hp; cbn [probe_clean] in Hc; try discriminate Hp.
      - (* PIdent *) apply andb_true_iff in Hp as [Hi Hj]. apply N.ltb_lt in Hi, Hj. unfold answer, spec_answer, run_spec, tyN.
        cbn [step_impl map f_probes f_decls f_univ hd fst app ans_eqb]. fold (tyU i) (tyU j). rewrite (univ_same i j Hi Hj). apply eqb_reflx.
      - (* PAssert: a concrete target compares the two objects *) apply andb_true_iff in Hp as [Hi Hj]. apply N.ltb_lt in Hi, Hj.
        destruct (univ_at i Hi) as (Ri & Ti & _), (univ_at j Hj) as (Rj & _ & Sj).
        pose proof (mset_sim _ _ Ti Hc Ri) as Sm. pose proof (start_entry _ _ Sj Rj) as E. unfold answer, spec_answer, run_spec, tyN.
        cbn [step_impl map f_probes f_decls f_univ]. unfold assert_impl. fold (tyU i) (tyU j). rewrite (is_if_iface _ _ E), (univ_same i j Hi Hj).
        unfold is_iface. pose proof (eo_lab _ _ E) as Lb. destruct (under env (tyU j)) as [l cs]. cbn [lab_of] in Lb.
        destruct l; try (cbn [negb]; unfold iface_methods; rewrite Lb; cbn; rewrite orb_true_r, andb_true_r; apply eqb_reflx).
        (* an interface: the methods the dynamic type lacks, in the interface's order *)
        cbn [negb lookup_memo m_impl memo0]. rewrite find_filter, (spec_mset_at i Hi).
        pose proof (lacks_rel _ _ Sm _ _ (iface_rel _ _ E)) as L.
        destruct (filter _ (iface_methods s _)) as [|tI rI], (filter _ (iface_meths env _)) as [|tS rS]; try discriminate L; [reflexivity|].
        cbn [map] in L. injection L as L1 L2. cbn [map existsb]. rewrite String.eqb_refl. cbn [orb hd fst app ans_eqb Bool.eqb andb].
        rewrite L1, L2. cbn [existsb]. now rewrite String.eqb_refl.
      - (* PMset *) apply N.ltb_lt in Hp. destruct (univ_at i Hp) as (Ri & Ti & _). unfold answer, spec_answer, run_spec.
        cbn [step_impl map f_probes f_decls f_univ hd fst app]. rewrite (spec_mset_at i Hp). exact (mset_answer _ _ (mset_sim _ _ Ti Hc Ri)).
    Qed.
  End Probes.
End Sim.
