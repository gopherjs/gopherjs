(* C09 - families of declarations with a probe script.  For EVERY family of legal declarations ([fam_ok]) the model of
   the run-time answers the script as Go does: with the repaired flags ([fam_agree]), and with the current flags
   outside the four recorded $methodSet classes ([fam_clean]) where the script asks for the method sets of declared
   types and pointers to them ([fam_agree_current]) - from [probe_agree] of C09_Mset.v, probe by probe
   ([run_impl_probe_by_probe]).  The 19683 families [mset_fams] are legal by construction and are only counted. *)
From Coq Require Import List NArith Bool String Ascii Lia.
From Verif Require Import Gen.C09_Kinds Model.C09_Types Corr.C09_Eval Model.C09_P4_Wf.
From Verif Require Import Proofs.C09_P4_Strings Proofs.C09_P4_Keys Proofs.C09_P4_Canon Proofs.C09_P4_Ident Proofs.C09_Types.
From Verif Require Import Proofs.C09_Mset_Store Proofs.C09_Mset_Level Proofs.C09_Mset.
Import ListNotations.
Local Open Scope N_scope.

(* [env_ok]: Go's rules for embedded fields and receivers; [univ_ok]: the universe holds declared and composite types
   and pointers to them; the script asks for identity, method sets and assertions inside the universe. *)
Definition fam_ok (f : family) : bool :=
  env_ok (f_decls f) && forallb (univ_ok (f_decls f)) (f_univ f) && forallb (probe_ok (f_univ f)) (f_probes f).

Lemma diff_map : forall {A} (g h : A -> ans) l, (forall p, In p l -> ans_eqb (g p) (h p) = true) -> forall n, diff_from n (map g l) (map h l) = [].
Proof.
  intros A g h l. induction l as [|p l IH]; intros H n; [reflexivity|]. cbn [map diff_from]. rewrite (H p (or_introl eq_refl)).
  apply IH. intros. apply H. now right.
Qed.

(* a family's script agrees with Go if the searches its probes need are clean: probe by probe, in the loaded store *)
Lemma fam_probes : forall fl f,
  fl = flags_fixed \/ (fl = flags_current /\ fields_clean (f_decls f) = true /\ mpkg_clean (f_decls f) = true) ->
  fam_ok f = true -> (forall p, In p (f_probes f) -> probe_clean (f_decls f) fl (f_univ f) p) ->
  diff_from 0 (run_impl fl f) (run_spec f) = [].
Proof.
  intros fl f C H Hc. apply andb_true_iff in H as [H Hp]. apply andb_true_iff in H as [He Hu].
  assert (M : fx_memo fl = true /\ same_keys fl flc) by (destruct C as [->|[-> _]]; repeat split).
  rewrite (run_impl_probe_by_probe fl f (proj1 M)), (load_env_keys fl flc (proj2 M)), (canon_list_keys fl flc (proj2 M)).
  destruct (canon_list flc (f_univ f) (load_env flc (f_decls f))) as [ids s] eqn:E.
  assert (Wf : forallb (wfb (N.of_nat (List.length (f_decls f)))) (f_univ f) = true).
  { apply forallb_forall. intros t Ht. rewrite forallb_forall in Hu. specialize (Hu t Ht).
    apply andb_true_iff in Hu as [Hu _]. now apply andb_true_iff in Hu as [Hu _]. }
  destruct (canon_list_loaded (f_decls f) _ (f_univ f) ids s (load_env_loaded _ He) Wf E) as [Ld Ru].
  rewrite run_spec_eq. apply diff_map. intros p Hin. rewrite forallb_forall in Hp.
  exact (probe_agree (f_decls f) s fl He Ld C (f_univ f) ids Ru Hu p (Hp p Hin) (Hc p Hin)).
Qed.

Theorem fam_agree : forall f, fam_ok f = true -> diff_from 0 (run_impl flags_fixed f) (run_spec f) = [].
Proof. intros f H. apply fam_probes; [now left|exact H|]. intros [] _; try exact I; now left. Qed.

(* the families are legal: each declaration is one of 66 pieces *)
Definition piece_ok (e : list (fhdr * ty)) (m : list meth) : bool := decl_ok 4 (Build_decl "" "" (mk_struct e) m).

Lemma pieces_ok :
  forallb (fun e => forallb (piece_ok e) meth_opts3) (emb_opts 1 ++ emb_opts 2 ++ emb_opts 3) = true /\
  forallb (fun e => piece_ok (e ++ [(Build_fhdr "M" false true "", T (LBasic 1) [])]) []) (emb_opts 2) = true.
Proof. vm_compute. split; reflexivity. Qed.

Lemma mset_fams_all : forall P : family -> Prop,
  (forall e1 e2 e3 m0 m1 m2 fld, In e1 (emb_opts 1) -> In e2 (emb_opts 2) -> In e3 (emb_opts 3) -> In m0 meth_opts3 -> In m1 meth_opts3 ->
     In m2 [[]; [mM false]] -> (fld = true -> m2 = []) -> P (fam_of e1 e2 e3 m0 m1 m2 fld)) ->
  forall f, In f mset_fams -> P f.
Proof.
  intros P HP f H. unfold mset_fams in H.
  apply in_flat_map in H as [e1 [H1 H]]. apply in_flat_map in H as [e2 [H2 H]]. apply in_flat_map in H as [e3 [H3 H]].
  apply in_flat_map in H as [m0 [H4 H]]. apply in_flat_map in H as [m1 [H5 H]]. apply in_flat_map in H as [m2 [H6 H]].
  apply in_app_or in H as [H|[<-|[]]]; [|apply HP; auto; discriminate].
  destruct m2; [|destruct H]. destruct H as [<-|[]]. now apply HP.
Qed.

Lemma mset_fams_ok : forall f, In f mset_fams -> fam_ok f = true.
Proof.
  apply mset_fams_all. intros e1 e2 e3 m0 m1 m2 fld H1 H2 H3 H4 H5 H6 Hf.
  destruct pieces_ok as [P Q]. rewrite forallb_forall in P, Q.
  assert (Pk : forall e m, In e (emb_opts 1 ++ emb_opts 2 ++ emb_opts 3) -> In m meth_opts3 -> piece_ok e m = true).
  { intros e m He Hm. specialize (P e He). rewrite forallb_forall in P. auto. }
  assert (M2 : In m2 meth_opts3) by (destruct H6 as [<-|[<-|[]]]; cbn; auto).
  unfold fam_ok, env_ok. cbn [fam_of f_decls f_univ f_probes forallb List.length].
  change (decl_ok (N.of_nat 4) (Build_decl "main.T0" "main" (mk_struct []) m0)) with (piece_ok [] m0).
  change (decl_ok (N.of_nat 4) (Build_decl "main.T1" "main" (mk_struct e1) m1)) with (piece_ok e1 m1).
  change (decl_ok (N.of_nat 4) (Build_decl "main.T3" "main" (mk_struct e3) [])) with (piece_ok e3 []).
  match goal with |- context [decl_ok _ (Build_decl "main.T2" _ (mk_struct ?e) _)] =>
    change (decl_ok (N.of_nat 4) (Build_decl "main.T2" "main" (mk_struct e) m2)) with (piece_ok e m2) end.
  rewrite (Pk [] m0), (Pk e1 m1), (Pk e3 []); auto using in_or_app; [|cbn; auto|cbn; auto].
  replace (piece_ok _ m2) with true; [reflexivity|]. symmetry. destruct fld.
  - rewrite (Hf eq_refl). apply (Q e2 H2).
  - rewrite app_nil_r. apply Pk; auto using in_or_app.
Qed.

(* the types whose method sets the script needs are declared types or pointers to them *)
Definition fam_dyn (f : family) : bool :=
  forallb (fun p => match p with PAssert i _ | PMset i => named_or_ptr (tyN f i) | _ => true end) (f_probes f).

Theorem fam_agree_current : forall f, fam_ok f = true -> fam_dyn f = true -> fam_clean f = true ->
  diff_from 0 (run_impl flags_current f) (run_spec f) = [].
Proof.
  intros f H Hd Hc. apply andb_true_iff in Hc as [Hc Ht]. apply andb_true_iff in Hc as [Hf Hm].
  apply fam_probes; [now right|exact H|]. intros p Hin.
  apply andb_true_iff in H as [_ Hp]. unfold fam_dyn in Hd. rewrite forallb_forall in Hp, Hd, Ht. specialize (Hp p Hin). specialize (Hd p Hin).
  assert (Cl : forall i, i < N.of_nat (List.length (f_univ f)) -> named_or_ptr (tyN f i) = true ->
            top_clean (f_decls f) flags_current (tyN f i)).
  { intros i Hi Hn. right. split; [exact Hn|]. apply Ht, nth_In. lia. }
  destruct p as [i j|i j|i|a b]; cbn [probe_clean]; try exact I; cbn [probe_ok] in Hp.
  - apply andb_true_iff in Hp as [Hi _]. apply N.ltb_lt in Hi. now apply Cl.
  - apply N.ltb_lt in Hp. now apply Cl.
Qed.

Lemma mset_fams_dyn : forall f, In f mset_fams -> fam_dyn f = true.
Proof. apply mset_fams_all. reflexivity. Qed.

Lemma mset_fams_count :
  (fun l => (N.of_nat (List.length l), N.of_nat (List.length (filter fam_clean l)))) mset_fams = (19683, 8725).
Proof. vm_compute. reflexivity. Qed.

