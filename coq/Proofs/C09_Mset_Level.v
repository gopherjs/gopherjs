(* C09 - the two level-by-level searches for promoted methods, without the type store.
   (1) [merge_level] and [merge_impl] (with the ambiguity rule) are one polymorphic fold [merge]; what it enters for
       a name is [res cands nm]: absent / the one candidate / ambiguous.  [res] turns [++] into a commutative
       operation [comb], so the order of the candidates of a level does not matter, only how often a name occurs.
   (2) The candidates of a level and the names resolved so far, related between the two sides ([Rcs], [Rbs]): closed
       under [++], reordering, doubling against repeated copies, and [merge]; what two related bases leave ([Rbs_sets]).
   (3) A level of Go's search is a list [xs] of (declaration, reached through a pointer) with repetitions; the run-time
       visits a repeated declaration once and lets the flag [e_mult] stand for "twice or more" ([ys], relation [J]).
       Grouping [xs] by the declarations the run-time visits ([group_perm]) reduces one level to one visited entry
       against the group of its copies ([level_transfer], [group]). *)
From Coq Require Import List Arith NArith Bool String Lia Permutation.
From Verif Require Import Base.Lists Model.C09_Types.
Import ListNotations.

Lemma nm_eqb_eq : forall a b, nm_eqb a b = true <-> a = b.
Proof.
  intros [a1 a2] [b1 b2]. unfold nm_eqb. cbn. rewrite andb_true_iff, !String.eqb_eq.
  split; [intros [-> ->]; reflexivity|intro E; injection E; auto].
Qed.

Lemma existsb_map : forall {A B} (f : B -> bool) (g : A -> B) l, existsb f (map g l) = existsb (fun a => f (g a)) l.
Proof. intros. induction l as [|a l IH]; cbn; [reflexivity|]. now rewrite IH. Qed.
Lemma filter_map_comm : forall {A B} (f : B -> bool) (g : A -> B) l, filter f (map g l) = map g (filter (fun a => f (g a)) l).
Proof. intros. induction l as [|a l IH]; cbn; [reflexivity|]. destruct (f (g a)); cbn; now rewrite IH. Qed.
Lemma flat_map_map : forall {A B C} (f : B -> list C) (g : A -> B) l, flat_map f (map g l) = flat_map (fun a => f (g a)) l.
Proof. intros. induction l as [|a l IH]; cbn; [reflexivity|]. now rewrite IH. Qed.
Lemma map_flat_map : forall {A B C} (g : B -> C) (f : A -> list B) l, map g (flat_map f l) = flat_map (fun a => map g (f a)) l.
Proof. intros. induction l as [|a l IH]; cbn; [reflexivity|]. now rewrite map_app, IH. Qed.

Lemma NoDup_map_on : forall {A B} (f : A -> B) l, (forall a b, In a l -> In b l -> f a = f b -> a = b) -> NoDup l -> NoDup (map f l).
Proof.
  intros A B f l. induction l as [|x l IH]; intros Hf ND; [constructor|]. inversion ND as [|? ? Hn ND']; subst. cbn. constructor.
  - intro Hin. apply in_map_iff in Hin as [y [E Hy]]. apply Hf in E; [now subst y|now right|now left].
  - apply IH; auto. intros a b Ha Hb. apply Hf; now right.
Qed.

Lemma filter_perm : forall {A} (p : A -> bool) l l', Permutation l l' -> Permutation (filter p l) (filter p l').
Proof.
  intros A p l l' P. induction P; cbn; auto.
  - destruct (p x); auto.
  - destruct (p x), (p y); auto using perm_swap.
  - eauto using perm_trans.
Qed.

Lemma flat_map_flat_map : forall {A B C} (f : B -> list C) (g : A -> list B) l,
  flat_map f (flat_map g l) = flat_map (fun a => flat_map f (g a)) l.
Proof. intros. induction l as [|a l IH]; cbn; [reflexivity|]. now rewrite flat_map_app, IH. Qed.

Lemma filter_one : forall {A} (p : A -> bool) l a a', List.length (filter p l) = 1%nat ->
  In a l -> In a' l -> p a = true -> p a' = true -> a = a'.
Proof.
  intros A p l a a' H Ha Ha' Pa Pa'. assert (I := proj2 (filter_In p a l) (conj Ha Pa)).
  assert (I' := proj2 (filter_In p a' l) (conj Ha' Pa')). destruct (filter p l) as [|x [|y r]]; try discriminate H.
  destruct I as [<-|[]], I' as [<-|[]]. reflexivity.
Qed.

Section Merge.
  Context {V : Type}.
  Notation entry := ((string * string) * option V)%type.

  Definition named_as (nm : string * string) (x : entry) : bool := nm_eqb (fst x) nm.
  Definition amb_or (cands : list entry) (c : entry) : option V :=
    if (1 <? N.of_nat (List.length (filter (fun x => nm_eqb (fst x) (fst c)) cands)))%N then None else snd c.
  Definition merge (base cands : list entry) : list entry :=
    fold_left (fun b c => if existsb (fun x => nm_eqb (fst x) (fst c)) b then b else b ++ [(fst c, amb_or cands c)]) cands base.

  (* what a base says about a name, and what the candidates of a level say about it *)
  Definition look (nm : string * string) (b : list entry) : option (option V) := option_map snd (find (named_as nm) b).
  Definition res (cands : list entry) (nm : string * string) : option (option V) :=
    match filter (named_as nm) cands with [] => None | [c] => Some (snd c) | _ => Some None end.

  Lemma look_snoc : forall nm b n v, look nm (b ++ [(n, v)]) =
    match look nm b with Some x => Some x | None => if nm_eqb n nm then Some v else None end.
  Proof.
    intros nm b n v. unfold look. induction b as [|x b IH]; cbn.
    - unfold named_as. cbn. now destruct (nm_eqb n nm).
    - destruct (named_as nm x); [reflexivity|exact IH].
  Qed.

  Lemma existsb_look : forall n b, existsb (fun x : entry => nm_eqb (fst x) n) b = match look n b with Some _ => true | None => false end.
  Proof.
    intros n b. unfold look. induction b as [|x b IH]; cbn; [reflexivity|]. unfold named_as at 1.
    destruct (nm_eqb (fst x) n); [reflexivity|exact IH].
  Qed.

  Lemma merge_look_gen : forall all l base nm,
    look nm (fold_left (fun b c => if existsb (fun x => nm_eqb (fst x) (fst c)) b then b else b ++ [(fst c, amb_or all c)]) l base) =
    match look nm base with
    | Some x => Some x
    | None => match filter (named_as nm) l with [] => None | c :: _ => Some (amb_or all c) end
    end.
  Proof.
    intros all. induction l as [|c l IH]; intros base nm; cbn [fold_left filter]; [now destruct (look nm base)|].
    rewrite IH. change (named_as nm c) with (nm_eqb (fst c) nm). destruct (existsb _ base) eqn:Ex.
    - destruct (look nm base) eqn:El; [reflexivity|]. destruct (nm_eqb (fst c) nm) eqn:En; [|reflexivity].
      apply nm_eqb_eq in En. rewrite existsb_look, En, El in Ex. discriminate Ex.
    - rewrite look_snoc. destruct (look nm base); [reflexivity|]. destruct (nm_eqb (fst c) nm); reflexivity.
  Qed.

  Lemma merge_look : forall base cands nm,
    look nm (merge base cands) = match look nm base with Some x => Some x | None => res cands nm end.
  Proof.
    intros base cands nm. unfold merge. rewrite merge_look_gen. destruct (look nm base); [reflexivity|]. unfold res.
    destruct (filter (named_as nm) cands) as [|c r] eqn:Ef; [reflexivity|].
    assert (Ec : fst c = nm).
    { apply nm_eqb_eq. change (named_as nm c = true). apply (proj1 (filter_In _ c cands)). rewrite Ef. now left. }
    unfold amb_or. rewrite Ec. change (fun x : entry => nm_eqb (fst x) nm) with (named_as nm). rewrite Ef.
    destruct r as [|c' r]; [reflexivity|].
    replace (1 <? N.of_nat (List.length (c :: c' :: r)))%N with true by (symmetry; apply N.ltb_lt; cbn [List.length]; lia). reflexivity.
  Qed.

  Lemma merge_nodup : forall base cands, NoDup (map fst base) -> NoDup (map fst (merge base cands)).
  Proof.
    intros base cands. unfold merge. generalize cands at 1. intros all. revert base.
    induction cands as [|c l IH]; intros base ND; cbn [fold_left]; [exact ND|]. apply IH.
    destruct (existsb _ base) eqn:Ex; [exact ND|]. rewrite map_app. cbn [map fst].
    apply (NoDup_Add (Add_app (fst c) (map fst base) [])). rewrite app_nil_r. split; [exact ND|].
    intro Hin. apply in_map_iff in Hin as [x [E Hx]].
    assert (existsb (fun x : entry => nm_eqb (fst x) (fst c)) base = true); [|congruence].
    apply existsb_exists. exists x. split; [exact Hx|now apply nm_eqb_eq].
  Qed.

  Lemma merge_in : forall base cands n v, In (n, Some v) (merge base cands) -> In (n, Some v) base \/ In (n, Some v) cands.
  Proof.
    intros base cands n v. unfold merge. generalize cands at 1. intro all. revert base.
    induction cands as [|c l IH]; intros base H; cbn [fold_left] in H; [now left|]. destruct (existsb _ base).
    - destruct (IH base H); [now left|right; now right].
    - destruct (IH _ H) as [Hin|Hin]; [|right; now right]. apply in_app_or in Hin as [Hin|[E|[]]]; [now left|].
      unfold amb_or in E. destruct (1 <? _)%N; [discriminate E|]. right. left. destruct c. cbn in E. now injection E as -> ->.
  Qed.

  Lemma look_in : forall nm b v, look nm b = Some v -> In (nm, v) b.
  Proof.
    intros nm b v. unfold look. induction b as [|x b IH]; cbn; [discriminate|]. destruct (named_as nm x) eqn:E.
    - cbn. intro H. injection H as <-. left. apply nm_eqb_eq in E. destruct x. cbn in *. now subst.
    - auto.
  Qed.

  Lemma in_look : forall nm b v, NoDup (map fst b) -> In (nm, v) b -> look nm b = Some v.
  Proof.
    intros nm b v. unfold look. induction b as [|x b IH]; intros ND Hin; [destruct Hin|]. cbn in ND. inversion ND as [|? ? Hn ND']; subst.
    cbn [find]. destruct Hin as [->|Hin].
    - unfold named_as. cbn. now rewrite (proj2 (nm_eqb_eq nm nm) eq_refl).
    - destruct (named_as nm x) eqn:E; [|auto]. apply nm_eqb_eq in E. exfalso. apply Hn. rewrite E. now apply (in_map fst b (nm, v)).
  Qed.

  Definition comb (a b : option (option V)) : option (option V) :=
    match a, b with None, y => y | x, None => x | Some _, Some _ => Some None end.

  Lemma res_app : forall a b nm, res (a ++ b) nm = comb (res a nm) (res b nm).
  Proof.
    intros a b nm. unfold res. rewrite filter_app.
    destruct (filter _ a) as [|x [|y l]], (filter _ b) as [|x' [|y' l']]; reflexivity.
  Qed.

  Lemma res_perm : forall a b nm, Permutation a b -> res a nm = res b nm.
  Proof.
    intros a b nm P. unfold res. apply (filter_perm (named_as nm)) in P. destruct (filter _ a) as [|x [|y l]].
    - now rewrite (Permutation_nil P).
    - now rewrite (Permutation_length_1_inv P).
    - apply Permutation_length in P. destruct (filter _ b) as [|x' [|y' l']]; try discriminate P. reflexivity.
  Qed.

  (* whether a level says anything about a name depends on the names offered only *)
  Lemma res_none_iff : forall l nm, res l nm = None <-> filter (fun n => nm_eqb n nm) (map fst l) = [].
  Proof.
    intros l nm. rewrite filter_map_comm. unfold res. change (fun a : entry => nm_eqb (fst a) nm) with (named_as nm).
    destruct (filter (named_as nm) l) as [|x [|y r]]; cbn; split; congruence.
  Qed.

  Lemma res_absent : forall l nm, (forall x, In x l -> fst x <> nm) -> res l nm = None.
  Proof.
    intros l nm H. unfold res. replace (filter (named_as nm) l) with (@nil entry); [reflexivity|]. symmetry.
    induction l as [|x l IH]; [reflexivity|]. cbn. unfold named_as at 1. destruct (nm_eqb (fst x) nm) eqn:E.
    - apply nm_eqb_eq in E. destruct (H x (or_introl eq_refl) E).
    - apply IH. intros. apply H. now right.
  Qed.

  Lemma res_flat_none : forall {A} (f : A -> list entry) l nm, (forall g, In g l -> res (f g) nm = None) -> res (flat_map f l) nm = None.
  Proof.
    intros A f l nm H. induction l as [|g l IH]; [reflexivity|]. cbn [flat_map]. rewrite res_app, (H g (or_introl eq_refl)).
    apply IH. intros. apply H. now right.
  Qed.

  Definition picks (base : list entry) : list ((string * string) * V) :=
    flat_map (fun x => match snd x with Some m => [(fst x, m)] | None => [] end) base.

  Definition vals (base : list entry) : list V := flat_map (fun c => match snd c with Some m => [m] | None => [] end) base.
  Lemma vals_picks : forall base, vals base = map snd (picks base).
  Proof. intro base. unfold vals, picks. rewrite map_flat_map. apply flat_map_ext_in. intros [n [m|]] _; reflexivity. Qed.

  Lemma picks_in : forall base nm v, NoDup (map fst base) -> (In (nm, v) (picks base) <-> look nm base = Some (Some v)).
  Proof.
    intros base nm v ND. unfold picks. rewrite in_flat_map. split.
    - intros [[n o] [Hin Hx]]. cbn [fst snd] in Hx. destruct o as [m|]; [|destruct Hx]. destruct Hx as [E|[]]. injection E as -> ->.
      now apply in_look.
    - intro H. apply look_in in H. exists (nm, Some v). split; [exact H|now left].
  Qed.

  Lemma picks_nodup : forall base, NoDup (map fst base) -> NoDup (map fst (picks base)).
  Proof.
    induction base as [|[n o] b IH]; intro ND; [constructor|]. cbn in ND. inversion ND as [|? ? Hn ND']; subst.
    unfold picks. cbn [flat_map snd fst]. fold (picks b). destruct o as [v0|]; [|auto]. cbn. constructor; [|auto].
    intro Hin. apply Hn. apply in_map_iff in Hin as [[n' v1] [<- Hin]]. apply in_flat_map in Hin as [[n2 o2] [Hin Hx]].
    cbn [fst snd] in Hx. destruct o2 as [v2|]; [|destruct Hx]. destruct Hx as [E|[]]. injection E as -> ->. now apply (in_map fst b (n', Some v1)).
  Qed.
End Merge.

(* [pr] is what the run-time keeps of a name (all of it, or the bare name without the package); [relv] the names the
   comparison is about (all names, or the method names, which [pr] then has to tell apart); [kI] the name a value of
   the run-time carries. *)
Section Rel.
  Context {VS VI : Type} (rv : string * string -> VS -> VI -> Prop).
  Variables (relv : string * string -> Prop) (pr : string * string -> string * string) (kI : VI -> string * string).
  Hypothesis PrInj : forall a b, relv a -> relv b -> pr a = pr b -> a = b.
  Hypothesis rv_key : forall nm x y, rv nm x y -> kI y = nm.
  Notation entS := ((string * string) * option VS)%type.
  Notation entI := ((string * string) * option VI)%type.

  Definition Rv (nm : string * string) (a : option (option VS)) (b : option (option VI)) : Prop :=
    match a, b with
    | None, None | Some None, Some None => True
    | Some (Some x), Some (Some y) => rv nm x y
    | _, _ => False
    end.
  (* no junk: a value on Go's side has a relevant name, a value on the run-time's side is filed under its own name *)
  Definition sound (a : list entS) (b : list entI) : Prop :=
    (forall nm v, In (nm, Some v) a -> relv nm) /\ (forall k m, In (k, Some m) b -> relv (kI m) /\ k = pr (kI m)).
  (* the candidates of a level say the same about every relevant name; the names resolved so far are the same, each once *)
  Definition Rcs (a : list entS) (b : list entI) : Prop := (forall nm, relv nm -> Rv nm (res a nm) (res b (pr nm))) /\ sound a b.
  Definition Rbs (a : list entS) (b : list entI) : Prop :=
    (forall nm, relv nm -> Rv nm (look nm a) (look (pr nm) b)) /\ sound a b /\ NoDup (map fst a) /\ NoDup (map fst b).

  Lemma Rv_comb : forall nm a a' b b', Rv nm a a' -> Rv nm b b' -> Rv nm (comb a b) (comb a' b').
  Proof. intros nm [[x|]|] [[x'|]|] [[y|]|] [[y'|]|]; cbn; tauto. Qed.
  Lemma Rv_none : forall nm a b, Rv nm a b -> (a = None <-> b = None).
  Proof. intros nm [[x|]|] [[y|]|]; cbn; intro H; try contradiction; split; congruence. Qed.

  Lemma Rcs_nil : Rcs [] [].
  Proof. split; [intros nm _; exact I|]. split; intros ? ? []. Qed.
  Lemma Rcs_app : forall a a' b b', Rcs a a' -> Rcs b b' -> Rcs (a ++ b) (a' ++ b').
  Proof.
    intros a a' b b' [H [S1 S2]] [H' [S1' S2']]. split; [intros nm Hn; rewrite !res_app; apply Rv_comb; auto|].
    split; intros x y Hin; apply in_app_or in Hin as [Hin|Hin]; eauto.
  Qed.
  Lemma Rcs_perm : forall a a' b, Permutation a a' -> Rcs a b -> Rcs a' b.
  Proof.
    intros a a' b P [H [S1 S2]]. split; [intros nm Hn; rewrite <- (res_perm a a' nm P); now apply H|]. split; [|exact S2].
    intros nm v Hin. apply (S1 nm v). now apply (Permutation_in _ (Permutation_sym P)).
  Qed.

  (* candidate by candidate *)
  Definition crel (a : entS) (b : entI) : Prop :=
    relv (fst a) /\ fst b = pr (fst a) /\
    match snd a, snd b with None, None => True | Some x, Some y => rv (fst a) x y | _, _ => False end.
  Lemma Rcs_pos : forall a b, Forall2 crel a b -> Rcs a b.
  Proof.
    intros a b F. induction F as [|x y a b (Hx & E & H) _ IH]; [apply Rcs_nil|]. apply (Rcs_app [x] [y] a b); [|exact IH].
    split; [|split].
    - intros nm Hn. unfold res. cbn [filter]. unfold named_as. rewrite E.
      assert (Eq : nm_eqb (pr (fst x)) (pr nm) = nm_eqb (fst x) nm).
      { apply eq_true_iff_eq. rewrite !nm_eqb_eq. split; [now apply PrInj|now intros ->]. }
      rewrite Eq. destruct (nm_eqb (fst x) nm) eqn:En; [|exact I].
      apply nm_eqb_eq in En. subst nm. cbn. destruct (snd x), (snd y); auto.
    - intros nm v [E'|[]]. now rewrite E' in Hx.
    - intros k m [E'|[]]. rewrite E' in E, H. cbn [fst snd] in E, H. destruct (snd x) as [v|]; [|destruct H].
      rewrite (rv_key _ _ _ H). auto.
  Qed.

  (* two or more copies on Go's side, each offering the names of [g0], against the doubled candidates of the run-time:
     every name they offer is ambiguous *)
  Lemma Rcs_many : forall {A} (f : A -> list entS) G g0 b, (2 <= List.length G)%nat -> Rcs (f g0) b ->
    (forall g, In g G -> map fst (f g) = map fst (f g0)) -> (forall nm v, In (nm, Some v) (flat_map f G) -> relv nm) ->
    Rcs (flat_map f G) (b ++ b).
  Proof.
    intros A f G g0 b Hl [R [_ S2]] Hf S1. split; [|split; [exact S1|intros k m Hin; apply in_app_or in Hin as [Hin|Hin]; eauto]].
    intros nm Hn.
    assert (H : forall g, In g G -> (res (f g) nm = None <-> res b (pr nm) = None)).
    { intros g Hg. rewrite <- (Rv_none nm _ _ (R nm Hn)), !res_none_iff. now rewrite (Hf g Hg). }
    destruct G as [|g1 [|g2 G]]; try (cbn in Hl; lia). cbn [flat_map]. rewrite !res_app.
    pose proof (H g1 (or_introl eq_refl)) as H1. pose proof (H g2 (or_intror (or_introl eq_refl))) as H2.
    destruct (res b (pr nm)) as [vb|] eqn:Eb.
    - destruct (res (f g1) nm); [|discriminate (proj1 H1 eq_refl)].
      destruct (res (f g2) nm); [|discriminate (proj1 H2 eq_refl)].
      cbn. now destruct (res (flat_map f G) nm).
    - rewrite (proj2 H1 eq_refl), (proj2 H2 eq_refl), res_flat_none; [exact I|].
      intros g Hg. apply (H g); [now do 2 right|reflexivity].
  Qed.

  Lemma Rbs_nil : Rbs [] [].
  Proof. split; [intros nm _; exact I|]. split; [split; intros ? ? []|split; constructor]. Qed.
  Lemma Rbs_merge : forall a b ca cb, Rbs a b -> Rcs ca cb -> Rbs (merge a ca) (merge b cb).
  Proof.
    intros a b ca cb (H & [S1 S2] & Na & Nb) [Hc [S1' S2']].
    split; [|split; [split; intros x y Hin; apply merge_in in Hin as [Hin|Hin]; eauto|split; now apply merge_nodup]].
    intros nm Hn. rewrite !merge_look. specialize (H nm Hn). specialize (Hc nm Hn).
    destruct (look nm a) as [[x|]|], (look (pr nm) b) as [[y|]|]; cbn in H; try contradiction; auto.
  Qed.

  (* two sets of values: every value of the run-time's set is Go's value of that name, every value of Go's set is in the
     run-time's, and they are equally many - which is what two related bases leave *)
  Definition same_sets (ms : list ((string * string) * VS)) (mi : list VI) : Prop :=
    (forall m, In m mi -> exists v, In (kI m, v) ms /\ rv (kI m) v m) /\
    (forall nm v, In (nm, v) ms -> exists m, In m mi /\ rv nm v m) /\
    List.length mi = List.length ms.

  Lemma Rbs_sets : forall a b, Rbs a b -> same_sets (picks a) (vals b).
  Proof.
    intros a b (R & [S1 S2] & Na & Nb). rewrite vals_picks.
    assert (IS : forall k m, In (k, m) (picks b) -> relv (kI m) /\ k = pr (kI m) /\ exists v, In (kI m, v) (picks a) /\ rv (kI m) v m).
    { intros k m H. apply picks_in in H; auto. destruct (S2 k m (look_in _ _ _ H)) as [Hn ->]. specialize (R _ Hn). rewrite H in R.
      destruct (look (kI m) a) as [[v|]|] eqn:E; try contradiction. repeat split; auto. exists v. split; [now apply picks_in|exact R]. }
    assert (SI : forall nm v, In (nm, v) (picks a) -> relv nm /\ exists m, In (pr nm, m) (picks b) /\ rv nm v m).
    { intros nm v H. apply picks_in in H; auto. pose proof (S1 nm v (look_in _ _ _ H)) as Hn. specialize (R _ Hn). rewrite H in R.
      destruct (look (pr nm) b) as [[m|]|] eqn:E; try contradiction. split; [exact Hn|]. exists m. split; [now apply picks_in|exact R]. }
    split; [|split].
    - intros m Hm. apply in_map_iff in Hm as [[k m'] [<- Hm]]. apply (IS k m' Hm).
    - intros nm v Hv. destruct (SI nm v Hv) as [_ [m [Hm Rm]]]. exists m. split; [exact (in_map snd _ _ Hm)|exact Rm].
    - rewrite map_length, <- (map_length fst (picks b)), <- (map_length fst (picks a)), <- (map_length pr (map fst (picks a))).
      apply Nat.le_antisymm; apply NoDup_incl_length; auto using picks_nodup.
      + intros k H. apply in_map_iff in H as [[k' m] [<- H]]. destruct (IS k' m H) as (_ & -> & v & Hv & _).
        apply (in_map pr). exact (in_map fst _ (_, v) Hv).
      + apply NoDup_map_on; auto using picks_nodup. intros n n' Hn Hn'. apply in_map_iff in Hn as [[n1 v1] [<- Hn]].
        apply in_map_iff in Hn' as [[n2 v2] [<- Hn']]. apply PrInj; [exact (proj1 (SI _ _ Hn))|exact (proj1 (SI _ _ Hn'))].
      + intros k H. apply in_map_iff in H as [n [<- H]]. apply in_map_iff in H as [[n1 v] [<- H]]. cbn [fst].
        destruct (SI n1 v H) as [_ [m [Hm _]]]. exact (in_map fst _ (_, m) Hm).
  Qed.
End Rel.

Notation sx := (N * bool)%type.             (* Go's side: declaration, reached through a pointer *)
Notation iy := (N * bool * bool)%type.      (* run-time side: the same and [e_mult] *)
Definition keyI (y : iy) : N := fst (fst y).

(* how often Go's level holds declaration d; how often the run-time's level stands for it: an entry flagged [e_mult]
   counts for two *)
Definition cnt (d : N) (xs : list sx) : nat := List.length (filter (fun x => fst x =? d)%N xs).
Definition wgt (d : N) (ys : list iy) : nat :=
  fold_right (fun y n => if (keyI y =? d)%N then (if snd y then 2 else 1) + n else n)%nat 0%nat ys.
(* the model's expression for [mult] *)
Definition many (d : N) (ys : list iy) : bool :=
  existsb (fun y => (keyI y =? d)%N && snd y) ys || (1 <? N.of_nat (List.length (filter (fun y => keyI y =? d)%N ys)))%N.

Lemma wgt_cons : forall d y r, wgt d (y :: r) = if (keyI y =? d)%N then ((if snd y then 2 else 1) + wgt d r)%nat else wgt d r.
Proof. reflexivity. Qed.

Lemma many_wgt : forall d ys, many d ys = (2 <=? wgt d ys)%nat.
Proof.
  intros d ys. unfold many.
  assert (H : forall ys, (existsb (fun y => (keyI y =? d)%N && snd y) ys = true -> 2 <= wgt d ys)%nat /\
                         (List.length (filter (fun y => keyI y =? d)%N ys) <= wgt d ys)%nat /\
                         (existsb (fun y => (keyI y =? d)%N && snd y) ys = false -> wgt d ys = List.length (filter (fun y => keyI y =? d)%N ys))).
  { induction ys0 as [|y r [IH1 [IH2 IH3]]]; [repeat split; auto; discriminate|]. rewrite wgt_cons. cbn [existsb filter].
    destruct (keyI y =? d)%N; cbn [andb orb]; [|auto]. destruct (snd y); cbn [orb List.length].
    - split; [intros _; lia|]. split; [lia|discriminate].
    - split; [intro E; specialize (IH1 E); lia|]. split; [lia|]. intro E. rewrite (IH3 E). lia. }
  destruct (H ys) as [H1 [H2 H3]]. destruct (existsb _ ys) eqn:E; cbn [orb].
  - symmetry. apply Nat.leb_le. auto.
  - rewrite H3 by reflexivity. destruct (Nat.leb_spec 2 (List.length (filter (fun y => keyI y =? d)%N ys))).
    + apply N.ltb_lt. lia.
    + apply N.ltb_ge. lia.
Qed.

(* [ys] is the run-time's form of Go's level [xs]: the same declarations, those that occur twice or more in [xs] are the
   ones of weight two or more, and on one that occurs once both sides agree how it was reached *)
Definition J (xs : list sx) (ys : list iy) : Prop :=
  forall d, (cnt d xs = 0%nat <-> wgt d ys = 0%nat) /\ (2 <= cnt d xs <-> 2 <= wgt d ys)%nat /\
            (cnt d xs = 1%nat -> forall b b' m, In (d, b) xs -> In (d, b', m) ys -> b = b').

Lemma cnt_app : forall d a b, cnt d (a ++ b) = (cnt d a + cnt d b)%nat.
Proof. intros. unfold cnt. now rewrite filter_app, app_length. Qed.
Lemma wgt_app : forall d a b, wgt d (a ++ b) = (wgt d a + wgt d b)%nat.
Proof. intros. induction a as [|y a IH]; [reflexivity|]. cbn [app]. rewrite !wgt_cons, IH. destruct (keyI y =? d)%N; lia. Qed.
Lemma cnt_in : forall d b xs, In (d, b) xs -> (1 <= cnt d xs)%nat.
Proof.
  intros d b xs H. unfold cnt. assert (I : In (d, b) (filter (fun x => fst x =? d)%N xs)) by (apply filter_In; cbn; now rewrite N.eqb_refl).
  destruct (filter _ xs); [destruct I|cbn; lia].
Qed.
Lemma wgt_in : forall d b m ys, In (d, b, m) ys -> (1 <= wgt d ys)%nat.
Proof.
  intros d b m ys. induction ys as [|y ys IH]; [intros []|]. intros [->|H]; rewrite wgt_cons.
  - unfold keyI. cbn. rewrite N.eqb_refl. destruct m; lia.
  - specialize (IH H). destruct (keyI y =? d)%N; lia.
Qed.

Lemma J_nil : J [] [].
Proof. intro d. cbn. repeat split; auto; lia. Qed.

Lemma J_app : forall a a' b b', J a a' -> J b b' -> J (a ++ b) (a' ++ b').
Proof.
  intros a a' b b' H H' d. destruct (H d) as (A1 & A2 & A3), (H' d) as (B1 & B2 & B3). rewrite cnt_app, wgt_app.
  split; [lia|]. split; [lia|]. intros E c c' m Hin Hin'. apply in_app_or in Hin, Hin'.
  destruct Hin as [Hin|Hin], Hin' as [Hin'|Hin'];
    pose proof (cnt_in _ _ _ Hin); pose proof (wgt_in _ _ _ _ Hin'); try lia; [apply (A3 ltac:(lia) c c' m)|apply (B3 ltac:(lia) c c' m)]; auto.
Qed.

Lemma J_perm : forall a a' b, Permutation a a' -> J a b -> J a' b.
Proof.
  intros a a' b P H d. assert (E : cnt d a' = cnt d a) by (unfold cnt; symmetry; apply Permutation_length, filter_perm, P).
  rewrite E. destruct (H d) as (A1 & A2 & A3). split; [exact A1|]. split; [exact A2|].
  intros E1 c c' m Hin. apply A3; auto. now apply (Permutation_in _ (Permutation_sym P)).
Qed.

(* the entries the run-time expands: the first occurrence of every declaration not seen before *)
Fixpoint visit (sn : N -> bool) (ys : list iy) : list iy :=
  match ys with
  | [] => []
  | y :: r => if sn (keyI y) then visit sn r else y :: visit (fun d => (d =? keyI y)%N || sn d) r
  end.

Lemma visit_in : forall ys sn y, In y (visit sn ys) -> In y ys /\ sn (keyI y) = false.
Proof.
  induction ys as [|y0 r IH]; intros sn y H; cbn in H; [destruct H|]. destruct (sn (keyI y0)) eqn:E.
  - destruct (IH _ _ H). split; [now right|assumption].
  - destruct H as [<-|H]; [split; [now left|exact E]|]. destruct (IH _ _ H) as [H1 H2]. apply orb_false_iff in H2. split; [now right|tauto].
Qed.

(* Go's filtered level, regrouped after the entries the run-time visits *)
Lemma group_perm : forall ys sn xs, (forall d, sn d = false -> (cnt d xs = 0%nat <-> wgt d ys = 0%nat)) ->
  Permutation (filter (fun x => negb (sn (fst x))) xs)
              (flat_map (fun y => filter (fun x => fst x =? keyI y)%N xs) (visit sn ys)).
Proof.
  induction ys as [|y r IH]; intros sn xs H; cbn [visit flat_map].
  - replace (filter _ xs) with (@nil sx); [constructor|]. symmetry.
    induction xs as [|x xs IHx]; [reflexivity|]. cbn. destruct (sn (fst x)) eqn:E; cbn.
    + apply IHx. intros d Hd. specialize (H d Hd). unfold cnt in *. cbn in *. destruct (fst x =? d)%N; cbn in *; [|exact H]. lia.
    + exfalso. specialize (H (fst x) E). unfold cnt in H. cbn in H. rewrite N.eqb_refl in H. cbn in H. lia.
  - destruct (sn (keyI y)) eqn:E.
    + apply IH. intros d Hd. rewrite (H d Hd). cbn. destruct (keyI y =? d)%N eqn:Ek; [|reflexivity].
      apply N.eqb_eq in Ek. congruence.
    + cbn [flat_map].
      assert (P : Permutation (filter (fun x => negb (sn (fst x))) xs)
                    (filter (fun x => fst x =? keyI y)%N xs ++ filter (fun x => negb ((fst x =? keyI y)%N || sn (fst x))) xs)).
      { clear - E. induction xs as [|x xs IHx]; [constructor|]. cbn. destruct (fst x =? keyI y)%N eqn:Ek; cbn.
        - apply N.eqb_eq in Ek. rewrite Ek, E. cbn. now constructor.
        - destruct (sn (fst x)); cbn; [exact IHx|]. now apply Permutation_cons_app. }
      eapply perm_trans; [exact P|]. apply Permutation_app_head. apply (IH (fun d => (d =? keyI y)%N || sn d)).
      intros d Hd. apply orb_false_iff in Hd as [Hd1 Hd2]. rewrite (H d Hd2). cbn. rewrite N.eqb_sym, Hd1. reflexivity.
Qed.

(* One level: a relation [Q] between what the two sides collect (next entries, candidates) that respects [++] and
   reordering on Go's side holds of the whole level if it holds of every visited entry against the group of its copies. *)
Lemma level_transfer : forall {A B} (Q : list A -> list B -> Prop) (f : sx -> list A) (g : iy -> list B),
  Q [] [] -> (forall a a' b b', Q a a' -> Q b b' -> Q (a ++ b) (a' ++ b')) ->
  (forall a a' b, Permutation a a' -> Q a b -> Q a' b) ->
  forall xs ys sn, J xs ys ->
  (forall y, In y ys -> sn (keyI y) = false -> Q (flat_map f (filter (fun x => fst x =? keyI y)%N xs)) (g y)) ->
  Q (flat_map f (filter (fun x => negb (sn (fst x))) xs)) (flat_map g (visit sn ys)).
Proof.
  intros A B Q f g Q0 Qa Qp xs ys sn HJ H.
  apply (Qp (flat_map f (flat_map (fun y => filter (fun x => fst x =? keyI y)%N xs) (visit sn ys)))).
  - apply Permutation_flat_map, Permutation_sym, group_perm. intros d _. apply (HJ d).
  - rewrite flat_map_flat_map. assert (V : forall y, In y (visit sn ys) -> In y ys /\ sn (keyI y) = false) by apply visit_in.
    induction (visit sn ys) as [|y r IH]; [exact Q0|]. cbn [flat_map]. apply Qa.
    + destruct (V y (or_introl eq_refl)). auto.
    + apply IH. intros. apply V. now right.
Qed.

(* the copies of one visited entry (d, b, _) in Go's level: two or more where the run-time's flag [mm] is set, else the entry
   itself *)
Definition group (G : list sx) (d : N) (b mm : bool) : Prop := if mm then (2 <= List.length G)%nat else G = [(d, b)].

Lemma J_group : forall xs ys d b m, J xs ys -> In (d, b, m) ys -> group (filter (fun x => fst x =? d)%N xs) d b (many d ys).
Proof.
  intros xs ys d b m HJ Hin. destruct (HJ d) as (A1 & A2 & A3). pose proof (wgt_in _ _ _ _ Hin) as Hw.
  unfold group. rewrite many_wgt. unfold cnt in *. destruct (Nat.leb_spec 2 (wgt d ys)) as [L|L]; [now apply A2|].
  destruct (filter _ xs) as [|[d0 b0] [|? ?]] eqn:EG; cbn [List.length] in *; try lia.
  assert (Hx : In (d0, b0) (filter (fun x : sx => (fst x =? d)%N) xs)) by (rewrite EG; now left).
  apply filter_In in Hx as [Hx Ed]. apply N.eqb_eq in Ed. cbn in Ed. subst d0. now rewrite (A3 eq_refl b0 b m Hx Hin).
Qed.

(* both sides expand the same declarations *)
Lemma level_keys : forall xs ys sn, J xs ys ->
  forall d, In d (map fst (filter (fun x : sx => negb (sn (fst x))) xs)) <-> In d (map keyI (visit sn ys)).
Proof.
  intros xs ys sn HJ d. assert (P := group_perm ys sn xs (fun d _ => proj1 (HJ d))). split; intro H; apply in_map_iff in H.
  - destruct H as [x [<- Hx]]. apply (Permutation_in _ P), in_flat_map in Hx as [y [Hy Hx]]. apply filter_In in Hx as [_ Hx].
    apply N.eqb_eq in Hx. rewrite Hx. now apply in_map.
  - destruct H as [[[d0 b] m] [E Hy]]. unfold keyI in E. cbn in E. subst d0. destruct (visit_in _ _ _ Hy) as [Hin _].
    pose proof (J_group xs ys d b m HJ Hin) as Gp. unfold group in Gp.
    destruct (filter (fun x : sx => (fst x =? d)%N) xs) as [|x r] eqn:EG; [destruct (many d ys); [cbn in Gp; lia|discriminate Gp]|].
    assert (Hx : In x (filter (fun x : sx => (fst x =? d)%N) xs)) by (rewrite EG; now left).
    rewrite <- (proj1 (N.eqb_eq _ _) (proj2 (proj1 (filter_In _ _ _) Hx))). apply in_map. apply (Permutation_in _ (Permutation_sym P)). apply in_flat_map.
    exists (d, b, m). split; [exact Hy|exact Hx].
Qed.

(* the next level below one visited entry: [ks] are the embedded fields of its declaration *)
Lemma J_kids : forall (ks : list (N * bool)) (f : sx -> list sx) G d b mm,
  (forall x, In x G -> f x = map (fun k => (fst k, snd k || snd x)) ks) -> group G d b mm ->
  J (flat_map f G) (map (fun k => (fst k, snd k || b, mm)) ks).
Proof.
  intros ks f G d b mm Hf Hg d'. set (kc := List.length (filter (fun k : N * bool => fst k =? d')%N ks)).
  assert (Ec : cnt d' (flat_map f G) = (List.length G * kc)%nat).
  { clear Hg. induction G as [|x G IH]; [reflexivity|]. cbn [flat_map List.length]. rewrite cnt_app, IH by (intros; apply Hf; now right).
    rewrite (Hf x (or_introl eq_refl)). unfold cnt. rewrite filter_map_comm, map_length. cbn [fst]. fold kc. lia. }
  assert (Ew : wgt d' (map (fun k => (fst k, snd k || b, mm)) ks) = ((if mm then 2 else 1) * kc)%nat).
  { subst kc. clear. induction ks as [|k ks IH]; [cbn; lia|]. cbn [map filter]. rewrite wgt_cons, IH. unfold keyI. cbn [fst snd].
    destruct (fst k =? d')%N; cbn [List.length]; destruct mm; lia. }
  rewrite Ec, Ew. unfold group in Hg. destruct mm; [split; [nia|split; [nia|intro E; apply Nat.eq_mul_1 in E; lia]]|].
  (* a single copy: both sides list the same children *)
  subst G. cbn [List.length]. split; [lia|]. split; [lia|]. intros E c c' m Hin Hin'.
  cbn [flat_map] in Hin. rewrite app_nil_r, (Hf _ (or_introl eq_refl)) in Hin. cbn [snd] in Hin.
  apply in_map_iff in Hin as [k [Ek Hk]]. apply in_map_iff in Hin' as [k' [Ek' Hk']]. injection Ek as Ek1 Ek2. injection Ek' as Ek1' Ek2' _.
  assert (k = k') by (apply (filter_one (fun k : N * bool => fst k =? d')%N ks); auto; [fold kc; lia|apply N.eqb_eq; auto..]). subst k'. congruence.
Qed.
