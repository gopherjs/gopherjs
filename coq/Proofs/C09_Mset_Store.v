(* C09 - what the type store holds after [load_env] and any number of canonicalisations, for EVERY environment of
   legal declarations: each cached object is filed under the key of its own label and component ids ([filed], kept by
   the canonicalising constructors: C09_P4_Canon.v), and the object of declaration d carries a label and component ids
   that REPRESENT [d_under d], its value-receiver methods in [r_methods] and its pointer-receiver methods in the method
   list of its pointer type ([decl_loaded]).  This is the part of the state that $methodSet reads ([Loaded]:
   [load_env_loaded], [canon_list_loaded]). *)
From Coq Require Import List Arith NArith Bool String Ascii Lia.
From Verif Require Import Base.Lists Gen.C09_Kinds Model.C09_Types Corr.C09_Eval Model.C09_P4_Wf.
From Verif Require Import Proofs.C09_P4_Strings Proofs.C09_P4_Keys Proofs.C09_P4_Canon Proofs.C09_P4_Ident.
Import ListNotations.
Local Open Scope N_scope.

(* Go's rules for what $methodSet walks over: an embedded field is a type name or a pointer to a type name; the
   underlying type of a declaration is not itself a name; a method's receiver base type is neither a pointer type
   nor an interface type (on either the model of the run-time answers differently from Go: a declared pointer type
   gets the pointer-receiver methods of its element, Go gives it none). *)
Definition emb_named (fc : fhdr * ty) : bool :=
  negb (fh_emb (fst fc)) ||
  match snd fc with T (LNamed _) [] => true | T LPtr [T (LNamed _) []] => true | _ => false end.
Definition struct_ok (t : ty) : bool :=
  match t with T (LStruct _ fs) cs => forallb emb_named (zip fs cs) | _ => true end.
Definition decl_ok (nd : N) (d : decl) : bool :=
  wfb nd (d_under d) && forallb (wfb nd) (map me_sig (d_meths d)) && struct_ok (d_under d) &&
  match d_under d with
  | T (LNamed _) _ | T LPtr _ => false
  | T (LIface _) _ => match d_meths d with [] => true | _ => false end
  | _ => true
  end.
Definition env_ok (env : list decl) : bool := forallb (decl_ok (N.of_nat (List.length env))) env.

Lemma nth_upd_same : forall {A} n (x d : A) l, (n < List.length l)%nat -> nth n (upd n x l) d = x.
Proof. induction n; intros x d [|y l] H; cbn in *; try lia; auto. apply IHn. lia. Qed.
Lemma nth_upd_other : forall {A} n m (x d : A) l, n <> m -> nth m (upd n x l) d = nth m l d.
Proof. induction n; intros [|m] x d [|y l] H; cbn; try congruence; auto. Qed.

Lemma get_set_same : forall i r s, i < N.of_nat (List.length (s_types s)) -> get (set_type i r s) i = r.
Proof. intros. unfold get, nthN, set_type. cbn. apply nth_upd_same. lia. Qed.
Lemma get_set_other : forall i j r s, j <> i -> get (set_type i r s) j = get s j.
Proof. intros. unfold get, nthN, set_type. cbn. apply nth_upd_other. intro E. apply N2Nat.inj in E. congruence. Qed.
Lemma Forall2_imp : forall {A B} (R R' : A -> B -> Prop), (forall a b, R a b -> R' a b) ->
  forall l l', Forall2 R l l' -> Forall2 R' l l'.
Proof. intros A B R R' H l l' F. induction F; constructor; auto. Qed.

(* what the canonicalising constructors and [init_decl] keep *)
Definition Good (s : st) : Prop := Inv s /\ filed s.

(* a well-formed composite term's representative IS the object its constructor made: label, component ids, kind *)
Lemma rep_obj : forall s, Good s -> forall i l cs, composite l = true -> wfb (nd_of s) (T l cs) = true -> rep s i (T l cs) ->
  r_lab (get s i) = l /\ Forall2 (rep s) (r_ids (get s i)) cs /\ r_named (get s i) = false /\ r_kind (get s i) = kind_lab l.
Proof.
  intros s [I F] i l cs C W R. cbn [wfb] in W. apply andb_true_iff in W as [Wl _].
  inversion R as [b Hb|d Hd|l0 cs0 ids [c k] i0 Hc HF Hk Hl]; subst; try discriminate C.
  apply lookup_in in Hl. destruct (F _ _ _ Hl) as (W' & K' & Nm & Kd).
  rewrite <- (Forall2_length _ _ _ HF) in Wl.
  destruct (key_inj (nd_of s) l ids _ _ (c, k) Wl W' Hk K') as [El Ei]. rewrite <- El, <- Ei in *. auto.
Qed.

Lemma canon_list_good : forall cs s ids s', Good s -> forallb (wfb (nd_of s)) cs = true -> canon_list flc cs s = (ids, s') ->
  Good s' /\ ext s s' /\ keeps s s' /\ Forall2 (rep s') ids cs.
Proof.
  intros cs s ids s' [I F] W E. destruct (canon_list_all cs s ids s' I E) as (I' & X & K & R). destruct (R W) as [Rp F'].
  split; [split; auto|auto].
Qed.

(* an object may be replaced if the new one is filed as the old one was: under no key (a declared type's object), or with the
   label, component ids, name flag and kind it had *)
Lemma set_type_good : forall s i r, Good s -> (forall c k, In (c, k, i) (s_tbl s) -> filed_at (nd_of s) r c k) -> Good (set_type i r s).
Proof.
  intros s i r [I F] Hr. split; [apply set_type_inv, I|]. intros c k j Hin. cbn [s_tbl set_type] in Hin.
  destruct (N.eq_dec j i) as [->|Hne]; [|rewrite get_set_other by exact Hne; exact (F _ _ _ Hin)].
  rewrite get_set_same by apply (inv_tbl s I _ _ _ Hin). exact (Hr _ _ Hin).
Qed.

Lemma set_type_ptr_methods : forall s i r j, (forall p, lookup_tbl cPtr (dec j) (s_tbl s) = Some p -> p <> i) ->
  ptr_methods (set_type i r s) j = ptr_methods s j.
Proof.
  intros s i r j H. unfold ptr_methods. cbn [s_tbl set_type].
  destruct (lookup_tbl cPtr (dec j) (s_tbl s)) as [p|]; [|reflexivity]. now rewrite get_set_other by auto.
Qed.

(* the run-time's method entry [rm] of the object [id] stands for the declared method [m] *)
Definition meth_rel (s : st) (id : N) (m : meth) (rm : rmeth) : Prop :=
  rm_name rm = me_name m /\ rm_pkg rm = me_pkg m /\ rep s (rm_typ rm) (me_sig m) /\ rm_owner rm = id.

Definition decl_loaded (s : st) (dn : N) (d : decl) : Prop :=
  let id := nthN dn (s_named s) 0 in
  match d_under d with
  | T l cs =>
      r_named (get s id) = true /\ r_lab (get s id) = l /\ Forall2 (rep s) (r_ids (get s id)) cs /\
      r_kind (get s id) = kind_lab l /\
      Forall2 (meth_rel s id) (filter (fun m => negb (me_ptr m)) (d_meths d)) (r_methods (get s id)) /\
      Forall2 (meth_rel s id) (filter me_ptr (d_meths d)) (ptr_methods s id)
  end.

Lemma decl_loaded_keep : forall s s' dn d, ext s s' ->
  get s' (nthN dn (s_named s) 0) = get s (nthN dn (s_named s) 0) ->
  ptr_methods s' (nthN dn (s_named s) 0) = ptr_methods s (nthN dn (s_named s) 0) ->
  decl_loaded s dn d -> decl_loaded s' dn d.
Proof.
  intros s s' dn d X Eg Ep. unfold decl_loaded. rewrite (proj1 X), Eg, Ep. destruct (d_under d) as [l cs].
  assert (M : forall id m rm, meth_rel s id m rm -> meth_rel s' id m rm).
  { intros id m rm (A & B & C & D). repeat split; eauto using rep_mono. }
  intros (A & B & C & D & E & F). repeat split; eauto using Forall2_rep_mono, Forall2_imp.
Qed.

(* the two halves of the declared methods as [init_decl] builds them *)
Lemma split_meths : forall s id (p : meth -> bool) meths sigs, Forall2 (rep s) sigs (map me_sig meths) ->
  Forall2 (meth_rel s id) (filter p meths)
    (flat_map (fun x : meth * rmeth => if p (fst x) then [snd x] else [])
       (zip meths (map (fun x : meth * N => Build_rmeth (me_name (fst x)) (me_pkg (fst x)) (snd x) id) (zip meths sigs)))).
Proof.
  intros s id p. induction meths as [|m meths IH]; intros sigs F; inversion F as [|sg ? sigs' ? Hm Hr]; subst; cbn; [constructor|].
  destruct (p m); cbn; [constructor; [repeat split; auto|]|]; auto.
Qed.

Lemma named_inj : forall s, Inv s -> forall d d', (N.to_nat d < List.length (s_named s))%nat ->
  (N.to_nat d' < List.length (s_named s))%nat -> nthN d (s_named s) 0 = nthN d' (s_named s) 0 -> d = d'.
Proof. intros s I d d' H H' E. unfold nthN in E. apply (proj1 (NoDup_nth _ 0) (inv_nodup s I)) in E; auto. lia. Qed.

Lemma named_not_cached : forall s, Inv s -> forall c k i, lookup_tbl c k (s_tbl s) = Some i -> ~ In i (s_named s).
Proof. intros s I c k i H. apply lookup_in in H. now apply (inv_tbl s I _ _ _ H). Qed.

(* [init_decl]'s last step: the pointer type of the declaration is made, or found, and given the pointer-receiver methods -
   if there are any.  No declared type's object is touched, and no other pointer type's methods. *)
Definition attach (id : N) (nm : str) (pms : list rmeth) (s : st) : st :=
  match pms with
  | [] => s
  | _ => let '(p, s4) := intern cPtr (dec id) (Build_rt kindPtr (L "*" ++ nm) false true LPtr [id] []) s in
         let pr := get s4 p in
         set_type p (Build_rt (r_kind pr) (r_str pr) (r_named pr) (r_comparable pr) (r_lab pr) (r_ids pr) pms) s4
  end.

Lemma attach_spec : forall id nm pms s, Good s ->
  let s' := attach id nm pms s in
  Good s' /\ ext s s' /\ (ptr_methods s id = [] -> ptr_methods s' id = pms) /\
  (forall j, In j (s_named s) -> get s' j = get s j) /\ (forall j, j <> id -> ptr_methods s' j = ptr_methods s j).
Proof.
  intros id nm pms s G. cbv zeta. unfold attach. destruct pms as [|pm0 pms'] eqn:Epm; [auto 6 using ext_refl|].
  rewrite <- Epm. clear Epm pm0 pms'. match goal with |- context [intern cPtr (dec id) ?r s] => set (Rp := r) end.
  destruct (intern cPtr (dec id) Rp s) as [p s4] eqn:E4.
  destruct (intern_inv _ _ _ _ _ _ (proj1 G) E4) as (I4 & X4 & Lk & K4 & F4). specialize (K4 eq_refl).
  assert (G4 : Good s4) by (split; [exact I4|apply F4; [repeat split|apply G]]).
  assert (Np : ~ In p (s_named s4)) by exact (named_not_cached s4 I4 _ _ _ Lk).
  assert (Plt : p < N.of_nat (List.length (s_types s4))) by (apply lookup_in in Lk; apply (inv_tbl s4 I4 _ _ _ Lk)).
  match goal with |- context [set_type p ?r s4] => set (Rq := r) end.
  split; [exact (set_type_good s4 p Rq G4 (fun c k => proj2 G4 c k p))|]. split; [eapply ext_trans; [exact X4|apply set_type_inv, I4]|]. split; [|split].
  - intros _. unfold ptr_methods. cbn [s_tbl set_type]. now rewrite Lk, get_set_same by exact Plt.
  - intros j Hj. rewrite get_set_other by (intros ->; apply Np; now rewrite (proj1 X4)).
    apply (kp_get _ _ K4), (inv_named s (proj1 G) j Hj).
  - (* the pointer type of another object is another object *)
    intros j Hne. rewrite set_type_ptr_methods; [apply (kp_ptr _ _ K4)|].
    intros q Hq ->. apply lookup_in in Hq, Lk. destruct (inv_ids s4 I4 _ _ _ _ _ Hq Lk) as [_ Ed]. apply dec_inj in Ed. contradiction.
Qed.

(* one declaration initialised: it is loaded, and no other declaration's object or pointer methods are touched *)
Lemma init_decl_good : forall s dn d, Good s -> (N.to_nat dn < List.length (s_named s))%nat -> decl_ok (nd_of s) d = true ->
  let s' := init_decl flc s (dn, d) in let id := nthN dn (s_named s) 0 in
  Good s' /\ ext s s' /\
  (ptr_methods s id = [] -> decl_loaded s' dn d) /\
  (forall id0, id0 <> id -> In id0 (s_named s) -> get s' id0 = get s id0 /\ ptr_methods s' id0 = ptr_methods s id0).
Proof.
  intros s dn d G Hdn Ok. cbv zeta. unfold init_decl, decl_loaded. unfold decl_ok in Ok.
  set (id := nthN dn (s_named s) 0).
  destruct (d_under d) as [l cs] eqn:Eu.
  apply andb_true_iff in Ok as [Ok Hh]. apply andb_true_iff in Ok as [Ok _]. apply andb_true_iff in Ok as [Wu Wm].
  cbn [wfb] in Wu. apply andb_true_iff in Wu as [Wl Wc].
  (* the components and the signatures are canonicalised: nothing that exists is touched *)
  destruct (canon_list flc cs s) as [ids s1] eqn:E1.
  destruct (canon_list_good cs s ids s1 G Wc E1) as (G1 & X1 & K1 & Rp1).
  destruct (canon_list flc (map me_sig (d_meths d)) s1) as [sigs s2] eqn:E2.
  rewrite <- (ext_nd _ _ X1) in Wm.
  destruct (canon_list_good _ s1 sigs s2 G1 Wm E2) as (G2 & X2 & K2 & Rp2).
  assert (K02 := keeps_trans _ _ _ K1 K2). assert (X02 := ext_trans _ _ _ X1 X2). assert (En2 := proj1 X02).
  assert (Hid : In id (s_named s2)) by (rewrite En2; now apply named_in).
  set (ms := map (fun x : meth * N => Build_rmeth (me_name (fst x)) (me_pkg (fst x)) (snd x) id) (zip (d_meths d) sigs)).
  set (vms := flat_map (fun x : meth * rmeth => if me_ptr (fst x) then [] else [snd x]) (zip (d_meths d) ms)).
  set (pms := flat_map (fun x : meth * rmeth => if me_ptr (fst x) then [snd x] else []) (zip (d_meths d) ms)).
  (* the object of the declaration gets its shape and its value-receiver methods *)
  match goal with |- context [set_type id ?r s2] => set (R := r) end.
  set (s3 := set_type id R s2).
  assert (G3 : Good s3) by (apply (set_type_good _ _ _ G2); intros c k Hin; destruct (proj2 (proj2 (inv_tbl s2 (proj1 G2) _ _ _ Hin)) Hid)).
  assert (X3 : ext s2 s3) by apply set_type_inv, G2.
  assert (P3 : forall j, ptr_methods s3 j = ptr_methods s j).
  { intro j. rewrite <- (kp_ptr _ _ K02). apply set_type_ptr_methods. intros p Hp ->. exact (named_not_cached s2 (proj1 G2) _ _ _ Hp Hid). }
  assert (O3 : forall j, In j (s_named s) -> j <> id -> get s3 j = get s j).
  { intros j Hj Hne. unfold s3. rewrite get_set_other by exact Hne. apply (kp_get _ _ K02), (inv_named s (proj1 G) j Hj). }
  (* its pointer type gets the pointer-receiver methods *)
  match goal with |- context [match pms with [] => s3 | _ => _ end] =>
    change (match pms with [] => s3 | _ :: _ => _ end) with (attach id (L (d_str d)) pms s3) end.
  destruct (attach_spec id (L (d_str d)) pms s3 G3) as (G5 & X5 & Pp & Og & Op). set (s5 := attach id (L (d_str d)) pms s3) in *.
  split; [exact G5|]. split; [exact (ext_trans _ _ _ X02 (ext_trans _ _ _ X3 X5))|]. split.
  - intro U. rewrite (proj1 X5), (proj1 X3), En2. fold id. rewrite Pp by now rewrite P3.
    rewrite Og by (cbn [s_named s3 set_type]; exact Hid). unfold s3. rewrite get_set_same by apply (inv_named s2 (proj1 G2) id Hid).
    subst R. cbn [r_named r_lab r_ids r_kind r_methods].
    assert (X2' : ext s2 s5) by exact (ext_trans _ _ _ X3 X5). assert (X1' : ext s1 s5) by exact (ext_trans _ _ _ X2 X2').
    split; [reflexivity|]. split; [reflexivity|]. split; [exact (Forall2_rep_mono _ _ X1' _ _ Rp1)|]. split.
    { (* the kind it was given is the kind of its underlying label *)
      rewrite <- (Forall2_length _ _ _ Rp1) in Wl. destruct (composite l) eqn:C.
      - destruct (key_some _ l ids C Wl) as [ck Hck]. rewrite <- (node_of_key s1) in Hck.
        destruct (node_of flc s1 l ids) as [[[c k] r]|] eqn:En; [|discriminate Hck].
        destruct (node_of_shape _ _ _ _ _ _ _ En) as (_ & _ & _ & _ & E). destruct l; try discriminate C; exact E.
      - destruct l; try discriminate C; [reflexivity|discriminate Hh]. }
    assert (Rs : Forall2 (rep s5) sigs (map me_sig (d_meths d))) by exact (Forall2_rep_mono _ _ X2' _ _ Rp2).
    split.
    + pose proof (split_meths s5 id (fun m => negb (me_ptr m)) (d_meths d) sigs Rs) as S. fold ms in S. unfold vms.
      erewrite flat_map_ext; [exact S|]. intros; cbn; now destruct (me_ptr _).
    + exact (split_meths s5 id me_ptr (d_meths d) sigs Rs).
  - intros id0 Hne Hin. rewrite Og by (cbn [s_named s3 set_type]; now rewrite En2). rewrite (O3 id0 Hin Hne), (Op id0 Hne). auto.
Qed.

Lemma declare_tbl : forall ds s, s_tbl (declare ds s) = s_tbl s.
Proof.
  intro ds. unfold declare. induction ds as [|d ds IH]; intro s; cbn [fold_left]; [reflexivity|]. now rewrite IH.
Qed.

Record Loaded (env : list decl) (s : st) : Prop := {
  ld_good : Good s;
  ld_nd : nd_of s = N.of_nat (List.length env);
  ld_decl : forall dn, (dn < List.length env)%nat -> decl_loaded s (N.of_nat dn) (nth dn env decl0) }.

(* on the way there: the declarations before the k-th are loaded, the others not yet begun *)
Definition loading (env : list decl) (k : nat) (s : st) : Prop :=
  Good s /\ nd_of s = N.of_nat (List.length env) /\
  (forall dn, (dn < k)%nat -> (dn < List.length env)%nat -> decl_loaded s (N.of_nat dn) (nth dn env decl0)) /\
  (forall dn, (k <= dn < List.length env)%nat -> ptr_methods s (nthN (N.of_nat dn) (s_named s) 0) = []).

Lemma load_step : forall env k s, env_ok env = true -> (k < List.length env)%nat -> loading env k s ->
  loading env (S k) (init_decl flc s (N.of_nat k, nth k env decl0)).
Proof.
  intros env k s Ok Hk (G & ND & Ld & Pe).
  assert (Hr : forall dn, (dn < List.length env)%nat -> (N.to_nat (N.of_nat dn) < List.length (s_named s))%nat) by (unfold nd_of in ND; intros; lia).
  destruct (init_decl_good s (N.of_nat k) (nth k env decl0) G (Hr k Hk)) as (G1 & X1 & L1 & O1).
  { rewrite ND. unfold env_ok in Ok. rewrite forallb_forall in Ok. apply Ok. now apply nth_In. }
  assert (Ot : forall dn, (dn < List.length env)%nat -> dn <> k ->
            get (init_decl flc s (N.of_nat k, nth k env decl0)) (nthN (N.of_nat dn) (s_named s) 0) = get s (nthN (N.of_nat dn) (s_named s) 0) /\
            ptr_methods (init_decl flc s (N.of_nat k, nth k env decl0)) (nthN (N.of_nat dn) (s_named s) 0) = ptr_methods s (nthN (N.of_nat dn) (s_named s) 0)).
  { intros dn Hdn Hne. apply O1; [|now apply named_in, Hr]. intro E. apply (named_inj s (proj1 G)) in E; auto. lia. }
  split; [exact G1|]. split; [now rewrite (ext_nd _ _ X1)|]. split.
  - intros dn Hlt Hdn. destruct (Nat.eq_dec dn k) as [->|Hne]; [apply L1, Pe; lia|].
    destruct (Ot dn Hdn Hne) as [Eg Ep]. apply (decl_loaded_keep s); auto. apply Ld; lia.
  - intros dn Hdn. rewrite (proj1 X1), (proj2 (Ot dn ltac:(lia) ltac:(lia))). apply Pe. lia.
Qed.

Lemma load_fold : forall l pre s, env_ok (pre ++ l) = true -> loading (pre ++ l) (List.length pre) s ->
  loading (pre ++ l) (List.length (pre ++ l)) (fold_left (init_decl flc) (number (N.of_nat (List.length pre)) l) s).
Proof.
  induction l as [|d l IH]; intros pre s Ok H; cbn [number fold_left]; [now rewrite app_nil_r in *|].
  specialize (IH (pre ++ [d]) (init_decl flc s (N.of_nat (List.length pre), d))). rewrite <- app_assoc in IH. cbn [app] in IH.
  rewrite app_length in IH. cbn [List.length] in IH. rewrite Nat.add_1_r, Nat2N.inj_succ in IH. apply IH; [exact Ok|].
  rewrite <- (nth_middle pre l d decl0) at 2. apply load_step; auto. rewrite app_length. cbn. lia.
Qed.

Theorem load_env_loaded : forall env, env_ok env = true -> Loaded env (load_env flc env).
Proof.
  intros env Ok. unfold load_env. destruct (declare_inv env init_st init_st_inv) as [I0 L0]. cbn in L0.
  assert (T0 : s_tbl (declare env init_st) = []) by apply declare_tbl.
  destruct (load_fold env [] (declare env init_st) Ok) as (G & ND & Ld & _).
  { split; [split; [exact I0|]; intros c k i Hin; rewrite T0 in Hin; destruct Hin|]. split; [unfold nd_of; now rewrite L0|].
    split; [intros dn Hdn; inversion Hdn|]. intros dn _. unfold ptr_methods. now rewrite T0. }
  split; [exact G|exact ND|]. intros dn Hdn. now apply Ld.
Qed.

Theorem canon_list_loaded : forall env s ts ids s', Loaded env s -> forallb (wfb (N.of_nat (List.length env))) ts = true ->
  canon_list flc ts s = (ids, s') -> Loaded env s' /\ Forall2 (rep s') ids ts.
Proof.
  intros env s ts ids s' [G ND Ld] W E. rewrite <- ND in W.
  destruct (canon_list_good ts s ids s' G W E) as (G' & X & R & Rp).
  split; [|auto]. split; [exact G'|now rewrite (ext_nd _ _ X)|]. intros dn Hdn. apply (decl_loaded_keep s); auto.
  - apply (kp_get _ _ R). apply (inv_named s (proj1 G)). apply named_in. unfold nd_of in ND. lia.
  - apply (kp_ptr _ _ R).
Qed.
