(* The hash-consing invariant of the canonicalising constructors, by induction over arbitrary type terms and
   arbitrary sequences of canonicalisations (and over the declarations loaded before them):
   [Inv]: every cache entry points to a fresh object id (not a predeclared / declared type's id), no id is pointed to
   by two entries;  [rep s i t]: object i denotes the type term t;  canon yields a representative, leaves the existing
   objects alone ([keeps]) and files every new object under its own key ([filed]) ([canon_all]);  that representatives
   are unique up to Go's type identity is [rep_unique] in C09_P4_Ident.v (by the injectivity of the typeKey strings). *)
From Coq Require Import List Arith NArith Bool String Ascii Lia.
From Verif Require Import Base.Lists Gen.C09_Kinds Model.C09_Types Corr.C09_Eval Model.C09_P4_Wf Proofs.C09_P4_Strings Proofs.C09_P4_Keys.
Import ListNotations.
Local Open Scope N_scope.

Section TyInd.
  Variable P : ty -> Prop.
  Hypothesis H : forall l cs, Forall P cs -> P (T l cs).
  Fixpoint ty_ind' (t : ty) : P t :=
    match t with
    | T l cs => H l cs ((fix go (xs : list ty) : Forall P xs :=
                           match xs with [] => Forall_nil P | x :: r => Forall_cons x (ty_ind' x) (go r) end) cs)
    end.
End TyInd.

(* the nested fixpoints of the model, named *)
Definition canon_go (fl : flags) : list ty -> st -> list N * st :=
  fix go (xs : list ty) (s0 : st) : list N * st :=
    match xs with
    | [] => ([], s0)
    | x :: r => let '(i, s') := canon fl x s0 in let '(is_, s'') := go r s' in (i :: is_, s'')
    end.
Lemma canon_go_eq : forall fl xs s, canon_go fl xs s = canon_list fl xs s.
Proof.
  induction xs as [|x r IH]; intro s; cbn [canon_go canon_list]; [reflexivity|].
  destruct (canon fl x s) as [i s']. fold (canon_go fl). rewrite IH. reflexivity.
Qed.
Lemma canon_unfold : forall fl l cs s, canon fl (T l cs) s =
  let '(ids, s1) := canon_list fl cs s in
  match l with
  | LBasic i => (i, s1)
  | LNamed d => (nthN d (s_named s1) 0, s1)
  | _ => match node_of fl s1 l ids with Some (c, k, r) => intern c k r s1 | None => (0, s1) end
  end.
Proof. intros. rewrite <- canon_go_eq. reflexivity. Qed.

Definition ident_go : list ty -> list ty -> bool :=
  fix go (xs ys : list ty) : bool :=
    match xs, ys with
    | [], [] => true
    | x :: xs', y :: ys' => identical x y && go xs' ys'
    | _, _ => false
    end.
Lemma identical_unfold : forall l cs l' cs', identical (T l cs) (T l' cs') = lab_ident l l' && ident_go cs cs'.
Proof. reflexivity. Qed.

Record Inv (s : st) : Prop := {
  inv_pre : npre <= N.of_nat (List.length (s_types s));
  inv_tbl : forall c k i, In (c, k, i) (s_tbl s) -> npre <= i /\ i < N.of_nat (List.length (s_types s)) /\ ~ In i (s_named s);
  inv_ids : forall c k c' k' i, In (c, k, i) (s_tbl s) -> In (c', k', i) (s_tbl s) -> c = c' /\ k = k';
  inv_nodup : NoDup (s_named s);
  inv_named : forall i, In i (s_named s) -> npre <= i /\ i < N.of_nat (List.length (s_types s))
}.

Definition ext (s s' : st) : Prop :=
  s_named s' = s_named s /\
  forall c k i, lookup_tbl c k (s_tbl s) = Some i -> lookup_tbl c k (s_tbl s') = Some i.

Lemma ext_refl : forall s, ext s s. Proof. split; auto. Qed.
Lemma ext_trans : forall a b c, ext a b -> ext b c -> ext a c.
Proof. intros a b c [N1 L1] [N2 L2]. split; [congruence|auto]. Qed.

Inductive rep (s : st) : N -> ty -> Prop :=
| rep_basic : forall b, b < npre -> rep s b (T (LBasic b) [])
| rep_named : forall d, (N.to_nat d < List.length (s_named s))%nat -> rep s (nthN d (s_named s) 0) (T (LNamed d) [])
| rep_node : forall l cs ids ck i, composite l = true -> Forall2 (rep s) ids cs -> key_of l ids = Some ck ->
             lookup_tbl (fst ck) (snd ck) (s_tbl s) = Some i -> rep s i (T l cs).

Lemma rep_mono : forall s s', ext s s' -> forall t i, rep s i t -> rep s' i t.
Proof.
  intros s s' [EN EL]. induction t as [l cs IH] using ty_ind'. intros i R. inversion R as [b Hb|d Hd|l0 cs0 ids ck i0 Hc HF Hk Hl]; subst.
  - now constructor.
  - rewrite <- EN. constructor. now rewrite EN.
  - eapply rep_node; eauto. clear - IH HF. induction HF; inversion IH; subst; constructor; auto.
Qed.

Lemma Forall2_rep_mono : forall s s', ext s s' -> forall ids cs, Forall2 (rep s) ids cs -> Forall2 (rep s') ids cs.
Proof. intros s s' E ids cs F. induction F; constructor; eauto using rep_mono. Qed.

Lemma lookup_in : forall c k tbl i, lookup_tbl c k tbl = Some i -> In (c, k, i) tbl.
Proof.
  induction tbl as [|[[c' k'] i'] r IH]; intros i H; cbn in H; [discriminate|].
  destruct ((c =? c') && str_eqb k k') eqn:E.
  - apply key_eqb_eq in E as [-> ->]. injection H as ->. now left.
  - right. auto.
Qed.

Definition nd_of (s : st) : N := N.of_nat (List.length (s_named s)).

(* what a canonicalisation leaves alone: the objects that exist, and the method list of every pointer type *)
Record keeps (s s' : st) : Prop := {
  kp_len : (List.length (s_types s) <= List.length (s_types s'))%nat;
  kp_get : forall j, j < N.of_nat (List.length (s_types s)) -> get s' j = get s j;
  kp_ptr : forall j, ptr_methods s' j = ptr_methods s j }.

Lemma keeps_refl : forall s, keeps s s.
Proof. intro s. split; auto. Qed.
Lemma keeps_trans : forall a b c, keeps a b -> keeps b c -> keeps a c.
Proof. intros a b c [L1 G1 P1] [L2 G2 P2]. split; [lia| |congruence]. intros j H. rewrite G2 by lia. auto. Qed.

Definition kind_lab (l : lab) : N :=
  match l with
  | LPtr => kindPtr | LSlice => kindSlice | LArray _ => kindArray | LMap => kindMap | LChan _ _ => kindChan
  | LFunc _ _ => kindFunc | LStruct _ _ => kindStruct | LIface _ => kindInterface
  | LBasic i => kind_of_basic i | LNamed _ => 0
  end.
Definition filed_at (nd : N) (r : rt) (c : N) (k : str) : Prop :=
  lab_wf nd (r_lab r) (List.length (r_ids r)) = true /\ key_of (r_lab r) (r_ids r) = Some (c, k) /\
  r_named r = false /\ r_kind r = kind_lab (r_lab r).
Definition filed (s : st) : Prop :=
  forall c k i, In (c, k, i) (s_tbl s) -> filed_at (nd_of s) (get s i) c k.

Lemma node_of_shape : forall fl s l ids c k r, node_of fl s l ids = Some (c, k, r) ->
  r_lab r = l /\ r_ids r = ids /\ r_named r = false /\ r_methods r = [] /\ r_kind r = kind_lab l.
Proof.
  intros fl s l ids c k r H. destruct l; cbn in H; try discriminate H;
    try (destruct ids as [|a [|b [|? ?]]]; try discriminate H); injection H as <- <- <-; auto.
Qed.

Lemma node_filed : forall s l ids c k r nd, node_of flc s l ids = Some (c, k, r) -> lab_wf nd l (List.length ids) = true ->
  filed_at nd r c k.
Proof.
  intros s l ids c k r nd En W. destruct (node_of_shape _ _ _ _ _ _ _ En) as (E1 & E2 & E3 & E4 & E5).
  unfold filed_at. rewrite E1, E2. repeat split; auto. now rewrite <- (node_of_key s), En.
Qed.

Lemma upd_length : forall {A} n (x : A) l, List.length (upd n x l) = List.length l.
Proof. induction n; intros x [|y l]; cbn; auto. Qed.

Lemma Inv_same : forall s s', List.length (s_types s') = List.length (s_types s) -> s_tbl s' = s_tbl s -> s_named s' = s_named s ->
  Inv s -> Inv s'.
Proof. intros s s' E1 E2 E3 [A B C D E]. constructor; rewrite ?E1, ?E2, ?E3; auto. Qed.

Lemma set_type_inv : forall i r s, Inv s -> Inv (set_type i r s) /\ ext s (set_type i r s).
Proof.
  intros i r s I. split; [|split; [reflexivity|auto]].
  apply (Inv_same s (set_type i r s)); auto. cbn. apply upd_length.
Qed.

(* a new object, owned either by one new cache entry or by one new declaration: its id is above every id in use *)
Lemma Inv_alloc : forall s r tbl named, Inv s ->
  let i := N.of_nat (List.length (s_types s)) in
  (exists c k, tbl = (c, k, i) :: s_tbl s) /\ named = s_named s \/ tbl = s_tbl s /\ named = s_named s ++ [i] ->
  Inv (Build_st (s_types s ++ [r]) tbl named).
Proof.
  intros s r tbl named [A B C D F] i Hown.
  assert (Bi : forall c k, ~ In (c, k, i) (s_tbl s)) by (intros c k H; apply B in H; lia).
  assert (Fi : ~ In i (s_named s)) by (intro H; apply F in H; lia).
  destruct Hown as [[(c & k & ->) ->]|[-> ->]]; constructor; cbn [s_types s_tbl s_named]; rewrite ?app_length; cbn [List.length].
  - (* a new cache entry *) lia.
  - intros c0 k0 j [H|H]; [injection H as <- <- <-; split; [lia|split; [lia|exact Fi]]|].
    apply B in H. destruct H as [H1 [H2 H3]]. split; [auto|]. split; [lia|auto].
  - intros c0 k0 c1 k1 j [H|H] [H'|H'].
    + injection H as <- <- <-. injection H' as <- <-. auto.
    + injection H as <- <- <-. destruct (Bi _ _ H').
    + injection H' as <- <- <-. destruct (Bi _ _ H).
    + eapply C; eauto.
  - exact D.
  - intros j Hin. apply F in Hin. lia.
  - (* a new declaration *) lia.
  - intros c k j H. destruct (B c k j H) as [H1 [H2 H3]]. split; [auto|]. split; [lia|].
    intro Hin. apply in_app_or in Hin as [Hin|[<-|[]]]; [auto|]. exact (Bi _ _ H).
  - exact C.
  - now apply NoDup_snoc.
  - intros j Hin. apply in_app_or in Hin as [Hin|[<-|[]]]; [apply F in Hin|]; lia.
Qed.

Lemma get_alloc_old : forall r s j, j < N.of_nat (List.length (s_types s)) -> nthN j (s_types s ++ [r]) rt0 = get s j.
Proof. intros. unfold get, nthN. apply app_nth1. lia. Qed.
Lemma get_alloc_new : forall r s, nthN (N.of_nat (List.length (s_types s))) (s_types s ++ [r]) rt0 = r.
Proof. intros. unfold nthN. rewrite Nat2N.id, app_nth2, Nat.sub_diag; auto. Qed.

(* a hit changes nothing; a miss appends the object and files it *)
Lemma intern_inv : forall c k r s i s', Inv s -> intern c k r s = (i, s') ->
  Inv s' /\ ext s s' /\ lookup_tbl c k (s_tbl s') = Some i /\
  (r_methods r = [] -> keeps s s') /\ (filed_at (nd_of s) r c k -> filed s -> filed s').
Proof.
  intros c k r s i s' I H. unfold intern in H.
  destruct (lookup_tbl c k (s_tbl s)) as [j|] eqn:E.
  - injection H as H1 H2. subst. auto 6 using ext_refl, keeps_refl.
  - cbn in H. injection H as H1 H2. subst s' i. split; [|split; [|split; [|split]]].
    + apply Inv_alloc; eauto.
    + split; [reflexivity|]. intros c0 k0 i0 Hl. cbn [s_tbl add_tbl lookup_tbl].
      destruct ((c0 =? c) && str_eqb k0 k) eqn:E2; [|exact Hl]. apply key_eqb_eq in E2 as [-> ->]. congruence.
    + cbn [s_tbl add_tbl lookup_tbl]. now rewrite N.eqb_refl, str_eqb_refl.
    + intro Em. split; [cbn; rewrite app_length; lia|intros j Hj; now apply get_alloc_old|].
      (* the new object has no methods: also as the pointer type of j it changes nothing *)
      intro j. unfold ptr_methods, get. cbn [s_types s_tbl add_tbl lookup_tbl].
      destruct ((cPtr =? c) && str_eqb (dec j) k) eqn:Ek.
      * apply key_eqb_eq in Ek as [<- <-]. now rewrite E, get_alloc_new.
      * destruct (lookup_tbl cPtr (dec j) (s_tbl s)) as [p|] eqn:E'; [|reflexivity].
        apply lookup_in in E'. destruct (inv_tbl s I _ _ _ E') as [_ [Hlt _]]. now rewrite get_alloc_old.
    + intros Fr F c0 k0 j [Hin|Hin]; unfold get; cbn [s_types add_tbl].
      * injection Hin as <- <- <-. now rewrite get_alloc_new.
      * destruct (inv_tbl s I _ _ _ Hin) as [_ [Hlt _]]. rewrite get_alloc_old by exact Hlt. exact (F _ _ _ Hin).
Qed.

(* [Inv] is kept for any term; a well-formed term gets a representative, and the caches stay filed *)
Definition canon_ok (t : ty) : Prop :=
  forall s i s', Inv s -> canon flc t s = (i, s') ->
    Inv s' /\ ext s s' /\ keeps s s' /\ (wfb (nd_of s) t = true -> rep s' i t /\ (filed s -> filed s')).
Definition canon_list_ok (cs : list ty) : Prop :=
  forall s ids s', Inv s -> canon_list flc cs s = (ids, s') ->
    Inv s' /\ ext s s' /\ keeps s s' /\
    (forallb (wfb (nd_of s)) cs = true -> Forall2 (rep s') ids cs /\ (filed s -> filed s')).

Lemma ext_nd : forall s s', ext s s' -> nd_of s' = nd_of s.
Proof. intros s s' [E _]. unfold nd_of. now rewrite E. Qed.

Lemma canon_list_from : forall cs, Forall canon_ok cs -> canon_list_ok cs.
Proof.
  induction cs as [|x cs IH]; intros F s ids s' I H.
  - cbn in H. injection H as H1 H2. subst. auto 6 using ext_refl, keeps_refl.
  - inversion F as [|? ? Fx Fcs]; subst. cbn [canon_list] in H.
    destruct (canon flc x s) as [i s1] eqn:E1. destruct (canon_list flc cs s1) as [is_ s2] eqn:E2.
    injection H as H1 H2. subst.
    destruct (Fx s i s1 I E1) as (I1 & X1 & K1 & R1).
    destruct (IH Fcs s1 is_ s' I1 E2) as (I2 & X2 & K2 & R2). rewrite (ext_nd _ _ X1) in R2.
    split; [exact I2|]. split; [eapply ext_trans; eauto|]. split; [eapply keeps_trans; eauto|].
    intro W. cbn [forallb] in W. apply andb_true_iff in W as [W1 W2].
    destruct (R1 W1) as [Rx Fx'], (R2 W2) as [Rcs Fcs']. split; [|auto]. constructor; [eapply rep_mono; eauto|exact Rcs].
Qed.

Lemma canon_composite : forall l cs s, composite l = true -> canon flc (T l cs) s =
  let '(ids, s1) := canon_list flc cs s in
  match node_of flc s1 l ids with Some (c, k, r) => intern c k r s1 | None => (0, s1) end.
Proof. intros l cs s C. rewrite canon_unfold. destruct l; (discriminate C || reflexivity). Qed.

Lemma canon_all : forall t, canon_ok t.
Proof.
  induction t as [l cs IH] using ty_ind'. intros s i s' I H.
  destruct (canon_list flc cs s) as [ids s1] eqn:E.
  destruct (canon_list_from cs IH s ids s1 I E) as (I1 & X1 & K1 & R1).
  assert (Wsplit : wfb (nd_of s) (T l cs) = true -> lab_wf (nd_of s) l (List.length cs) = true /\ forallb (wfb (nd_of s)) cs = true).
  { intro W. cbn [wfb] in W. now apply andb_true_iff in W. }
  destruct (composite l) eqn:C.
  - rewrite (canon_composite l cs s C), E in H. destruct (node_of flc s1 l ids) as [[[c k] r]|] eqn:En.
    + destruct (intern_inv c k r s1 i s' I1 H) as (I2 & X2 & Lk & K2 & F2).
      split; [exact I2|]. split; [eapply ext_trans; eauto|].
      split; [apply (keeps_trans _ _ _ K1), K2, (node_of_shape _ _ _ _ _ _ _ En)|].
      intro W. destruct (Wsplit W) as [Wl Wc]. destruct (R1 Wc) as [Rc Fc]. split.
      * apply (rep_node s' l cs ids (c, k)); [exact C|eapply Forall2_rep_mono; eauto|now rewrite <- (node_of_key s1), En|exact Lk].
      * intro F. apply F2; [|auto]. apply (node_filed s1 l ids c k r _ En). now rewrite (ext_nd _ _ X1), (Forall2_length _ _ _ Rc).
    + (* a well-formed label over as many ids as it has components does have a key *)
      injection H as <- <-. split; [auto|]. split; [auto|]. split; [auto|]. intro W. destruct (Wsplit W) as [Wl Wc]. exfalso.
      rewrite <- (Forall2_length _ _ _ (proj1 (R1 Wc))) in Wl. destruct (key_some _ _ _ C Wl) as [ck Hck].
      rewrite <- (node_of_key s1), En in Hck. discriminate Hck.
  - (* the two leaf labels: no components *)
    rewrite canon_unfold, E in H.
    destruct l; try discriminate C.
    1-2: injection H as <- <-; split; [auto|]; split; [auto|]; split; [auto|]; intro W; destruct (Wsplit W) as [Wl Wc];
         split; [|apply (R1 Wc)];
         cbn [lab_wf] in Wl; apply andb_true_iff in Wl as [Wl1 Wl2]; apply N.ltb_lt in Wl1; destruct cs; [|discriminate Wl2].
    + now constructor.
    + constructor. rewrite <- (ext_nd _ _ X1) in Wl1. unfold nd_of in Wl1. lia.
Qed.

Lemma canon_list_all : forall cs, canon_list_ok cs.
Proof. intro cs. apply canon_list_from. apply Forall_forall. intros. apply canon_all. Qed.

Lemma init_st_inv : Inv init_st.
Proof.
  constructor; cbn [init_st s_types s_tbl s_named].
  - unfold npre. rewrite map_length. lia.
  - intros c k i [].
  - intros c k c' k' i [].
  - constructor.
  - intros i [].
Qed.

(* the step of the model's [declare], named *)
Definition decl_step (s0 : st) (d : decl) : st :=
  let '(i, s') := alloc (Build_rt 0 (L (d_str d)) true true (LBasic 0) [] []) s0 in
  Build_st (s_types s') (s_tbl s') (s_named s' ++ [i]).

Lemma decl_step_inv : forall s d, Inv s -> Inv (decl_step s d) /\ List.length (s_named (decl_step s d)) = S (List.length (s_named s)).
Proof.
  intros s d I. unfold decl_step, alloc. cbn [s_types s_tbl s_named fst snd].
  split; [apply Inv_alloc; auto|rewrite app_length; cbn; lia].
Qed.

Lemma declare_inv : forall ds s, Inv s -> Inv (declare ds s) /\ List.length (s_named (declare ds s)) = (List.length (s_named s) + List.length ds)%nat.
Proof.
  intros ds s. change (declare ds s) with (fold_left decl_step ds s). revert s.
  induction ds as [|d ds IH]; intros s I; cbn [fold_left].
  - split; [exact I|]. cbn. lia.
  - destruct (decl_step_inv s d I) as [I1 L1]. destruct (IH _ I1) as [A B]. split; [exact A|]. rewrite B, L1. cbn. lia.
Qed.

Lemma init_decl_inv : forall s di, Inv s -> Inv (init_decl flc s di) /\ ext s (init_decl flc s di).
Proof.
  intros s [dn d] I. unfold init_decl. destruct (d_under d) as [l cs].
  destruct (canon_list flc cs s) as [ids s1] eqn:E1.
  destruct (canon_list_all cs s ids s1 I E1) as [I1 [X1 _]].
  destruct (canon_list flc (map me_sig (d_meths d)) s1) as [sigs s2] eqn:E2.
  destruct (canon_list_all _ s1 sigs s2 I1 E2) as [I2 [X2 _]].
  match goal with |- context [set_type ?i ?r s2] => destruct (set_type_inv i r s2 I2) as [I3 X3]; set (s3 := set_type i r s2) in * end.
  match goal with |- context [match ?pm with [] => _ | _ => _ end] => destruct pm eqn:Ep end.
  - split; [exact I3|]. eauto using ext_trans.
  - match goal with |- context [intern ?c ?k ?r s3] => destruct (intern c k r s3) as [p s4] eqn:E4;
      destruct (intern_inv c k r s3 p s4 I3 E4) as [I4 [X4 _]] end.
    match goal with |- context [set_type p ?r s4] => destruct (set_type_inv p r s4 I4) as [I5 X5] end.
    split; [exact I5|]. eauto using ext_trans.
Qed.

Lemma load_env_inv : forall env, Inv (load_env flc env) /\ nd_of (load_env flc env) = N.of_nat (List.length env).
Proof.
  intro env. unfold load_env.
  destruct (declare_inv env init_st init_st_inv) as [I0 L0]. cbn in L0.
  assert (G : forall l s, Inv s -> Inv (fold_left (init_decl flc) l s) /\ ext s (fold_left (init_decl flc) l s)).
  { induction l as [|x l IH]; intros s I; cbn [fold_left]; [auto using ext_refl|].
    destruct (init_decl_inv s x I) as [I1 X1]. destruct (IH _ I1) as [I2 X2]. eauto using ext_trans. }
  destruct (G (number 0 env) _ I0) as [I X]. split; [exact I|].
  rewrite (ext_nd _ _ X). unfold nd_of. now rewrite L0.
Qed.
