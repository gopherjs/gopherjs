(* Representatives are unique up to Go's type identity ([rep_unique]); hence, for every environment and every sequence
   of well-formed type terms, two canonical objects coincide exactly when the terms are identical
   ([canon_pairs]; [C09_canon_iff_identical] of Props/C09.v); without well-formedness this fails ([canon_junk_refuted]). *)
From Coq Require Import List Arith NArith Bool String Ascii Lia.
From Verif Require Import Base.Lists Gen.C09_Kinds Model.C09_Types Corr.C09_Eval Model.C09_P4_Wf Proofs.C09_P4_Strings Proofs.C09_P4_Keys Proofs.C09_P4_Canon.
Import ListNotations.
Local Open Scope N_scope.

Definition uniq_at (s : st) (nd : N) (x : ty) : Prop :=
  forall u i j, wfb nd x = true -> wfb nd u = true -> rep s i x -> rep s j u -> (i = j <-> identical x u = true).

Lemma ident_go_spec : forall s nd cs, Forall (uniq_at s nd) cs ->
  forall cs' ids ids', forallb (wfb nd) cs = true -> forallb (wfb nd) cs' = true ->
  Forall2 (rep s) ids cs -> Forall2 (rep s) ids' cs' -> (ids = ids' <-> ident_go cs cs' = true).
Proof.
  intros s nd. induction cs as [|x cs IH]; intros F cs' ids ids' W W' R R'.
  - inversion R; subst. destruct cs' as [|y cs']; inversion R'; subst; cbn; split; auto; discriminate.
  - inversion R as [|i x0 is_ cs0 Ri Ris]; subst. destruct cs' as [|y cs']; inversion R' as [|j y0 js cs0' Rj Rjs]; subst.
    + cbn. split; discriminate.
    + inversion F as [|? ? Fx Fcs]; subst. cbn [forallb] in W, W'.
      apply andb_true_iff in W as [W1 W2]. apply andb_true_iff in W' as [W1' W2'].
      cbn [ident_go]. fold ident_go. specialize (IH Fcs cs' is_ js W2 W2' Ris Rjs). specialize (Fx y i j W1 W1' Ri Rj).
      split.
      * intro E. injection E as E1 E2. apply andb_true_iff. split; [now apply Fx|now apply IH].
      * intro E. apply andb_true_iff in E as [E1 E2]. f_equal; [now apply Fx|now apply IH].
Qed.

Lemma named_in : forall s d, (N.to_nat d < List.length (s_named s))%nat -> In (nthN d (s_named s) 0) (s_named s).
Proof. intros. unfold nthN. now apply nth_In. Qed.

Lemma lab_ident_composite : forall l l', composite l <> composite l' -> lab_ident l l' = false.
Proof. intros [] []; cbn; congruence. Qed.

Theorem rep_unique : forall s, Inv s -> forall t, uniq_at s (nd_of s) t.
Proof.
  intros s I. induction t as [l cs IH] using ty_ind'. intros [l' cs'] i j Wt Wu R R'.
  assert (Wt' := Wt). assert (Wu' := Wu). cbn [wfb] in Wt', Wu'.
  apply andb_true_iff in Wt' as [Wl Wc]. apply andb_true_iff in Wu' as [Wl' Wc'].
  destruct I as [_ Itbl Iids Inodup Inamed].
  inversion R as [b Hb|d Hd|l0 cs0 ids ck i0 Hc HF Hk Hl]; subst;
  inversion R' as [b' Hb'|d' Hd'|l0' cs0' ids' ck' i0' Hc' HF' Hk' Hl']; subst.
  - (* basic / basic *) rewrite identical_unfold. cbn. rewrite andb_true_r. split; [intro; subst; apply N.eqb_refl|apply N.eqb_eq].
  - (* basic / named *) apply named_in in Hd'. apply Inamed in Hd'. split; [intro; subst; lia|cbn; discriminate].
  - (* basic / node *) apply lookup_in in Hl'. apply Itbl in Hl'. rewrite identical_unfold, lab_ident_composite by (cbn; congruence).
    split; [intro; subst; lia|discriminate].
  - (* named / basic *) apply named_in in Hd. apply Inamed in Hd. split; [intro; subst; lia|cbn; discriminate].
  - (* named / named *) rewrite identical_unfold. cbn. rewrite andb_true_r. split.
    + intro E. unfold nthN in E. rewrite NoDup_nth in Inodup. apply Inodup in E; auto. apply N.eqb_eq. lia.
    + intro E. apply N.eqb_eq in E. now subst.
  - (* named / node *) apply named_in in Hd. apply lookup_in in Hl'. apply Itbl in Hl'.
    rewrite identical_unfold, lab_ident_composite by (cbn; congruence). split; [intro; subst; tauto|discriminate].
  - (* node / basic *) apply lookup_in in Hl. apply Itbl in Hl. rewrite identical_unfold, lab_ident_composite by (cbn; congruence).
    split; [intro; subst; lia|discriminate].
  - (* node / named *) apply named_in in Hd'. apply lookup_in in Hl. apply Itbl in Hl.
    rewrite identical_unfold, lab_ident_composite by (cbn; congruence). split; [intro; subst; tauto|discriminate].
  - (* node / node *)
    assert (Len := Forall2_length _ _ _ HF). assert (Len' := Forall2_length _ _ _ HF').
    rewrite <- Len in Wl. rewrite <- Len' in Wl'.
    rewrite identical_unfold. split.
    + (* one object: one cache entry ([inv_ids]), so one key, so the same label and component ids ([key_inj]) *)
      intro E. subst j. apply lookup_in in Hl, Hl'. destruct (Iids _ _ _ _ _ Hl Hl') as [E1 E2].
      assert (Eck : ck = ck') by (destruct ck, ck'; cbn in *; congruence). subst ck'.
      destruct (key_inj (nd_of s) l ids l' ids' ck) as [-> ->]; auto.
      rewrite lab_ident_refl. cbn. eapply (ident_go_spec s (nd_of s) cs IH cs' ids' ids'); eauto.
    + (* identical: equal labels ([lab_ident_eq]) and, by induction, equal component ids, so the same cache entry *)
      intro E. apply andb_true_iff in E as [E1 E2].
      apply (lab_ident_eq (nd_of s) l l' _ _ Wl Wl') in E1. subst l'.
      apply (ident_go_spec s (nd_of s) cs IH cs' ids ids') in E2; auto. subst ids'. congruence.
Qed.

Lemma Forall2_nth : forall {A B} (R : A -> B -> Prop) l l' a b, Forall2 R l l' ->
  forall n, (n < List.length l')%nat -> R (nth n l a) (nth n l' b).
Proof.
  intros A B R l l' a b F. induction F; intros n Hn; cbn in Hn; [lia|]. destruct n; cbn; auto. apply IHF. lia.
Qed.

Lemma canon_env : forall env ts ids s,
  canon_list flags_current ts (load_env flags_current env) = (ids, s) ->
  Inv s /\ nd_of s = N.of_nat (List.length env) /\
  (forallb (wfb (N.of_nat (List.length env))) ts = true -> Forall2 (rep s) ids ts).
Proof.
  intros env ts ids s E. destruct (load_env_inv env) as [I0 ND].
  destruct (canon_list_all ts _ ids s I0 E) as (I & X & _ & R). rewrite ND in R. rewrite (ext_nd _ _ X).
  split; [exact I|]. split; [exact ND|]. intro W. apply R, W.
Qed.

Lemma canon_pairs : forall env ts ids s, forallb (wfb (N.of_nat (List.length env))) ts = true ->
  canon_list flags_current ts (load_env flags_current env) = (ids, s) ->
  forall x y, In x (zip ids ts) -> In y (zip ids ts) -> (fst x = fst y <-> identical (snd x) (snd y) = true).
Proof.
  intros env ts ids s W E. destruct (canon_env env ts ids s E) as [I [ND R]]. specialize (R W).
  assert (Z : forall x, In x (zip ids ts) -> rep s (fst x) (snd x) /\ wfb (nd_of s) (snd x) = true).
  { rewrite ND. clear - R W. induction R as [|i t ids ts Rit _ IH]; intros x Hx; [destruct Hx|].
    cbn [forallb] in W. apply andb_true_iff in W as [W1 W2]. destruct Hx as [<-|Hx]; [auto|apply IH; auto]. }
  intros x y Hx Hy. destruct (Z x Hx), (Z y Hy). now apply (rep_unique s I).
Qed.

(* without well-formedness the statement is false for junk terms the compiler cannot emit (a declaration index out
   of range falls back to object 0 = bool) *)
Lemma canon_junk_refuted :
  let ts := [T (LNamed 5) []; T (LBasic 0) []] in
  let ids := fst (canon_list flags_current ts (load_env flags_current [])) in
  nth 0 ids 0 = nth 1 ids 0 /\ identical (nth 0 ts (T (LBasic 0) [])) (nth 1 ts (T (LBasic 0) [])) = false /\
  forallb (wfb 0) ts = false.
Proof. vm_compute. repeat split; reflexivity. Qed.

(* non-vacuity: deep, nasty terms are well-formed *)
Definition p4_nasty : list ty :=
  [T (LStruct "" [Build_fhdr "A" false true "t"; Build_fhdr "B" false true ""]) [T (LBasic 1) []; T (LBasic 1) []];
   T (LStruct "" [Build_fhdr "A" false true "t,0$B,1,,0"]) [T (LBasic 1) []];
   T (LStruct "" [Build_fhdr "A" false true "t\,0\$B,1,,0"]) [T (LBasic 1) []];
   T LPtr [T LSlice [T (LArray 3) [T LMap [T (LBasic 16) []; T (LChan true false) [T (LFunc 1 true) [T LSlice [T (LNamed 0) []]; T (LIface [Build_mhdr "m" "main"]) [T (LFunc 0 false) []]]]]]]];
   T (LStruct "verifprog/q" [Build_fhdr "a" false false "\"]) [T (LNamed 1) []]].
Lemma p4_nasty_wf : forallb (wfb 2) p4_nasty = true.
Proof. vm_compute. reflexivity. Qed.

