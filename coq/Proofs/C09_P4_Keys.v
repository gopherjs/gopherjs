(* The typeKey strings of the canonicalising constructors (gopherjs as it stands: [flags_current]) are injective on
   well-formed labels and component ids ([key_inj]):
     key_of l ids = Some ck -> key_of l' ids' = Some ck -> l = l' /\ ids = ids';
   Go's label identity [lab_ident] coincides with equality on well-formed labels ([lab_ident_refl], [lab_ident_eq]). *)
From Coq Require Import List Arith NArith Bool String Ascii Lia.
From Verif Require Import Gen.C09_Kinds Model.C09_Types Corr.C09_Eval Model.C09_P4_Wf Proofs.C09_P4_Strings.
Import ListNotations.
Local Open Scope N_scope.

Notation flc := flags_current.

(* (cache, typeKey) of the constructor for label [l] over component ids: the first two components of the model's
   [node_of] (they do not depend on the state) *)
Definition key_of (l : lab) (ids : list N) : option (N * str) := option_map fst (node_of flc init_st l ids).

Lemma node_of_key : forall s l ids, option_map fst (node_of flc s l ids) = key_of l ids.
Proof. intros s l ids. unfold key_of. destruct l; try reflexivity; destruct ids as [|a [|b [|c r]]]; reflexivity. Qed.

(* the token of one struct field before escaping ([fk_raw]); the token of one interface method *)
Definition raw (x : fhdr * N) : str :=
  L (fh_name (fst x)) ++ [c_comma] ++ dec (snd x) ++ [c_comma] ++ L (fh_tag (fst x)) ++ [c_comma] ++
  (if fh_emb (fst x) then L "1" else L "0").
Definition itok (x : mhdr * N) : str := L (mh_pkg (fst x)) ++ [c_comma] ++ L (mh_name (fst x)) ++ [c_comma] ++ dec (snd x).

Lemma key_struct : forall pkg fs ids, key_of (LStruct pkg fs) ids =
  Some (cStruct, (L pkg ++ [c_dollar]) ++ join [c_dollar] (map (fun x => field_key flc (fst x) (snd x)) (zip fs ids))).
Proof. reflexivity. Qed.
Lemma key_iface : forall ms ids, key_of (LIface ms) ids = Some (cIface, join [c_dollar] (map itok (zip ms ids))).
Proof. reflexivity. Qed.
Lemma key_func : forall np v ids, key_of (LFunc np v) ids =
  Some (cFunc, join [c_comma] (map dec (firstn (N.to_nat np) ids)) ++ [c_dollar] ++
               join [c_comma] (map dec (skipn (N.to_nat np) ids)) ++ [c_dollar] ++ bool_str v).
Proof. reflexivity. Qed.

Lemma dollar_ne_bslash : c_dollar <> c_bslash. Proof. discriminate. Qed.

Lemma fh_wf_clean : forall f, fh_wf f = true -> clean (fh_name f) = true /\ fh_exp f = name_exported (fh_name f).
Proof. intros f H. apply andb_true_iff in H as [Hc Hx]. split; [exact Hc|now apply Bool.eqb_prop]. Qed.

(* a field's token is its fields joined by commas, escaped as a whole: only the tag can contain something to escape *)
Lemma fk_raw : forall x, fh_wf (fst x) = true -> field_key flc (fst x) (snd x) = escape c_dollar (raw x).
Proof.
  intros [f id] Hf. destruct (clean_no _ (proj1 (fh_wf_clean f Hf))) as [_ [H2 H3]].
  unfold field_key, raw. change (fx_tag flc) with true. change (fx_emb flc) with true. cbv iota. cbn [fst snd].
  rewrite !escape_app.
  rewrite (escape_clean c_dollar (L (fh_name f))) by auto.
  rewrite (escape_clean c_dollar (dec id)) by (apply dec_no; (apply bslash_not_digit || apply dollar_not_digit)).
  destruct (fh_emb f); reflexivity.
Qed.

Lemma raw_nonempty : forall x, raw x <> [].
Proof. intros x H. unfold raw in H. apply app_eq_nil in H as [_ H]. discriminate. Qed.

Lemma raw_inj : forall a b, fh_wf (fst a) = true -> fh_wf (fst b) = true -> raw a = raw b -> a = b.
Proof.
  intros [f id] [f' id'] Hf Hf' E. cbn [fst] in Hf, Hf'.
  apply fh_wf_clean in Hf as [Hc Hx]. apply fh_wf_clean in Hf' as [Hc' Hx'].
  destruct (clean_no _ Hc) as [N1 _]. destruct (clean_no _ Hc') as [N1' _].
  unfold raw in E. cbn [app fst snd] in E.
  apply split_first in E as [E1 E]; auto.
  apply split_first in E as [E2 E]; try (apply dec_no; apply comma_not_digit).
  apply L_inj in E1. apply dec_inj in E2.
  assert (E3 : (L (fh_tag f) ++ [c_comma]) ++ (if fh_emb f then L "1" else L "0") =
               (L (fh_tag f') ++ [c_comma]) ++ (if fh_emb f' then L "1" else L "0")).
  { rewrite <- !app_assoc. exact E. }
  assert (E4 : L (fh_tag f) = L (fh_tag f') /\ fh_emb f = fh_emb f').
  { destruct (fh_emb f), (fh_emb f'); cbn in E3; apply app_inj_tail in E3 as [E3 E5]; try discriminate;
      apply app_inj_tail in E3 as [E3 _]; auto. }
  destruct E4 as [E4 E5]. apply L_inj in E4.
  destruct f, f'; cbn in *. subst. reflexivity.
Qed.

Lemma field_key_tok : forall a b r r', fh_wf (fst a) = true -> fh_wf (fst b) = true ->
  tail_ok c_dollar r -> tail_ok c_dollar r' ->
  field_key flc (fst a) (snd a) ++ r = field_key flc (fst b) (snd b) ++ r' -> a = b /\ r = r'.
Proof.
  intros a b r r' Ha Hb Hr Hr' E. rewrite !fk_raw in E by assumption.
  apply esc_tok_inj in E as [E ->]; auto using dollar_ne_bslash. split; [now apply raw_inj|reflexivity].
Qed.

Lemma field_key_nonempty : forall x, fh_wf (fst x) = true -> field_key flc (fst x) (snd x) <> [].
Proof. intros x H. rewrite fk_raw by assumption. apply escape_nonempty, raw_nonempty. Qed.

Lemma itok_inj : forall a b, mh_wf (fst a) = true -> mh_wf (fst b) = true -> itok a = itok b -> a = b.
Proof.
  intros [m id] [m' id'] Hm Hm' E. cbn [fst] in Hm, Hm'.
  apply andb_true_iff in Hm as [Hn Hp]. apply andb_true_iff in Hm' as [Hn' Hp'].
  destruct (clean_no _ Hn) as [N1 _]. destruct (clean_no _ Hn') as [N1' _].
  destruct (clean_no _ Hp) as [P1 _]. destruct (clean_no _ Hp') as [P1' _].
  unfold itok in E. cbn [app fst snd] in E.
  apply split_first in E as [E1 E]; auto.
  apply split_first in E as [E2 E]; auto.
  apply L_inj in E1, E2. apply dec_inj in E.
  destruct m, m'; cbn in *. subst. reflexivity.
Qed.

Lemma itok_plain : forall x, mh_wf (fst x) = true -> ~ In c_dollar (itok x) /\ itok x <> [].
Proof.
  intros [m id] Hm. cbn [fst] in Hm. apply andb_true_iff in Hm as [Hn Hp].
  destruct (clean_no _ Hn) as [_ [N2 _]]. destruct (clean_no _ Hp) as [_ [P2 _]].
  unfold itok. cbn [fst snd]. split.
  - intro H. repeat (apply in_app_or in H as [H|H]); auto.
    + destruct H as [H|[]]. discriminate.
    + destruct H as [H|[]]. discriminate.
    + revert H. apply dec_no. apply dollar_not_digit.
  - intro H. apply app_eq_nil in H as [_ H]. discriminate.
Qed.

Lemma zip_inj : forall {A B} (xs xs' : list A) (ys ys' : list B),
  List.length xs = List.length ys -> List.length xs' = List.length ys' -> zip xs ys = zip xs' ys' -> xs = xs' /\ ys = ys'.
Proof.
  induction xs as [|x xs IH]; intros [|x' xs'] [|y ys] [|y' ys'] L1 L2 E; cbn in *; try discriminate; auto.
  injection E as -> -> E. destruct (IH xs' ys ys') as [-> ->]; auto.
Qed.

Lemma Forall_zip_fst : forall {A B} (P : A -> Prop) xs (ys : list B), Forall P xs -> Forall (fun x => P (fst x)) (zip xs ys).
Proof. intros A B P. induction xs as [|x xs IH]; intros [|y ys] F; cbn; auto. inversion F; subst. constructor; auto. Qed.

Lemma wf_struct : forall nd p fs n, lab_wf nd (LStruct p fs) n = true ->
  List.length fs = n /\ ~ In c_dollar (L p) /\ Forall (fun f => fh_wf f = true) fs.
Proof.
  intros nd p fs n W. cbn [lab_wf] in W.
  apply andb_true_iff in W as [W _]. apply andb_true_iff in W as [W Wf]. apply andb_true_iff in W as [Wl Wp].
  split; [now apply Nat.eqb_eq|]. split; [apply (clean_no _ Wp)|]. apply Forall_forall. now apply forallb_forall.
Qed.

Lemma wf_iface : forall nd ms n, lab_wf nd (LIface ms) n = true -> List.length ms = n /\ Forall (fun m => mh_wf m = true) ms.
Proof.
  intros nd ms n W. apply andb_true_iff in W as [Wl Wf].
  split; [now apply Nat.eqb_eq|]. apply Forall_forall. now apply forallb_forall.
Qed.

Lemma struct_key_inj : forall nd p fs ids p' fs' ids',
  lab_wf nd (LStruct p fs) (List.length ids) = true -> lab_wf nd (LStruct p' fs') (List.length ids') = true ->
  key_of (LStruct p fs) ids = key_of (LStruct p' fs') ids' -> p = p' /\ fs = fs' /\ ids = ids'.
Proof.
  intros nd p fs ids p' fs' ids' W W' E.
  apply wf_struct in W as (Wl & Np & Wf). apply wf_struct in W' as (Wl' & Np' & Wf').
  rewrite !key_struct in E. injection E as E. rewrite <- !app_assoc in E. cbn [app] in E.
  apply split_first in E as [E1 E]; auto. apply L_inj in E1.
  apply (join_inj c_dollar _ (fun x => fh_wf (fst x) = true) field_key_tok field_key_nonempty) in E;
    try (apply (Forall_zip_fst (fun f => fh_wf f = true)); assumption).
  apply zip_inj in E as [-> ->]; auto.
Qed.

Lemma iface_key_inj : forall nd ms ids ms' ids',
  lab_wf nd (LIface ms) (List.length ids) = true -> lab_wf nd (LIface ms') (List.length ids') = true ->
  key_of (LIface ms) ids = key_of (LIface ms') ids' -> ms = ms' /\ ids = ids'.
Proof.
  intros nd ms ids ms' ids' W W' E.
  apply wf_iface in W as [Wl Wf]. apply wf_iface in W' as [Wl' Wf'].
  rewrite !key_iface in E. injection E as E.
  apply (join_plain_inj c_dollar itok (fun x => mh_wf (fst x) = true) itok_plain itok_inj) in E;
    try (apply (Forall_zip_fst (fun m => mh_wf m = true)); assumption).
  apply zip_inj in E as [-> ->]; auto.
Qed.

Lemma func_key_inj : forall nd np v ids np' v' ids',
  lab_wf nd (LFunc np v) (List.length ids) = true -> lab_wf nd (LFunc np' v') (List.length ids') = true ->
  key_of (LFunc np v) ids = key_of (LFunc np' v') ids' -> np = np' /\ v = v' /\ ids = ids'.
Proof.
  intros nd np v ids np' v' ids' W W' E. cbn [lab_wf] in W, W'. apply Nat.leb_le in W, W'.
  rewrite !key_func in E. injection E as E. cbn [app] in E.
  assert (ND : forall l, ~ In c_dollar (join [c_comma] (map dec l))).
  { intro l. apply join_dec_no; [apply dollar_not_digit|]. intros [H|[]]. discriminate. }
  apply split_first in E as [E1 E]; auto.
  apply split_first in E as [E2 E]; auto.
  apply join_dec_inj in E1, E2; try apply comma_not_digit.
  assert (Ev : v = v') by (destruct v, v'; cbn in E; congruence || discriminate).
  assert (Ei : ids = ids') by (rewrite <- (firstn_skipn (N.to_nat np) ids), <- (firstn_skipn (N.to_nat np') ids'); congruence).
  assert (En : N.to_nat np = N.to_nat np').
  { assert (H1 := firstn_length_le ids W). assert (H2 := firstn_length_le ids' W'). congruence. }
  repeat split; auto. lia.
Qed.

Lemma dec_dollar_inj : forall a b a' b', dec a ++ [c_dollar] ++ dec b = dec a' ++ [c_dollar] ++ dec b' -> a = a' /\ b = b'.
Proof.
  intros a b a' b' E. cbn [app] in E.
  apply split_first in E as [E1 E2]; try (apply dec_no; apply dollar_not_digit).
  apply dec_inj in E1, E2. auto.
Qed.

(* each constructor has a cache of its own (channels: one per direction), so the cache tells the constructor *)
Definition cache_of (l : lab) : N :=
  match l with
  | LPtr => cPtr | LSlice => cSlice | LArray _ => cArray | LMap => cMap
  | LChan snd_ rcv => if snd_ then cSendChan else if rcv then cRecvChan else cChan
  | LFunc _ _ => cFunc | LStruct _ _ => cStruct | LIface _ => cIface
  | LBasic _ | LNamed _ => 0
  end.

Lemma key_cache : forall l ids ck, key_of l ids = Some ck -> fst ck = cache_of l.
Proof. intros l ids ck. destruct l, ids as [|a [|b [|? ?]]]; intro H; try discriminate H; now injection H as <-. Qed.

Lemma arity : forall nd l (ids : list N), lab_wf nd l (List.length ids) = true ->
  match l with
  | LPtr | LSlice | LArray _ | LChan _ _ => exists e, ids = [e]
  | LMap => exists k e, ids = [k; e]
  | _ => True
  end.
Proof.
  intros nd l ids W. destruct l; try exact I; destruct ids as [|k [|e [|? ?]]]; try discriminate W; eauto.
Qed.

Theorem key_inj : forall nd l ids l' ids' ck,
  lab_wf nd l (List.length ids) = true -> lab_wf nd l' (List.length ids') = true ->
  key_of l ids = Some ck -> key_of l' ids' = Some ck -> l = l' /\ ids = ids'.
Proof.
  intros nd l ids l' ids' ck W W' K K'.
  assert (Ec : cache_of l = cache_of l') by (now rewrite <- (key_cache _ _ _ K), <- (key_cache _ _ _ K')).
  assert (E : key_of l ids = key_of l' ids') by congruence.
  assert (A := arity _ _ _ W). assert (A' := arity _ _ _ W').
  destruct l, l'; try discriminate K; try discriminate K'; try discriminate Ec;
    try (destruct send, recv; discriminate Ec); clear K K'.
  - (* LPtr *) destruct A as [e ->], A' as [e' ->]. injection E as E. apply dec_inj in E. now subst.
  - (* LSlice *) destruct A as [e ->], A' as [e' ->]. injection E as E. apply dec_inj in E. now subst.
  - (* LArray *) destruct A as [e ->], A' as [e' ->]. injection E as E. apply dec_dollar_inj in E as [-> ->]. auto.
  - (* LMap *) destruct A as [k [e ->]], A' as [k' [e' ->]]. injection E as E. apply dec_dollar_inj in E as [-> ->]. auto.
  - (* LChan: a channel both send-only and receive-only would share the cache of the send-only one *)
    destruct A as [e ->], A' as [e' ->].
    destruct send, recv, send0, recv0; try discriminate W; try discriminate W'; try discriminate Ec;
      injection E as E; apply dec_inj in E; now subst.
  - (* LFunc *) destruct (func_key_inj nd np variadic ids np0 variadic0 ids') as [-> [-> ->]]; auto.
  - (* LStruct *) destruct (struct_key_inj nd pkg fs ids pkg0 fs0 ids') as [-> [-> ->]]; auto.
  - (* LIface *) destruct (iface_key_inj nd ms ids ms0 ids') as [-> ->]; auto.
Qed.

Lemma key_some : forall nd l ids, composite l = true -> lab_wf nd l (List.length ids) = true -> exists ck, key_of l ids = Some ck.
Proof.
  intros nd l ids C W. assert (A := arity _ _ _ W).
  destruct l; try discriminate C; try (eexists; reflexivity).
  1-3, 5: destruct A as [e ->]; eexists; reflexivity.
  destruct A as [k [e ->]]. eexists; reflexivity.
Qed.

Lemma fh_eqb_eq : forall a b, fh_eqb a b = true -> a = b.
Proof.
  intros [n e x t] [n' e' x' t'] H. unfold fh_eqb in H. cbn in H.
  apply andb_true_iff in H as [H Ht]. apply andb_true_iff in H as [H Hx]. apply andb_true_iff in H as [Hn He].
  apply String.eqb_eq in Hn, Ht. apply Bool.eqb_prop in He, Hx. subst. reflexivity.
Qed.
Lemma mh_eqb_eq : forall a b, mh_eqb a b = true -> a = b.
Proof.
  intros [n p] [n' p'] H. unfold mh_eqb in H. cbn in H. apply andb_true_iff in H as [H1 H2].
  apply String.eqb_eq in H1, H2. subst. reflexivity.
Qed.
Lemma list_eqb_sound : forall {A} (e : A -> A -> bool), (forall a b, e a b = true -> a = b) ->
  forall a b, list_eqb e a b = true -> a = b.
Proof.
  intros A e He. induction a as [|x a IH]; intros [|y b] H; cbn in H; try discriminate; auto.
  apply andb_true_iff in H as [H1 H2]. apply He in H1. apply IH in H2. subst. reflexivity.
Qed.
Lemma list_eqb_refl : forall {A} (e : A -> A -> bool), (forall a, e a a = true) -> forall a, list_eqb e a a = true.
Proof. intros A e He. induction a; cbn; auto. now rewrite He, IHa. Qed.
Lemma fh_eqb_refl : forall a, fh_eqb a a = true.
Proof. intros [n e x t]. unfold fh_eqb. cbn. now rewrite !String.eqb_refl, !Bool.eqb_reflx. Qed.
Lemma mh_eqb_refl : forall a, mh_eqb a a = true.
Proof. intros [n p]. unfold mh_eqb. cbn. now rewrite !String.eqb_refl. Qed.

Lemma lab_ident_refl : forall l, lab_ident l l = true.
Proof.
  destruct l; cbn; auto using N.eqb_refl.
  - now rewrite !Bool.eqb_reflx.
  - now rewrite N.eqb_refl, Bool.eqb_reflx.
  - rewrite (list_eqb_refl fh_eqb fh_eqb_refl), String.eqb_refl. now rewrite orb_true_r.
  - apply (list_eqb_refl mh_eqb mh_eqb_refl).
Qed.

Lemma lab_ident_eq : forall nd l l' n n', lab_wf nd l n = true -> lab_wf nd l' n' = true -> lab_ident l l' = true -> l = l'.
Proof.
  intros nd l l' n n' W W' H. destruct l, l'; try discriminate H; cbn [lab_ident] in H; auto.
  - apply N.eqb_eq in H. now subst.
  - apply N.eqb_eq in H. now subst.
  - apply N.eqb_eq in H. now subst.
  - apply andb_true_iff in H as [H1 H2]. apply Bool.eqb_prop in H1, H2. now subst.
  - apply andb_true_iff in H as [H1 H2]. apply N.eqb_eq in H1. apply Bool.eqb_prop in H2. now subst.
  - (* LStruct: identical structs may name different packages when every field is exported; a well-formed label
       then has the empty package *)
    apply andb_true_iff in H as [H1 H2]. apply (list_eqb_sound fh_eqb fh_eqb_eq) in H1. subst fs0.
    cbn [lab_wf] in W, W'. apply andb_true_iff in W as [_ W]. apply andb_true_iff in W' as [_ W'].
    apply orb_true_iff in H2 as [H2|H2].
    + rewrite H2 in W, W'. cbn in W, W'. apply String.eqb_eq in W, W'. now subst.
    + apply String.eqb_eq in H2. now subst.
  - apply (list_eqb_sound mh_eqb mh_eqb_eq) in H. now subst.
Qed.
