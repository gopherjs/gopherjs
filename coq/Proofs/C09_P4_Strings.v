(* String lemmas behind the injectivity of the typeKey strings of types.js:
   decimal ids contain only digits, splitting at the first separator, prefix-freeness of the
   `s.replace(/\\/g,"\\\\").replace(/\$/g,"\\$")` escaping, injectivity of `.join(sep)` over token classes.
   What is not about these strings in particular comes from Base/PrefixCode.v and Base/Lists.v. *)
From Coq Require Import List NArith Bool String Ascii DecimalString DecimalN Lia.
From Verif Require Import Base.Lists Base.PrefixCode Gen.C09_Kinds Model.C09_Types Model.C09_P4_Wf.
Import ListNotations.
Local Open Scope N_scope.

Lemma L_inj : forall a b, L a = L b -> a = b.
Proof.
  intros a b H. rewrite <- (string_of_list_ascii_of_string a), <- (string_of_list_ascii_of_string b).
  unfold L in H. now rewrite H.
Qed.

Lemma dec_inj : forall n m, dec n = dec m -> n = m.
Proof.
  intros n m H. apply L_inj in H.
  assert (E : NilEmpty.uint_of_string (NilEmpty.string_of_uint (N.to_uint n)) =
              NilEmpty.uint_of_string (NilEmpty.string_of_uint (N.to_uint m))) by now rewrite H.
  rewrite !NilEmpty.usu in E. injection E as E. now apply Unsigned.to_uint_inj.
Qed.

Lemma str_eqb_refl : forall a, str_eqb a a = true.
Proof. intro a. exact (proj2 (Lists.list_eqb_eq Ascii.eqb Ascii.eqb_eq a a) eq_refl). Qed.

Lemma str_eqb_eq : forall a b, str_eqb a b = true -> a = b.
Proof. intros a b. exact (proj1 (Lists.list_eqb_eq Ascii.eqb Ascii.eqb_eq a b)). Qed.

(* the comparison of (number, key) pairs used by the caches and the memo tables *)
Lemma key_eqb_eq : forall c c' k k', (c =? c') && str_eqb k k' = true -> c = c' /\ k = k'.
Proof. intros c c' k k' H. apply andb_true_iff in H as [H1 H2]. split; [now apply N.eqb_eq|now apply str_eqb_eq]. Qed.

Definition is_digit (c : ascii) : Prop :=
  In c ["0"; "1"; "2"; "3"; "4"; "5"; "6"; "7"; "8"; "9"]%char.

Lemma uint_digits : forall d c, In c (list_ascii_of_string (NilEmpty.string_of_uint d)) -> is_digit c.
Proof.
  induction d; intros c H; cbn in H; try contradiction;
    (destruct H as [H|H]; [subst; unfold is_digit; cbn; tauto | apply IHd; exact H]).
Qed.

Lemma dec_digits : forall n c, In c (dec n) -> is_digit c.
Proof. intros n c. apply uint_digits. Qed.

Lemma digit_not : forall c x, is_digit c -> ~ is_digit x -> c <> x.
Proof. intros c x H N E. subst. auto. Qed.

Lemma not_digit : forall c, (N_of_ascii c <? 48) || (57 <? N_of_ascii c) = true -> ~ is_digit c.
Proof. intros c H D. unfold is_digit in D. repeat (destruct D as [<-|D]; [discriminate H|]). exact D. Qed.

Lemma comma_not_digit : ~ is_digit c_comma. Proof. exact (not_digit c_comma eq_refl). Qed.
Lemma dollar_not_digit : ~ is_digit c_dollar. Proof. exact (not_digit c_dollar eq_refl). Qed.
Lemma bslash_not_digit : ~ is_digit c_bslash. Proof. exact (not_digit c_bslash eq_refl). Qed.

Lemma dec_no : forall x n, ~ is_digit x -> ~ In x (dec n).
Proof. intros x n N H. exact (N (dec_digits n x H)). Qed.

Lemma dec_nonempty : forall n, dec n <> [].
Proof.
  intros n H. change (@nil ascii) with (L "") in H. apply L_inj in H.
  assert (E : N.to_uint n = Decimal.Nil) by (destruct (N.to_uint n); (reflexivity || discriminate H)).
  apply (f_equal N.of_uint) in E. rewrite Unsigned.of_to in E. subst n. discriminate H.
Qed.

(* what may follow a token of a joined string: the end, or the separator [c] *)
Definition tail_ok (c : ascii) (r : str) : Prop := r = [] \/ exists t, r = c :: t.

Lemma tail_ok_head : forall c r y t, tail_ok c r -> r = y :: t -> y = c.
Proof. intros c r y t [->|[t' ->]] E; [discriminate|]. now injection E. Qed.

Lemma split_first : forall (c : ascii) a a' b b',
  ~ In c a -> ~ In c a' -> a ++ c :: b = a' ++ c :: b' -> a = a' /\ b = b'.
Proof. intros c a a' b b'. exact (delimited_split c _ _ (plain_delimited c) a a' b b'). Qed.

(* the model's [escape] (struct tags in $structType's typeKey) one character at a time: a backslash before a backslash
   and before the separator [x] *)
Definition esc1 (x c : ascii) : str := if Ascii.eqb c c_bslash || Ascii.eqb c x then [c_bslash; c] else [c].

Lemma escape_cons : forall x c s, escape x (c :: s) = esc1 x c ++ escape x s.
Proof.
  intros x c s. cbn [escape]. unfold esc1.
  destruct (Ascii.eqb_spec c c_bslash) as [->|_]; [reflexivity|]. destruct (Ascii.eqb_spec c x) as [->|_]; reflexivity.
Qed.

Lemma esc1_cases : forall x c,
  esc1 x c = [c_bslash; c] /\ (c = c_bslash \/ c = x) \/ esc1 x c = [c] /\ c <> c_bslash /\ c <> x.
Proof. intros x c. unfold esc1. destruct (Ascii.eqb_spec c c_bslash), (Ascii.eqb_spec c x); cbn; auto. Qed.

(* the code of a character is determined by its first character: a backslash announces an escaped one *)
Lemma esc1_inj : forall x c d r r', esc1 x c ++ r = esc1 x d ++ r' -> c = d /\ r = r'.
Proof.
  intros x c d r r'.
  destruct (esc1_cases x c) as [[-> _]|[-> [Hc _]]], (esc1_cases x d) as [[-> _]|[-> [Hd _]]];
    intro E; injection E as E1 E2; subst; auto; contradiction.
Qed.

(* no code begins with the separator *)
Lemma esc1_not_tail : forall x c r r', x <> c_bslash -> tail_ok x r -> r <> esc1 x c ++ r'.
Proof.
  intros x c r r' Hx Hr E.
  destruct (esc1_cases x c) as [[Ec _]|[Ec [_ Hc]]]; rewrite Ec in E; apply (tail_ok_head _ _ _ _ Hr) in E; auto.
Qed.

Lemma escape_flat_map : forall x s, escape x s = flat_map (esc1 x) s.
Proof. induction s as [|c s IH]; [reflexivity|]. rewrite escape_cons, IH. reflexivity. Qed.

Lemma esc_tok_inj : forall (x : ascii), x <> c_bslash -> forall a b r r',
  tail_ok x r -> tail_ok x r' -> escape x a ++ r = escape x b ++ r' -> a = b /\ r = r'.
Proof.
  intros x Hx a b r r' Hr Hr'. rewrite !escape_flat_map.
  apply (flat_map_delimited (esc1 x) (tail_ok x)); try assumption; try exact I.
  - intros c d u v. apply esc1_inj.
  - intros c u t Ht E. exact (esc1_not_tail x c t u Hx Ht (eq_sym E)).
Qed.

Lemma escape_inj : forall x, x <> c_bslash -> forall a b, escape x a = escape x b -> a = b.
Proof.
  intros x Hx a b E. apply (f_equal (fun l => l ++ [])) in E.
  now apply (esc_tok_inj x Hx) in E as [E _]; try (left; reflexivity).
Qed.

Lemma escape_app : forall x a b, escape x (a ++ b) = escape x a ++ escape x b.
Proof.
  induction a as [|c a IH]; intro b; [reflexivity|].
  rewrite <- app_comm_cons, !escape_cons, IH. apply app_assoc.
Qed.

Lemma escape_clean : forall x a, ~ In c_bslash a -> ~ In x a -> escape x a = a.
Proof.
  induction a as [|c a IH]; intros H1 H2; [reflexivity|].
  rewrite escape_cons, IH; [|intro; apply H1; now right|intro; apply H2; now right].
  destruct (esc1_cases x c) as [[_ [->| ->]]|[-> _]]; [exfalso; apply H1|exfalso; apply H2|reflexivity]; now left.
Qed.

Lemma escape_nonempty : forall x a, a <> [] -> escape x a <> [].
Proof.
  intros x [|c a] H E; [congruence|]. rewrite escape_cons in E.
  destruct (esc1_cases x c) as [[Ec _]|[Ec _]]; rewrite Ec in E; discriminate E.
Qed.

Lemma join_char : forall (c : ascii) xs, Model.C09_Types.join [c] xs = PrefixCode.join c xs.
Proof.
  intros c. induction xs as [|x [|y r] IH]; [reflexivity | reflexivity |].
  cbn [Model.C09_Types.join PrefixCode.join] in *. rewrite IH. reflexivity.
Qed.

(* [.map(tok).join(c)] is injective when [tok] is: a token followed by the end or by the separator determines the
   token and what follows it, and no token is empty *)
Lemma join_inj : forall {A : Type} (c : ascii) (tok : A -> str) (P : A -> Prop),
  (forall a b r r', P a -> P b -> tail_ok c r -> tail_ok c r' -> tok a ++ r = tok b ++ r' -> a = b /\ r = r') ->
  (forall a, P a -> tok a <> []) ->
  forall xs ys, Forall P xs -> Forall P ys -> join [c] (map tok xs) = join [c] (map tok ys) -> xs = ys.
Proof. intros A c tok P Htok Hne xs ys Hx Hy. rewrite !join_char. exact (join_inj_ne c tok P Htok Hne xs ys Hx Hy). Qed.

Lemma join_plain_inj : forall {A} c (tok : A -> str) (P : A -> Prop),
  (forall a, P a -> ~ In c (tok a) /\ tok a <> []) -> (forall a b, P a -> P b -> tok a = tok b -> a = b) ->
  forall xs ys, Forall P xs -> Forall P ys -> join [c] (map tok xs) = join [c] (map tok ys) -> xs = ys.
Proof.
  intros A c tok P Hp Hi. apply join_inj.
  - intros a b r r' Pa Pb Hr Hr' E. apply (plain_delimited c) in E as [E ->]; auto; apply Hp; auto.
  - intros a Pa. now apply Hp.
Qed.

Lemma join_esc_inj : forall x, x <> c_bslash -> forall xs ys,
  Forall (fun a => a <> []) xs -> Forall (fun a => a <> []) ys ->
  join [x] (map (escape x) xs) = join [x] (map (escape x) ys) -> xs = ys.
Proof.
  intros x Hx. apply join_inj.
  - intros a b r r' _ _. now apply esc_tok_inj.
  - intros a. apply escape_nonempty.
Qed.

Lemma join_dec_inj : forall c a b, ~ is_digit c -> join [c] (map dec a) = join [c] (map dec b) -> a = b.
Proof.
  intros c a b Hc. apply (join_plain_inj c dec (fun _ => True)); try (apply Forall_forall; exact (fun _ _ => I)).
  - intros n _. split; [now apply dec_no|apply dec_nonempty].
  - intros n m _ _. apply dec_inj.
Qed.

Lemma has_char_false : forall c s, has_char c s = false -> ~ In c (L s).
Proof. intros c s. exact (proj1 (Lists.existsb_eqb_not_In Ascii.eqb Ascii.eqb_eq c (L s))). Qed.

Lemma clean_no : forall s, clean s = true -> ~ In c_comma (L s) /\ ~ In c_dollar (L s) /\ ~ In c_bslash (L s).
Proof.
  intros s H. unfold clean in H. apply andb_true_iff in H as [H H3]. apply andb_true_iff in H as [H1 H2].
  apply negb_true_iff in H1, H2, H3. repeat split; now apply has_char_false.
Qed.

Lemma in_join : forall (x : ascii) sep xs, In x (join sep xs) -> In x sep \/ exists y, In y xs /\ In x y.
Proof.
  intros x sep. induction xs as [|a xs IH]; intro H; [contradiction|].
  destruct xs as [|b r].
  - cbn in H. right. exists a. split; [now left|exact H].
  - change (join sep (a :: b :: r)) with (a ++ sep ++ join sep (b :: r)) in H.
    apply in_app_or in H as [H|H]; [right; exists a; split; [now left|exact H]|].
    apply in_app_or in H as [H|H]; [now left|].
    destruct (IH H) as [H1|[y [Hy1 Hy2]]]; [now left|]. right. exists y. split; [now right|exact Hy2].
Qed.

Lemma join_dec_no : forall x sep ids, ~ is_digit x -> ~ In x sep -> ~ In x (join sep (map dec ids)).
Proof.
  intros x sep ids Hd Hs H. apply in_join in H as [H|[y [Hy1 Hy2]]]; [auto|].
  apply in_map_iff in Hy1 as [n [<- _]]. eapply dec_no; eauto.
Qed.
