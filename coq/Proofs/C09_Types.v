(* C09 - lemmas.  Canonicalisation reads three of the flags only ([same_keys]).  (1) the memo tables of $assertType: for EVERY history of earlier assertions the answer equals
   the memo-free answer when the memo key [tkey] is injective, as it is with [fx_memo = true] (the key is the type id;
   induction over histories), and a witness history that refutes it with [fx_memo = false] (the key is the type
   string); hence a probe script is answered probe by probe ([run_impl_probe_by_probe]);  (2) witnesses refuting identity /
   method-set correctness, one per defect class;  (3) finite domains: canonicalisation vs [identical] over [dom], an
   instance of the theorem for all well-formed terms (C09_P4_Ident.v); the families [mset_fams] and the predicates
   [fam_clean] that keep a family outside the four recorded $methodSet classes (the theorems about them:
   C09_Mset.v, C09_Mset_Fams.v). *)
From Coq Require Import List NArith Bool String Ascii DecimalString DecimalN Lia.
From Verif Require Import Proofs.C09_P4_Strings Proofs.C09_P4_Keys Proofs.C09_P4_Canon Proofs.C09_P4_Ident.
From Verif Require Import Gen.C09_Kinds Model.C09_Types Corr.C09_Eval Model.C09_P4_Wf.
Import ListNotations.
Local Open Scope N_scope.

(* The flags reach [canon], [canon_list] and [load_env] through [struct_key] only, which reads fx_emb, fx_pkg and fx_tag. *)
Definition same_keys (a b : flags) : Prop := fx_emb a = fx_emb b /\ fx_pkg a = fx_pkg b /\ fx_tag a = fx_tag b.

Section SameKeys.
  Variables a b : flags.
  Hypothesis K : same_keys a b.

  Lemma node_of_keys : forall s l ids, node_of a s l ids = node_of b s l ids.
  Proof. destruct K as (E1 & E2 & E3). intros. unfold node_of, struct_key, field_key. rewrite E1, E2, E3. reflexivity. Qed.

  Lemma canon_keys : forall t s, canon a t s = canon b t s.
  Proof.
    induction t as [l cs IH] using ty_ind'. intro s. rewrite !canon_unfold.
    assert (E : canon_list a cs s = canon_list b cs s).
    { revert s. induction IH as [|x r Hx _ IHr]; intro s; cbn [canon_list]; [reflexivity|]. rewrite Hx.
      destruct (canon b x s) as [i s']. rewrite IHr. reflexivity. }
    rewrite E. destruct (canon_list b cs s) as [ids s1]. rewrite node_of_keys. reflexivity.
  Qed.

  Lemma canon_list_keys : forall ts s, canon_list a ts s = canon_list b ts s.
  Proof.
    induction ts as [|x r IH]; intro s; cbn [canon_list]; [reflexivity|]. rewrite canon_keys.
    destruct (canon b x s) as [i s']. rewrite IH. reflexivity.
  Qed.

  Lemma load_env_keys : forall ds, load_env a ds = load_env b ds.
  Proof.
    intro ds. unfold load_env. generalize (declare ds init_st). induction (number 0 ds) as [|[dn d] r IH]; intro s; [reflexivity|].
    cbn [fold_left]. rewrite <- IH. f_equal. unfold init_decl. destruct (d_under d) as [l cs].
    rewrite canon_list_keys. destruct (canon_list b cs s) as [ids s1]. rewrite node_of_keys, canon_list_keys. reflexivity.
  Qed.
End SameKeys.

(* the memo-free answer: what $assertType computes when both tables are empty *)
Definition pure_assert (fl : flags) (s : st) (c t : N) : bool * string := fst (assert_impl fl s c t memo0).

Definition run_hist (fl : flags) (s : st) (hist : list (N * N)) (m : memo) : memo :=
  fold_left (fun m0 ct => snd (assert_impl fl s (fst ct) (snd ct) m0)) hist m.

Definition memo_inv (fl : flags) (s : st) (m : memo) : Prop :=
  forall c t, fst (assert_impl fl s c t m) = pure_assert fl s c t.

Lemma memo_inv0 : forall fl s, memo_inv fl s memo0.
Proof. intros fl s c t. reflexivity. Qed.

Definition is_if (s : st) (t : N) : bool := r_kind (get s t) =? kindInterface.
(* The two tables read as one partial map from (interface, key) to answers: [reply] looks an answer up,
   [record] enters one; $assertType computes [fresh] on a miss and records it. *)
Definition reply (m : memo) (t : N) (k : str) : option (bool * string) :=
  option_map (fun ok : bool => (ok, if ok then ""%string else match lookup_memo t k (m_miss m) with Some x => x | None => ""%string end))
             (lookup_memo t k (m_impl m)).
Definition record (m : memo) (t : N) (k : str) (a : bool * string) : memo :=
  if fst a then Build_memo ((t, k, true) :: m_impl m) (m_miss m)
  else Build_memo ((t, k, false) :: m_impl m) ((t, k, snd a) :: m_miss m).
(* [fresh]: does the method set of [c] cover interface [t], and if not, the first method of [t] it lacks *)
Definition fresh (fl : flags) (s : st) (c t : N) : bool * string :=
  match find (fun tm => negb (existsb (fun vm => meth_match vm tm) (mset_impl fl s c))) (iface_methods s t) with
  | Some tm => (false, rm_name tm)
  | None => (true, ""%string)
  end.

Lemma assert_impl_eq : forall fl s c t m, assert_impl fl s c t m =
  if negb (is_if s t) then ((c =? t, ""%string), m) else
  match reply m t (tkey fl s c) with
  | Some a => (a, m)
  | None => (fresh fl s c t, record m t (tkey fl s c) (fresh fl s c t))
  end.
Proof.
  intros. unfold assert_impl, reply, fresh, is_if.
  destruct (negb (r_kind (get s t) =? kindInterface)); [reflexivity|].
  destruct (lookup_memo t (tkey fl s c) (m_impl m)); [reflexivity|].
  destruct (find _ (iface_methods s t)); reflexivity.
Qed.

Lemma fresh_ok_no_missing : forall fl s c t, fst (fresh fl s c t) = true -> snd (fresh fl s c t) = ""%string.
Proof. intros fl s c t. unfold fresh. destruct (find _ _); [discriminate|reflexivity]. Qed.

Lemma lookup_memo_cons : forall A t k t0 k0 (v : A) r,
  lookup_memo t k ((t0, k0, v) :: r) = if (t =? t0) && str_eqb k k0 then Some v else lookup_memo t k r.
Proof. reflexivity. Qed.

Lemma reply_record : forall m t0 k0 a t k, (fst a = true -> snd a = ""%string) ->
  reply (record m t0 k0 a) t k = if (t =? t0) && str_eqb k k0 then Some a else reply m t k.
Proof.
  intros m t0 k0 [[|] x] t k H; unfold reply, record; cbn [fst snd m_impl m_miss]; rewrite !lookup_memo_cons;
    destruct ((t =? t0) && str_eqb k k0); try reflexivity.
  cbn in H. now rewrite H.
Qed.

Lemma pure_fresh : forall fl s c t, is_if s t = true -> pure_assert fl s c t = fresh fl s c t.
Proof. intros fl s c t H. unfold pure_assert. rewrite assert_impl_eq, H. reflexivity. Qed.

Lemma memo_step : forall fl s,
  (forall c c', tkey fl s c = tkey fl s c' -> c = c') ->
  forall m c0 t0, memo_inv fl s m -> memo_inv fl s (snd (assert_impl fl s c0 t0 m)).
Proof.
  intros fl s Hinj m c0 t0 HP. rewrite assert_impl_eq.
  destruct (is_if s t0) eqn:Ek0; [|exact HP]. destruct (reply m t0 (tkey fl s c0)); [exact HP|]. cbn [negb snd].
  (* a later question either does not meet the new entry or, the key being injective, is the one just answered *)
  intros c t. specialize (HP c t). rewrite assert_impl_eq in *.
  destruct (negb (is_if s t)); [exact HP|]. rewrite reply_record by apply fresh_ok_no_missing.
  destruct ((t =? t0) && str_eqb (tkey fl s c) (tkey fl s c0)) eqn:Ec; [|destruct (reply m t (tkey fl s c)); exact HP].
  apply key_eqb_eq in Ec as [-> Ec]. apply Hinj in Ec as ->. symmetry. now apply pure_fresh.
Qed.

(* For every history of earlier assertions the answer is the memo-free answer - provided the memo key identifies the
   dynamic type.  The type id does ([tkey_inj_repaired]); the type string, the key with [fx_memo = false], does not
   ([memo_history_refuted]). *)
Theorem assert_history : forall fl s,
  (forall c c', tkey fl s c = tkey fl s c' -> c = c') ->
  forall hist c t, fst (assert_impl fl s c t (run_hist fl s hist memo0)) = pure_assert fl s c t.
Proof.
  intros fl s Hinj hist.
  assert (H : forall m, memo_inv fl s m -> memo_inv fl s (run_hist fl s hist m)).
  { induction hist as [|[c0 t0] r IH]; intros m Hm; cbn; [exact Hm|]. apply IH. now apply memo_step. }
  exact (H memo0 (memo_inv0 fl s)).
Qed.

(* [fx_memo = true] makes [tkey] the decimal numeral of the type id *)
Lemma tkey_inj_repaired : forall fl s, fx_memo fl = true -> forall c c', tkey fl s c = tkey fl s c' -> c = c'.
Proof. intros fl s H c c' E. unfold tkey in E. rewrite H in E. now apply dec_inj. Qed.

(* struct{T} against struct{T T}: not identical, the same key when the key leaves out the embedded flag *)
Definition wit_emb : family :=
  {| f_decls := [Build_decl "main.T"%string "main"%string (T (LStruct ""%string []) []) []];
  f_univ := [T (LStruct ""%string [Build_fhdr "T"%string true true ""%string]) [T (LNamed 0) []];
    T (LStruct ""%string [Build_fhdr "T"%string false true ""%string]) [T (LNamed 0) []]];
  f_probes := [PIdent 0 1] |}.

(* struct{a int} written in package main and in package q: not identical, the same key when the key leaves out the
   package of unexported names *)
Definition wit_pkg : family :=
  {| f_decls := [];
  f_univ := [T (LStruct "main"%string [Build_fhdr "a"%string false false ""%string]) [T (LBasic 1) []];
    T (LStruct "verifprog/q"%string [Build_fhdr "a"%string false false ""%string]) [T (LBasic 1) []]];
  f_probes := [PIdent 0 1] |}.

(* struct{A int "t"; B int} against one-field structs whose tag spells the rest of that key: an unescaped $ in a tag
   reads as the field separator *)
Definition wit_tag : family :=
  {| f_decls := [];
  f_univ := [T (LStruct ""%string [Build_fhdr "A"%string false true "t"%string; Build_fhdr "B"%string false true ""%string]) [T (LBasic 1) []; T (LBasic 1) []];
    T (LStruct ""%string [Build_fhdr "A"%string false true "t$B,1,"%string]) [T (LBasic 1) []];
    T (LStruct ""%string [Build_fhdr "A"%string false true "t,0$B,1,"%string]) [T (LBasic 1) []]];
  f_probes := [PIdent 0 1; PIdent 0 2] |}.

(* two distinct types that both print as main.L (local types of two functions); the first has M through L1, the second
   has no method: asserted to interface{M()} one after the other, the second is answered from the entry of the first *)
Definition wit_memo : family :=
  {| f_decls := [Build_decl "main.L1"%string "main"%string (T (LStruct ""%string []) []) [Build_meth "M"%string ""%string (T (LFunc 0 false) []) false];
    Build_decl "main.L"%string "main"%string (T (LStruct ""%string [Build_fhdr "L1"%string true true ""%string]) [T (LNamed 0) []]) [];
    Build_decl "main.L"%string "main"%string (T (LStruct "main"%string [Build_fhdr "x"%string false false ""%string]) [T (LBasic 1) []]) []];
  f_univ := [T (LNamed 1) [];
    T (LNamed 2) [];
    T (LIface [Build_mhdr "M"%string ""%string]) [T (LFunc 0 false) []]];
  f_probes := [PAssert 0 2; PAssert 1 2] |}.

(* type S struct{A; B} with A.M and B.M at the same depth: S has no M in Go, $methodSet keeps the first *)
Definition wit_ambig : family :=
  {| f_decls := [Build_decl "main.A"%string "main"%string (T (LStruct ""%string []) []) [Build_meth "M"%string ""%string (T (LFunc 0 false) []) false];
    Build_decl "main.B"%string "main"%string (T (LStruct ""%string []) []) [Build_meth "M"%string ""%string (T (LFunc 0 false) []) false];
    Build_decl "main.S"%string "main"%string (T (LStruct ""%string [Build_fhdr "A"%string true true ""%string; Build_fhdr "B"%string true true ""%string]) [T (LNamed 0) []; T (LNamed 1) []]) []];
  f_univ := [T (LNamed 2) [];
    T (LIface [Build_mhdr "M"%string ""%string]) [T (LFunc 0 false) []]];
  f_probes := [PAssert 0 1] |}.

(* type FS struct{A; M int}: the field M hides the promoted A.M in Go, $methodSet does not look at fields *)
Definition wit_field : family :=
  {| f_decls := [Build_decl "main.A"%string "main"%string (T (LStruct ""%string []) []) [Build_meth "M"%string ""%string (T (LFunc 0 false) []) false];
    Build_decl "main.FS"%string "main"%string (T (LStruct ""%string [Build_fhdr "A"%string true true ""%string; Build_fhdr "M"%string false true ""%string]) [T (LNamed 0) []; T (LBasic 1) []]) []];
  f_univ := [T (LNamed 1) [];
    T (LIface [Build_mhdr "M"%string ""%string]) [T (LFunc 0 false) []]];
  f_probes := [PAssert 0 1] |}.

(* type S struct{q.Q; B}: q's m on Q at depth 1, main's m on A at depth 2 through B: two different names in Go, so S has
   main's m; keyed by the bare name, the shallower q.m hides it *)
Definition wit_mpkg : family :=
  {| f_decls := [Build_decl "q.Q"%string "verifprog/q"%string (T (LStruct ""%string []) []) [Build_meth "m"%string "verifprog/q"%string (T (LFunc 0 false) []) false];
    Build_decl "main.A"%string "main"%string (T (LStruct ""%string []) []) [Build_meth "m"%string "main"%string (T (LFunc 0 false) []) false];
    Build_decl "main.B"%string "main"%string (T (LStruct ""%string [Build_fhdr "A"%string true true ""%string]) [T (LNamed 1) []]) [];
    Build_decl "main.S"%string "main"%string (T (LStruct ""%string [Build_fhdr "Q"%string true true ""%string; Build_fhdr "B"%string true true ""%string]) [T (LNamed 0) []; T (LNamed 2) []]) []];
  f_univ := [T (LNamed 3) [];
    T (LIface [Build_mhdr "m"%string "main"%string]) [T (LFunc 0 false) []]];
  f_probes := [PAssert 0 1] |}.

(* type S struct{A; C}: M with pointer receiver on A at depth 1, B.M at depth 2 through C: the selector M of S means
   A's M, so the method set of S has no M in Go; $methodSet skips the pointer-receiver method and finds B.M *)
Definition wit_pshadow : family :=
  {| f_decls := [Build_decl "main.A"%string "main"%string (T (LStruct ""%string []) []) [Build_meth "M"%string ""%string (T (LFunc 0 false) []) true];
    Build_decl "main.B"%string "main"%string (T (LStruct ""%string []) []) [Build_meth "M"%string ""%string (T (LFunc 0 false) []) false];
    Build_decl "main.C"%string "main"%string (T (LStruct ""%string [Build_fhdr "B"%string true true ""%string]) [T (LNamed 1) []]) [];
    Build_decl "main.S"%string "main"%string (T (LStruct ""%string [Build_fhdr "A"%string true true ""%string; Build_fhdr "C"%string true true ""%string]) [T (LNamed 0) []; T (LNamed 2) []]) []];
  f_univ := [T (LNamed 3) [];
    T (LIface [Build_mhdr "M"%string ""%string]) [T (LFunc 0 false) []]];
  f_probes := [PAssert 0 1] |}.

(* type CD struct{C; D} where C and D both embed A: A.M is reached twice at depth 2, so CD has no M in Go; `seen` lets
   $methodSet visit A once *)
Definition wit_diamond : family :=
  {| f_decls := [Build_decl "main.A"%string "main"%string (T (LStruct ""%string []) []) [Build_meth "M"%string ""%string (T (LFunc 0 false) []) false];
    Build_decl "main.C"%string "main"%string (T (LStruct ""%string [Build_fhdr "A"%string true true ""%string]) [T (LNamed 0) []]) [];
    Build_decl "main.D"%string "main"%string (T (LStruct ""%string [Build_fhdr "A"%string true true ""%string]) [T (LNamed 0) []]) [];
    Build_decl "main.CD"%string "main"%string (T (LStruct ""%string [Build_fhdr "C"%string true true ""%string; Build_fhdr "D"%string true true ""%string]) [T (LNamed 1) []; T (LNamed 2) []]) []];
  f_univ := [T (LNamed 3) [];
    T (LIface [Build_mhdr "M"%string ""%string]) [T (LFunc 0 false) []]];
  f_probes := [PAssert 0 1] |}.

(* type S struct{I} with the named interface I{M()}: the methods of I enter the level twice, so that counting names
   (the repair of the same-depth ambiguity) would find M ambiguous *)
Definition wit_ifdup : family :=
  {| f_decls := [Build_decl "main.I"%string "main"%string (T (LIface [Build_mhdr "M"%string ""%string]) [T (LFunc 0 false) []]) [];
    Build_decl "main.S"%string "main"%string (T (LStruct ""%string [Build_fhdr "I"%string true true ""%string]) [T (LNamed 0) []]) []];
  f_univ := [T (LNamed 1) [];
    T (LNamed 0) []];
  f_probes := [PAssert 0 1] |}.

Definition differs (fl : flags) (f : family) : bool :=
  match diff_from 0 (run_impl fl f) (run_spec f) with [] => false | _ => true end.
(* everything repaired except one class *)
Definition only_emb := Build_flags false true true true true true true true true true.
Definition only_pkg := Build_flags true false true true true true true true true true.
Definition only_tag := Build_flags true true false true true true true true true true.
Definition only_memo := Build_flags true true true false true true true true true true.
Definition only_ambig := Build_flags true true true true false true true true true true.
Definition only_field := Build_flags true true true true true false true true true true.
Definition only_mpkg := Build_flags true true true true true true false true true true.
Definition only_pshadow := Build_flags true true true true true true true false true true.
Definition only_diamond := Build_flags true true true true true true true true false true.
Definition only_ifdup := Build_flags true true true true true true true true true false.
(* a second name for [flags_current]: struct key (embedded, package, tag), memo keys and same-depth ambiguity repaired *)
Definition flags_patched := flags_current.

Lemma witnesses_refute_asis :
  map (differs flags_asis) [wit_emb; wit_pkg; wit_tag; wit_memo; wit_ambig; wit_field; wit_mpkg; wit_pshadow; wit_diamond]
  = [true; true; true; true; true; true; true; true; true].
Proof. vm_compute. reflexivity. Qed.

Lemma witnesses_refute_single_class :
  [differs only_emb wit_emb; differs only_pkg wit_pkg; differs only_tag wit_tag; differs only_memo wit_memo;
   differs only_ambig wit_ambig; differs only_field wit_field; differs only_mpkg wit_mpkg;
   differs only_pshadow wit_pshadow; differs only_diamond wit_diamond; differs only_ifdup wit_ifdup]
  = [true; true; true; true; true; true; true; true; true; true].
Proof. vm_compute. reflexivity. Qed.

Lemma witnesses_hold_repaired :
  map (differs flags_fixed) [wit_emb; wit_pkg; wit_tag; wit_memo; wit_ambig; wit_field; wit_mpkg; wit_pshadow; wit_diamond; wit_ifdup]
  = [false; false; false; false; false; false; false; false; false; false].
Proof. vm_compute. reflexivity. Qed.

Fixpoint sublists {A} (l : list A) : list (list A) :=
  match l with [] => [[]] | x :: r => let s := sublists r in s ++ map (cons x) s end.
Definition tuples_le2 {A} (l : list A) : list (list A) :=
  [[]] ++ map (fun x => [x]) l ++ flat_map (fun x => map (fun y => [x; y]) l) l.

(* canonicalisation: two declarations that PRINT ALIKE (main.L twice), leaves int/string/L/L', every type of
   constructor depth 1 over them (pointers, slices, arrays of 2 lengths, 3 channel directions, maps, functions with
   <= 2 parameters and <= 1 result, structs with <= 2 fields over names A/a x embedded x tags ""/"$"/colliding x
   package main/q, interfaces with <= 2 of the methods M, m@main, m@q) plus a layer of depth 2. *)
Definition dom_env : list decl :=
  [Build_decl "main.L" "main" (T (LStruct "" []) []) []; Build_decl "main.L" "main" (T (LStruct "" []) []) []].
Definition leaves : list ty := [T (LBasic 1) []; T (LBasic 16) []; T (LNamed 0) []; T (LNamed 1) []].
Definition fhdrs : list fhdr :=
  flat_map (fun n => flat_map (fun e => map (fun tg => Build_fhdr (fst n) e (snd n) tg) [""%string; "$"%string; "t,0$a,1,,0"%string]) [false; true])
           [("A"%string, true); ("a"%string, false)].
Definition struct_of (fs : list (fhdr * ty)) : list ty :=
  if forallb (fun x => fh_exp (fst x)) fs then [T (LStruct "" (map fst fs)) (map snd fs)]
  else [T (LStruct "main" (map fst fs)) (map snd fs); T (LStruct "verifprog/q" (map fst fs)) (map snd fs)].
Definition sig0 : ty := T (LFunc 0 false) [].
Definition sig1 : ty := T (LFunc 0 false) [T (LBasic 1) []].
Definition imeths : list (mhdr * ty) :=
  [(Build_mhdr "M" "", sig0); (Build_mhdr "M" "", sig1); (Build_mhdr "m" "main", sig0); (Build_mhdr "m" "verifprog/q", sig0)].
Definition depth1 (lv : list ty) : list ty :=
  map (fun x => T LPtr [x]) lv ++ map (fun x => T LSlice [x]) lv ++
  map (fun x => T (LArray 1) [x]) lv ++ map (fun x => T (LArray 2) [x]) lv ++
  flat_map (fun x => [T (LChan false false) [x]; T (LChan true false) [x]; T (LChan false true) [x]]) lv ++
  flat_map (fun k => map (fun e => T LMap [k; e]) lv) lv ++
  flat_map (fun ps => map (fun rs => T (LFunc (N.of_nat (List.length ps)) false) (ps ++ rs)) ([[]] ++ map (fun x => [x]) lv)) (tuples_le2 lv) ++
  flat_map struct_of (tuples_le2 (flat_map (fun h => map (fun t => (h, t)) (firstn 1 (skipn 2 lv))) fhdrs)) ++
  map (fun ms => T (LIface (map fst ms)) (map snd ms)) (tuples_le2 imeths).
Definition dom1 : list ty := depth1 leaves.
(* depth 2: wrappers around a sample of depth-1 types (every 7th), incl. variadic functions over slices *)
Fixpoint every (k n : nat) {A} (l : list A) : list A :=
  match l with [] => [] | x :: r => match n with O => x :: every k k r | S n' => every k n' r end end.
Definition dom2 : list ty :=
  let smp := every 6 0 dom1 in
  map (fun x => T LPtr [x]) smp ++ map (fun x => T LSlice [x]) smp ++
  map (fun x => T (LStruct "" [Build_fhdr "F" false true ""]) [x]) smp ++
  map (fun x => T (LFunc 1 true) [T LSlice [x]]) smp ++ map (fun x => T (LFunc 1 false) [T LSlice [x]]) smp.
Definition dom : list ty := leaves ++ dom1 ++ dom2.

Definition canon_agree (fl : flags) (env : list decl) (d : list ty) : bool :=
  let ids := fst (canon_list fl d (load_env fl env)) in
  let z := zip ids d in
  forallb (fun x => forallb (fun y => Bool.eqb (fst x =? fst y) (identical (snd x) (snd y))) z) z.

Lemma canon_agree_keys : forall a b env d, same_keys a b -> canon_agree a env d = canon_agree b env d.
Proof. intros a b env d K. unfold canon_agree. rewrite (load_env_keys a b K), (canon_list_keys a b K). reflexivity. Qed.

(* over well-formed terms the comparison of all pairs is the identity theorem, in any order of canonicalisation *)
Lemma canon_agree_wf : forall env d, forallb (wfb (N.of_nat (List.length env))) d = true -> canon_agree flags_current env d = true.
Proof.
  intros env d W. unfold canon_agree. destruct (canon_list flags_current d (load_env flags_current env)) as [ids s] eqn:E. cbn [fst].
  apply forallb_forall. intros x Hx. apply forallb_forall. intros y Hy.
  pose proof (canon_pairs env d ids s W E x y Hx Hy) as U.
  destruct (N.eqb_spec (fst x) (fst y)) as [e|n], (identical (snd x) (snd y)) eqn:Ei; try reflexivity; exfalso.
  - apply U in e. discriminate e.
  - apply n, U. reflexivity.
Qed.

Lemma dom_wf : forallb (wfb (N.of_nat (List.length dom_env))) dom = true /\
               forallb (wfb (N.of_nat (List.length dom_env))) (rev dom) = true.
Proof. vm_compute. split; reflexivity. Qed.

Lemma canon_agree_current : canon_agree flags_current dom_env dom = true /\ canon_agree flags_current dom_env (rev dom) = true.
Proof. exact (conj (canon_agree_wf dom_env dom (proj1 dom_wf)) (canon_agree_wf dom_env (rev dom) (proj2 dom_wf))). Qed.

(* flags_fixed and flags_current differ in method-set flags only *)
Lemma canon_agree_dom : canon_agree flags_fixed dom_env dom = true /\ canon_agree flags_fixed dom_env (rev dom) = true /\
                        canon_agree flags_patched dom_env dom = true.
Proof.
  destruct canon_agree_current as [H1 H2].
  rewrite !(canon_agree_keys flags_fixed flags_current) by (repeat split). exact (conj H1 (conj H2 H1)).
Qed.

Lemma dom_size : (500 <=? N.of_nat (List.length dom)) = true.
Proof. vm_compute. reflexivity. Qed.

Lemma canon_agree_spec : forall (fl : flags) env d, canon_agree fl env d = true ->
  forall x y, In x (zip (fst (canon_list fl d (load_env fl env))) d) -> In y (zip (fst (canon_list fl d (load_env fl env))) d) ->
  (fst x = fst y <-> identical (snd x) (snd y) = true).
Proof.
  intros fl env d H x y Hx Hy. unfold canon_agree in H.
  rewrite forallb_forall in H. specialize (H x Hx). rewrite forallb_forall in H. specialize (H y Hy).
  apply Bool.eqb_prop in H. rewrite <- H. symmetry. apply N.eqb_eq.
Qed.

(* method sets and assertions: four struct types T0..T3; T1 embeds a subset of {T0, *T0}, T2 of {T0,*T0,T1,*T1},
   T3 of {T0,*T0,T1,*T1,T2,*T2} (never both T and *T); T0 and T1 have no method / M with value receiver / M with pointer
   receiver, T2 no method / M value; T2 optionally has a FIELD named M.  For each family the method sets of T2, *T2, T3,
   *T3 (with owners) and their assertion to interface{M()} are compared. *)
Definition mM (p : bool) : meth := Build_meth "M" "" sig0 p.
Definition emb_opts (k : nat) : list (list (fhdr * ty)) :=
  let names := ["T0"%string; "T1"%string; "T2"%string] in
  let one := fun i => [[]; [(Build_fhdr (nth i names ""%string) true true "", T (LNamed (N.of_nat i)) [])];
                        [(Build_fhdr (nth i names ""%string) true true "", T LPtr [T (LNamed (N.of_nat i)) []])]] in
  fold_left (fun acc i => flat_map (fun a => map (fun o => a ++ o) (one i)) acc) (seq 0 k) [[]].
Definition mk_struct (fs : list (fhdr * ty)) : ty := T (LStruct "" (map fst fs)) (map snd fs).
Definition meth_opts3 : list (list meth) := [[]; [mM false]; [mM true]].
(* the last probe repeats [PAssert 2 4]: the one assertion of the script that is answered from the memo tables *)
Definition fam_of (e1 e2 e3 : list (fhdr * ty)) (m0 m1 m2 : list meth) (fld : bool) : family :=
  Build_family
    [Build_decl "main.T0" "main" (mk_struct []) m0;
     Build_decl "main.T1" "main" (mk_struct e1) m1;
     Build_decl "main.T2" "main" (mk_struct (e2 ++ if fld then [(Build_fhdr "M" false true "", T (LBasic 1) [])] else [])) m2;
     Build_decl "main.T3" "main" (mk_struct e3) []]
    [T (LNamed 2) []; T LPtr [T (LNamed 2) []]; T (LNamed 3) []; T LPtr [T (LNamed 3) []];
     T (LIface [Build_mhdr "M" ""]) [sig0]]
    [PMset 0; PMset 1; PMset 2; PMset 3; PAssert 0 4; PAssert 1 4; PAssert 2 4; PAssert 3 4; PAssert 2 4].
Definition mset_fams : list family :=
  flat_map (fun e1 => flat_map (fun e2 => flat_map (fun e3 =>
  flat_map (fun m0 => flat_map (fun m1 => flat_map (fun m2 =>
    (if match m2 with [] => true | _ => false end then [fam_of e1 e2 e3 m0 m1 m2 true] else []) ++ [fam_of e1 e2 e3 m0 m1 m2 false])
    [[]; [mM false]]) meth_opts3) meth_opts3) (emb_opts 3)) (emb_opts 2)) (emb_opts 1).

(* the memo defect as a statement about histories *)
Lemma memo_history_refuted :
  let s := snd (canon_list flags_asis (f_univ wit_memo) (load_env flags_asis (f_decls wit_memo))) in
  let ids := fst (canon_list flags_asis (f_univ wit_memo) (load_env flags_asis (f_decls wit_memo))) in
  let c1 := nthN 0 ids 0 in let c2 := nthN 1 ids 0 in let t := nthN 2 ids 0 in
  c1 <> c2 /\
  fst (assert_impl flags_asis s c2 t (run_hist flags_asis s [(c1, t)] memo0)) <> pure_assert flags_asis s c2 t.
Proof. vm_compute. split; discriminate. Qed.

(* identity refutations, stated on canon directly *)
Definition canon2 (fl : flags) (env : list decl) (a b : ty) : N * N :=
  let '(i, s1) := canon fl a (load_env fl env) in let '(j, _) := canon fl b s1 in (i, j).

Lemma canon_refuted_emb : let a := nthN 0 (f_univ wit_emb) (T (LBasic 0) []) in let b := nthN 1 (f_univ wit_emb) (T (LBasic 0) []) in
  fst (canon2 flags_asis (f_decls wit_emb) a b) = snd (canon2 flags_asis (f_decls wit_emb) a b) /\ identical a b = false.
Proof. vm_compute. split; reflexivity. Qed.
Lemma canon_refuted_pkg : let a := nthN 0 (f_univ wit_pkg) (T (LBasic 0) []) in let b := nthN 1 (f_univ wit_pkg) (T (LBasic 0) []) in
  fst (canon2 flags_asis [] a b) = snd (canon2 flags_asis [] a b) /\ identical a b = false.
Proof. vm_compute. split; reflexivity. Qed.
Lemma canon_refuted_tag : let a := nthN 0 (f_univ wit_tag) (T (LBasic 0) []) in let b := nthN 1 (f_univ wit_tag) (T (LBasic 0) []) in
  fst (canon2 flags_asis [] a b) = snd (canon2 flags_asis [] a b) /\ identical a b = false.
Proof. vm_compute. split; reflexivity. Qed.

Lemma iface_eq_types_differ : forall s c c' a b, c <> c' -> iface_eq_impl s (VIface c a) (VIface c' b) = Some false.
Proof. intros. cbn. apply N.eqb_neq in H. now rewrite H. Qed.
Lemma iface_eq_uncomparable : forall s c a b, r_comparable (get s c) = false -> iface_eq_impl s (VIface c a) (VIface c b) = None.
Proof. intros. cbn. rewrite N.eqb_refl, H. reflexivity. Qed.
Lemma iface_eq_nil : forall s, iface_eq_impl s VNil VNil = Some true /\ forall c a, iface_eq_impl s VNil (VIface c a) = Some false.
Proof. intros. split; reflexivity. Qed.

(* Families outside the four recorded $methodSet classes, as computable predicates on the Go side:
   no same-depth diamond and no pointer-receiver method reached without indirection along the embedding levels of
   any type of the universe; no field named like a method; no method name used with two different packages. *)
Definition blockers_free (env : list decl) (cur : list sent) : bool :=
  forallb (fun e => match se_ty e with
                    | T (LNamed d) _ => forallb (fun m => negb (me_ptr m && negb (se_ind e))) (d_meths (nthN d env decl0))
                    | _ => true end) cur.
Fixpoint nodup_ty (l : list ty) : bool :=
  match l with [] => true | x :: r => negb (existsb (identical x) r) && nodup_ty r end.
Fixpoint levels_clean (env : list decl) (fuel : nat) (cur : list sent) (seen : list ty) : bool :=
  match fuel with
  | O => true
  | S f =>
      let cur' := filter (fun e => negb (existsb (identical (se_ty e)) seen)) cur in
      match cur' with
      | [] => true
      | _ => nodup_ty (map se_ty cur') && blockers_free env cur' &&
             levels_clean env f (flat_map fst (map (spec_entry env) cur')) (map se_ty cur' ++ seen)
      end
  end.
Definition type_clean (env : list decl) (t : ty) : bool :=
  match t with
  | T LPtr [x] => levels_clean env (S (S (List.length env))) [Build_sent x true] []
  | _ => levels_clean env (S (S (List.length env))) [Build_sent t false] []
  end.
Definition meth_names (env : list decl) : list (string * string) :=
  flat_map (fun d => map (fun m => (me_name m, me_pkg m)) (d_meths d) ++
                     match d_under d with T (LIface ms) _ => map (fun m => (mh_name m, mh_pkg m)) ms | _ => [] end) env.
Definition fields_clean (env : list decl) : bool :=
  forallb (fun d => match d_under d with
                    | T (LStruct _ fs) _ => forallb (fun f => negb (existsb (fun n => String.eqb (fst n) (fh_name f)) (meth_names env))) fs
                    | _ => true end) env.
Definition mpkg_clean (env : list decl) : bool :=
  forallb (fun a => forallb (fun b => negb (String.eqb (fst a) (fst b)) || String.eqb (snd a) (snd b)) (meth_names env)) (meth_names env).
Definition fam_clean (f : family) : bool :=
  fields_clean (f_decls f) && mpkg_clean (f_decls f) && forallb (type_clean (f_decls f)) (f_univ f).

(* what the run-time answers to a probe that is asked first, when no memo entry can be met, and what Go answers *)
Definition answer (fl : flags) (s : st) (ids : list N) (p : probe) : ans :=
  hd ASkip (fst (step_impl fl s ids ([], memo0) p)).
Definition spec_answer (env : list decl) (univ : list ty) (p : probe) : ans :=
  hd ASkip (run_spec (Build_family env univ [p])).
Lemma run_spec_eq : forall f, run_spec f = map (spec_answer (f_decls f) (f_univ f)) (f_probes f).
Proof. intro f. apply map_ext. intros [i j|i j|i|a b]; reflexivity. Qed.

(* With the memo keyed by the type id every assertion gives the memo-free answer ([memo_step]): every probe of a script is
   answered as if it were asked first. *)
Lemma run_impl_probe_by_probe : forall fl f, fx_memo fl = true ->
  run_impl fl f = let '(ids, s) := canon_list fl (f_univ f) (load_env fl (f_decls f)) in map (answer fl s ids) (f_probes f).
Proof.
  intros fl f M. unfold run_impl. destruct (canon_list fl (f_univ f) _) as [ids s].
  assert (G : forall ps out m, memo_inv fl s m ->
            fst (fold_left (step_impl fl s ids) ps (out, m)) = out ++ map (answer fl s ids) ps).
  { induction ps as [|p ps IH]; intros out m Hm; cbn [fold_left map]; [now rewrite app_nil_r|].
    replace (out ++ answer fl s ids p :: map (answer fl s ids) ps)
      with ((out ++ [answer fl s ids p]) ++ map (answer fl s ids) ps) by now rewrite <- app_assoc.
    destruct p as [i j|i j|i|a b]; unfold answer; cbn [step_impl]; try (apply IH; exact Hm).
    pose proof (Hm (nthN i ids 0) (nthN j ids 0)) as E. unfold pure_assert in E.
    pose proof (memo_step fl s (tkey_inj_repaired fl s M) m (nthN i ids 0) (nthN j ids 0) Hm) as Hm'.
    destruct (assert_impl fl s (nthN i ids 0) (nthN j ids 0) m) as [[ok x] m'].
    destruct (assert_impl fl s (nthN i ids 0) (nthN j ids 0) memo0) as [[ok0 x0] m0]. cbn [fst snd] in E, Hm'.
    injection E as <- <-. apply IH. exact Hm'. }
  exact (G (f_probes f) [] memo0 (memo_inv0 fl s)).
Qed.

Lemma remaining_classes_refuted :
  map (differs flags_current) [wit_field; wit_mpkg; wit_pshadow; wit_diamond] = [true; true; true; true] /\
  map fam_clean [wit_field; wit_mpkg; wit_pshadow; wit_diamond] = [false; false; false; false] /\
  map (differs flags_current) [wit_emb; wit_pkg; wit_tag; wit_memo; wit_ambig; wit_ifdup] = [false; false; false; false; false; false].
Proof. vm_compute. repeat split; reflexivity. Qed.

(* the repaired witnesses followed by the remaining ones *)
Lemma witnesses_after_patches :
  map (differs flags_patched) [wit_emb; wit_pkg; wit_tag; wit_memo; wit_ambig; wit_ifdup; wit_field; wit_mpkg; wit_pshadow; wit_diamond]
  = [false; false; false; false; false; false; true; true; true; true].
Proof.
  destruct remaining_classes_refuted as (H1 & _ & H3). exact (eq_trans (map_app _ _ _) (f_equal2 (@app bool) H3 H1)).
Qed.
