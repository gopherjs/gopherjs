(* C10 — lemmas: ImportDependencies ([collect], [import_deps]) yields a topological order
   of exactly the reachable packages, for every closed acyclic import graph. *)
From Coq Require Import List NArith Arith Bool Lia Permutation.
From Verif Require Import Base.Lists Model.C10_Order Proofs.C10_Order.
Import ListNotations.

Lemma lookup_In : forall B (g : list (str * B)) p v, lookup g p = Some v -> In (p, v) g.
Proof.
  induction g as [|[k w] r IH]; simpl; intros p v H; try discriminate.
  destruct (str_eqb p k) eqn:E.
  - apply str_eqb_eq in E. inversion H; subst. left. reflexivity.
  - right. apply IH. exact H.
Qed.

Definition edge (g : graph) (p q : str) : Prop := exists imps, lookup g p = Some imps /\ In q imps.

Inductive reach (g : graph) : str -> str -> Prop :=
| reach_refl : forall p, reach g p p
| reach_step : forall p q r, edge g p q -> reach g q r -> reach g p r.

Definition closed (g : graph) : Prop := forall p q, edge g p q -> exists imps, lookup g q = Some imps.
(* no import cycles: some measure strictly decreases along imports *)
Definition ranked (g : graph) (rank : str -> nat) : Prop := forall p q, edge g p q -> rank q < rank p.
Definition acyclic (g : graph) : Prop := exists rank, ranked g rank.

(* q occurs strictly before (an occurrence of) p *)
Definition before (q p : str) (l : list str) : Prop := exists l1 l2, l = l1 ++ p :: l2 /\ In q l1.

Definition topo (g : graph) (l : list str) : Prop :=
  NoDup l /\ (forall p, In p l -> exists imps, lookup g p = Some imps) /\
  (forall p q, In p l -> edge g p q -> before q p l).

Lemma before_In : forall q p l, before q p l -> In q l /\ In p l.
Proof.
  intros q p l [l1 [l2 [E H]]]. subst. split; apply in_or_app.
  - left. exact H.
  - right. left. reflexivity.
Qed.

Lemma before_app : forall q p l e, before q p l -> before q p (l ++ e).
Proof.
  intros q p l e [l1 [l2 [E H]]]. subst. exists l1, (l2 ++ e). split; auto.
  rewrite <- app_assoc. reflexivity.
Qed.

Lemma before_last : forall q p l, In q l -> before q p (l ++ [p]).
Proof. intros q p l H. exists l, []. split; auto. Qed.

Lemma reach_rank : forall g rank a x, ranked g rank -> reach g a x -> rank x <= rank a.
Proof.
  intros g rank a x Hr H. induction H as [p | p q r He _ IH].
  - lia.
  - apply Hr in He. lia.
Qed.

Lemma topo_closed_reach : forall g l q x, topo g l -> In q l -> reach g q x -> In x l.
Proof.
  intros g l q x [_ [_ Ho]] Hq H. induction H as [p | p q r He _ IH]; auto.
  apply IH. apply (Ho _ _ Hq) in He. apply before_In in He. tauto.
Qed.

Lemma collect_mem : forall fuel g p deps, mem p deps = true -> collect fuel g p deps = Some deps.
Proof. intros fuel g p deps H. destruct fuel; simpl; rewrite H; reflexivity. Qed.

Lemma collect_new : forall fuel g p deps d, mem p deps = false -> collect fuel g p deps = Some d ->
  exists d0, d = d0 ++ [p].
Proof.
  intros [|f] g p deps d M H; cbn in H; rewrite M in H; [discriminate |].
  destruct (lookup g p); [| discriminate]. destruct (fold_opt _ _ _) as [d0|]; [| discriminate].
  exists d0. congruence.
Qed.

Lemma topo_snoc : forall g p imps l, topo g l -> ~ In p l -> lookup g p = Some imps ->
  (forall q, In q imps -> In q l) -> topo g (l ++ [p]).
Proof.
  intros g p imps l [Tn [Tl To]] Hp Hl I. split; [| split].
  - apply NoDup_snoc; assumption.
  - intros x Hx. apply in_app_or in Hx. destruct Hx as [Hx | [Hx | []]].
    + apply Tl. exact Hx.
    + subst x. exists imps. exact Hl.
  - intros x q Hx He. apply in_app_or in Hx. destruct Hx as [Hx | [Hx | []]].
    + apply before_app. apply To; auto.
    + subst x. destruct He as [imps0 [Hl0 Hq]]. rewrite Hl in Hl0. inversion Hl0; subst imps0.
      apply before_last. apply I. exact Hq.
Qed.

(* what collecting [roots], one after the other, adds to the list [deps]: the list stays topological, holds the roots,
   and [ext] holds only packages reachable from them.  A single call of [collect] is the case of one root. *)
Definition collected (g : graph) (roots deps ext : list str) : Prop :=
  topo g (deps ++ ext) /\ (forall q, In q roots -> In q (deps ++ ext)) /\
  (forall x, In x ext -> exists q, In q roots /\ reach g q x).

Lemma collected_nil : forall g deps, topo g deps -> collected g [] deps [].
Proof.
  intros g deps Ht. unfold collected. rewrite app_nil_r. split; [exact Ht | split]; intros x [].
Qed.

Lemma collected_seen : forall g p deps, topo g deps -> In p deps -> collected g [p] deps [].
Proof.
  intros g p deps Ht Hp. unfold collected. rewrite app_nil_r. split; [exact Ht | split].
  - intros q [<- | []]. exact Hp.
  - intros x [].
Qed.

Lemma collected_app : forall g r1 r2 deps e1 e2,
  collected g r1 deps e1 -> collected g r2 (deps ++ e1) e2 -> collected g (r1 ++ r2) deps (e1 ++ e2).
Proof.
  intros g r1 r2 deps e1 e2 [_ [I1 R1]] [T2 [I2 R2]]. unfold collected. rewrite app_assoc.
  split; [exact T2 | split].
  - intros q Hq. apply in_app_or in Hq. destruct Hq as [Hq | Hq]; [| exact (I2 q Hq)].
    apply in_or_app. left. exact (I1 q Hq).
  - intros x Hx. apply in_app_or in Hx.
    destruct Hx as [Hx | Hx]; [destruct (R1 x Hx) as [q [Hq Hr]] | destruct (R2 x Hx) as [q [Hq Hr]]];
      exists q; (split; [apply in_or_app; auto | exact Hr]).
Qed.

Lemma collected_snoc : forall g rank p imps deps ext, ranked g rank ->
  lookup g p = Some imps -> ~ In p deps -> collected g imps deps ext -> collected g [p] deps (ext ++ [p]).
Proof.
  intros g rank p imps deps ext Hrk Hl Hnp [T [I R]].
  assert (Hpe : ~ In p ext).
  { (* an import of p reaching p would be a cycle *)
    intro Hp. destruct (R p Hp) as [q [Hq Hr]].
    assert (He : edge g p q) by (exists imps; split; auto).
    apply Hrk in He. apply (reach_rank g rank q p Hrk) in Hr. lia. }
  unfold collected. rewrite app_assoc. split; [| split].
  - apply (topo_snoc g p imps); auto. intro Hp. apply in_app_or in Hp. tauto.
  - intros q [<- | []]. apply in_or_app. right. left. reflexivity.
  - intros x Hx. exists p. split; [left; reflexivity |].
    apply in_app_or in Hx. destruct Hx as [Hx | [<- | []]]; [| apply reach_refl].
    destruct (R x Hx) as [q [Hq Hr]]. eapply reach_step; [| exact Hr]. exists imps. split; auto.
Qed.

Lemma collected_all : forall g roots l, collected g roots [] l ->
  topo g l /\ forall x, In x l <-> exists q, In q roots /\ reach g q x.
Proof.
  intros g roots l [T [I R]]. cbn in T, I. split; [exact T |]. intro x. split; [apply R |].
  intros [q [Hq Hr]]. exact (topo_closed_reach g l q x T (I q Hq) Hr).
Qed.

Lemma fold_collect_spec : forall g f roots,
  (forall q deps, In q roots -> topo g deps ->
     exists ext, collect f g q deps = Some (deps ++ ext) /\ collected g [q] deps ext) ->
  forall deps, topo g deps ->
  exists ext, fold_opt (collect f g) roots deps = Some (deps ++ ext) /\ collected g roots deps ext.
Proof.
  induction roots as [|a r IH]; intros Hf deps Ht; cbn [fold_opt].
  - exists []. rewrite app_nil_r. split; [reflexivity | apply collected_nil; exact Ht].
  - destruct (Hf a deps (or_introl eq_refl) Ht) as [e1 [E1 P1]]. rewrite E1.
    destruct (IH (fun q d Hq => Hf q d (or_intror Hq)) (deps ++ e1) (proj1 P1)) as [e2 [E2 P2]].
    exists (e1 ++ e2). rewrite app_assoc. split; [exact E2 | exact (collected_app g [a] r deps e1 e2 P1 P2)].
Qed.

(* [stk]: the packages whose collection is in progress when [p] is reached, innermost first.
   They are known, pairwise distinct and of increasing rank, so there are fewer of them than
   packages: this is what the fuel [length g] pays for. *)
Definition on_stack (g : graph) (rank : str -> nat) (p : str) (stk : list str) : Prop :=
  (exists imps, lookup g p = Some imps) /\ NoDup stk /\ incl stk (map fst g) /\ forall x, In x stk -> rank p < rank x.

Lemma on_stack_cons : forall g rank p stk, on_stack g rank p stk -> NoDup (p :: stk) /\ incl (p :: stk) (map fst g).
Proof.
  intros g rank p stk [[imps Hl] [Hnd [Hincl Hst]]]. split.
  - constructor; auto. intro Hp. apply Hst in Hp. lia.
  - intros x [Hx | Hx]; [subst; exact (in_map fst g _ (lookup_In _ g _ _ Hl)) | apply Hincl; exact Hx].
Qed.

Lemma on_stack_push : forall g rank p q stk, closed g -> ranked g rank ->
  on_stack g rank p stk -> edge g p q -> on_stack g rank q (p :: stk).
Proof.
  intros g rank p q stk Hcl Hrk H He. destruct (on_stack_cons _ _ _ _ H) as [Hnd Hincl].
  split; [exact (Hcl _ _ He) | split; [exact Hnd | split; [exact Hincl |]]].
  apply Hrk in He. destruct H as [_ [_ [_ Hst]]].
  intros x [Hx | Hx]; [subst; exact He | apply Hst in Hx; lia].
Qed.

Lemma collect_spec : forall g rank, closed g -> ranked g rank ->
  forall fuel p deps stk,
    topo g deps -> on_stack g rank p stk -> length g <= fuel + length stk ->
    exists ext, collect fuel g p deps = Some (deps ++ ext) /\ collected g [p] deps ext.
Proof.
  intros g rank Hcl Hrk. induction fuel as [|f IH]; intros p deps stk Ht Hstk Hfuel; destruct (mem p deps) eqn:M.
  1, 3: (* p is listed already, with or without fuel *) exists []; rewrite app_nil_r; split;
        [apply collect_mem; exact M | apply collected_seen; [exact Ht | apply mem_In; exact M]].
  - (* no fuel: the stack would hold more packages than there are *)
    exfalso. destruct (on_stack_cons _ _ _ _ Hstk) as [Hnd Hincl].
    pose proof (NoDup_incl_length Hnd Hincl) as HL. rewrite map_length in HL. simpl in HL. lia.
  - destruct Hstk as [[imps Hl] Hstk'].
    destruct (fold_collect_spec g f imps) with (deps := deps) as [ext [E P]]; [| exact Ht |].
    { intros q deps0 Hq Ht0. apply IH with (stk := p :: stk); [exact Ht0 | | simpl; lia].
      apply on_stack_push with (p := p); auto; [split; eauto | exists imps; split; auto]. }
    exists (ext ++ [p]). simpl. rewrite M, Hl, E. rewrite app_assoc. split; [reflexivity |].
    apply (collected_snoc g rank p imps); auto. apply mem_not_In; exact M.
Qed.

Lemma collect_top : forall g rank fuel p deps, closed g -> ranked g rank -> length g <= fuel ->
  topo g deps -> (exists imps, lookup g p = Some imps) ->
  exists ext, collect fuel g p deps = Some (deps ++ ext) /\ collected g [p] deps ext.
Proof.
  intros g rank fuel p deps Hcl Hrk Hfuel Ht Hl.
  apply (collect_spec g rank Hcl Hrk) with (stk := []); [exact Ht | | simpl; lia].
  split; [exact Hl | split; [constructor | split; intros x []]].
Qed.

Lemma topo_nil : forall g, topo g [].
Proof. intro g. repeat split; try constructor; intros; contradiction. Qed.

Lemma collect_roots_spec : forall g rank roots fuel, closed g -> ranked g rank ->
  (forall q, In q roots -> exists imps, lookup g q = Some imps) ->
  length g <= fuel ->
  exists l, fold_opt (collect fuel g) roots [] = Some l /\ topo g l /\
    (forall x, In x l <-> exists q, In q roots /\ reach g q x).
Proof.
  intros g rank roots fuel Hcl Hrk Hroots Hfuel.
  destruct (fold_collect_spec g fuel roots) with (deps := @nil str) as [l [E P]]; [| apply topo_nil |].
  - intros q deps Hq Ht. apply (collect_top g rank); auto.
  - exists l. split; [exact E | exact (collected_all g roots l P)].
Qed.

Theorem import_deps_topological : forall g rank root root_imports,
  closed g -> ranked g rank ->
  (forall q, In q (RUNTIME :: root_imports) -> exists imps, lookup g q = Some imps) ->
  lookup g root = None ->
  exists l, import_deps g root root_imports = Some (l ++ [root]) /\
    NoDup (l ++ [root]) /\
    (forall x, In x l <-> exists q, In q (RUNTIME :: root_imports) /\ reach g q x) /\
    (forall p q, In p l -> edge g p q -> before q p (l ++ [root])) /\
    (forall q, In q root_imports -> before q root (l ++ [root])).
Proof.
  intros g rank root ri Hcl Hrk Hroots Hroot.
  destruct (collect_roots_spec g rank (RUNTIME :: ri) (length g) Hcl Hrk Hroots (le_n _)) as [l [E [[Tn [Tl To]] Hiff]]].
  exists l. unfold import_deps. rewrite E.
  split; [reflexivity | split; [| split; [exact Hiff | split]]].
  - apply NoDup_snoc; auto. intro Hr. apply Tl in Hr. destruct Hr as [imps Hr]. congruence.
  - intros p q Hp He. apply before_app. apply To; auto.
  - intros q Hq. apply before_last. apply Hiff. exists q. split; [right; exact Hq | apply reach_refl].
Qed.

(* boolean checks of [closed] and [ranked], for the concrete graphs of the examples *)

Definition closedb (g : graph) : bool :=
  forallb (fun kv => forallb (fun q => match lookup g q with Some _ => true | None => false end) (snd kv)) g.

Definition rank_of (t : list (str * nat)) (p : str) : nat := match lookup t p with Some n => n | None => O end.

Definition rankedb (g : graph) (t : list (str * nat)) : bool :=
  forallb (fun kv => forallb (fun q => Nat.ltb (rank_of t q) (rank_of t (fst kv))) (snd kv)) g.

Lemma closedb_sound : forall g, closedb g = true -> closed g.
Proof.
  intros g H p q [imps [H1 H2]]. apply lookup_In in H1.
  unfold closedb in H. rewrite forallb_forall in H. specialize (H _ H1). simpl in H.
  rewrite forallb_forall in H. specialize (H _ H2).
  destruct (lookup g q) as [i|]; try discriminate. exists i. reflexivity.
Qed.

Lemma rankedb_sound : forall g t, rankedb g t = true -> ranked g (rank_of t).
Proof.
  intros g t H p q [imps [H1 H2]]. apply lookup_In in H1.
  unfold rankedb in H. rewrite forallb_forall in H. specialize (H _ H1). simpl in H.
  rewrite forallb_forall in H. specialize (H _ H2). apply Nat.ltb_lt in H. exact H.
Qed.
