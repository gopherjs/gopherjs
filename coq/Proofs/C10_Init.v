(* C10 — lemmas: the run-time $init recursion ([run_init], marks a package BEFORE its
   imports) produces, on every closed acyclic import graph, exactly the concatenation of the
   packages' own initialisation sequences in the order computed by [collect] (which marks
   AFTER the imports) on the graph with imports sorted by path. *)
From Coq Require Import List NArith Arith Bool Lia Permutation.
From Verif Require Import Model.C10_Order Proofs.C10_Order Proofs.C10_Deps.
Import ListNotations.

Lemma lookup_pkg_graph : forall prog p,
  lookup (pkg_graph prog) p = option_map (fun pk => sort_paths (pk_imports pk)) (lookup (pkg_table prog) p).
Proof.
  induction prog as [|a r IH]; simpl; intro p; auto.
  destruct (str_eqb p (pk_path a)); auto.
Qed.

Lemma lookup_pkg_table_path : forall prog p pk, lookup (pkg_table prog) p = Some pk -> pk_path pk = p.
Proof.
  induction prog as [|a r IH]; simpl; intros p pk H; try discriminate.
  destruct (str_eqb p (pk_path a)) eqn:E.
  - inversion H; subst. apply str_eqb_eq in E. symmetry. exact E.
  - apply IH. exact H.
Qed.

Lemma run_init_mem : forall fuel prog main p st, mem p (fst st) = true -> run_init fuel prog main p st = Some st.
Proof. intros fuel prog main p st H. destruct fuel; simpl; rewrite H; reflexivity. Qed.

Lemma fold_opt_sim : forall {A S T} (f : A -> S -> option S) (h : A -> T -> option T) (R : S -> T -> Prop) l,
  (forall q s s' t, In q l -> R s t -> f q s = Some s' -> exists t', h q t = Some t' /\ R s' t') ->
  forall s s' t, R s t -> fold_opt f l s = Some s' -> exists t', fold_opt h l t = Some t' /\ R s' t'.
Proof.
  intros A S T f h R. induction l as [|a r IH]; simpl; intros Hq s s' t HR H.
  - inversion H; subst. exists t. split; [reflexivity|exact HR].
  - destruct (f a s) as [s1|] eqn:E; try discriminate.
    destruct (Hq a s s1 t (or_introl eq_refl) HR E) as [t1 [E1 R1]]. rewrite E1.
    apply (IH (fun q u u' v Hin => Hq q u u' v (or_intror Hin)) s1 s' t1 R1 H).
Qed.

Section Sim.
  Variable prog : program.
  Variable main : str.
  Variable rank : str -> nat.
  Let G := pkg_graph prog.

  Definition own (p : str) : list event :=
    match lookup (pkg_table prog) p with Some pk => own_events main pk | None => [] end.
  Definition evs (l : list str) : list event := flat_map own l.

  Lemma evs_app : forall a c, evs (a ++ c) = evs a ++ evs c.
  Proof. intros. unfold evs. apply flat_map_app. Qed.

  (* the state of the $init recursion that stands for the list [d] built by [collect], while the
     packages of [stk] are being initialised: marked = collected or in progress, and the trace is
     the initialisation of [d] *)
  Definition sim (stk d : list str) (st : list str * list event) : Prop :=
    (forall x, In x (fst st) <-> In x d \/ In x stk) /\ snd st = evs d.

  Hypothesis Hrk : ranked G rank.

  Lemma run_init_sim : forall fuel p stk d d' st,
    (forall x, In x stk -> rank p < rank x) -> sim stk d st ->
    collect fuel G p d = Some d' ->
    exists st', run_init fuel prog main p st = Some st' /\ sim stk d' st'.
  Proof.
    induction fuel as [|f IH]; intros p stk d d' [done tr] Hst [HS Htr] H; simpl in H;
      destruct (mem p d) eqn:M; try discriminate.
    (* p is already collected, hence marked: both return at once *)
    1, 2: inversion H; subst d'; exists (done, tr); split; [|split; assumption];
          apply run_init_mem, mem_In, HS; left; apply mem_In; exact M.
    assert (Md : mem p done = false).
    { apply mem_not_In. intro Hd. apply HS in Hd. destruct Hd as [Hd | Hd].
      - apply mem_In in Hd. congruence.
      - apply Hst in Hd. lia. }
    destruct (lookup G p) as [imps|] eqn:L; try discriminate.
    destruct (fold_opt (collect f G) imps d) as [d1|] eqn:F; try discriminate.
    inversion H; subst d'. clear H.
    assert (L' := L). unfold G in L'. rewrite lookup_pkg_graph in L'.
    destruct (lookup (pkg_table prog) p) as [pk|] eqn:T; simpl in L'; try discriminate.
    inversion L' as [L1]. clear L'.
    (* the imports are initialised with p marked and on the stack *)
    destruct (fold_opt_sim (collect f G) (run_init f prog main) (sim (p :: stk)) imps)
      with (s := d) (s' := d1) (t := (p :: done, tr)) as [[done1 tr1] [R1 [S1 Htr1]]]; [| |exact F|].
    - intros q s s' t Hin. apply IH.
      assert (He : rank q < rank p) by (apply Hrk; exists imps; split; assumption).
      intros x [Hx | Hx]; [subst; exact He | apply Hst in Hx; lia].
    - split; [|exact Htr]. intro x. simpl. rewrite HS. clear. tauto.
    - exists (done1, tr1 ++ own_events main pk). cbn [run_init fst snd]. rewrite Md, T, L1, R1.
      split; [reflexivity|]. simpl in *. split.
      + intro x. rewrite S1, in_app_iff. simpl. clear. tauto.
      + rewrite evs_app, Htr1. unfold evs at 2. simpl. unfold own. rewrite T, app_nil_r. reflexivity.
  Qed.

  Lemma run_program_sim : forall l,
    fold_opt (collect (S (length prog)) G) [RUNTIME; main] [] = Some l -> run_program prog main = Some (evs l).
  Proof.
    intros l E.
    destruct (fold_opt_sim (collect (S (length prog)) G) (run_init (S (length prog)) prog main) (sim []) [RUNTIME; main])
      with (s := @nil str) (s' := l) (t := (@nil str, @nil event)) as [st [R [_ Htr]]]; [| |exact E|].
    - intros q s s' t _. apply run_init_sim. intros x [].
    - split; [intro x; simpl; tauto | reflexivity].
    - unfold run_program. rewrite R, Htr. reflexivity.
  Qed.

  Hypothesis Hcl : closed G.

  Lemma reach_edge_into : forall a x, reach G a x -> a = x \/ exists p, edge G p x.
  Proof.
    intros a x H. induction H as [p | p q r He _ IH]; auto.
    right. destruct IH as [IH | IH]; auto. subst. exists p. exact He.
  Qed.

  Lemma fuel_enough : length G <= S (length prog).
  Proof. unfold G, pkg_graph. rewrite map_length. lia. Qed.

  Theorem run_program_spec :
    (exists i, lookup G RUNTIME = Some i) -> (exists i, lookup G main = Some i) ->
    exists order, run_program prog main = Some (evs order) /\ topo G order /\
      (forall x, In x order <-> reach G RUNTIME x \/ reach G main x) /\
      ((forall p, ~ edge G p main) -> exists l, order = l ++ [main]).
  Proof.
    intros HR HM.
    destruct (collect_top G rank _ RUNTIME [] Hcl Hrk fuel_enough (topo_nil G) HR) as [e1 [C1 P1]].
    cbn [app] in C1.
    destruct (collect_top G rank _ main e1 Hcl Hrk fuel_enough (proj1 P1) HM) as [e2 [C2 P2]].
    destruct (collected_all G _ _ (collected_app G [RUNTIME] [main] [] e1 e2 P1 P2)) as [T Hiff].
    exists (e1 ++ e2). split; [| split; [exact T | split]].
    - apply run_program_sim. cbn [fold_opt]. rewrite C1, C2. reflexivity.
    - intro x. rewrite Hiff. split.
      + intros [q [[<- | [<- | []]] Hr]]; auto.
      + intros [Hr | Hr]; [exists RUNTIME | exists main]; split; auto; simpl; auto.
    - (* nobody imports main, so the first call does not meet it and the second appends it, unless main is runtime itself *)
      intros Hno. destruct (mem main e1) eqn:M; [| exact (collect_new _ G main e1 _ M C2)].
      rewrite (collect_mem _ G main e1 M) in C2. injection C2 as C2. rewrite <- C2.
      apply mem_In in M. destruct (proj2 (proj2 P1) main M) as [q [[<- | []] Hr]].
      apply reach_edge_into in Hr. destruct Hr as [Hr | [p Hr]]; [| destruct (Hno p Hr)].
      rewrite <- Hr. exact (collect_new _ G RUNTIME [] e1 eq_refl C1).
  Qed.

  Theorem run_program_main_last :
    (exists i, lookup G RUNTIME = Some i) -> (exists i, lookup G main = Some i) ->
    (forall p, ~ edge G p main) ->
    exists l, run_program prog main = Some (evs l ++ own main) /\ topo G (l ++ [main]) /\
      (forall x, In x (l ++ [main]) <-> reach G RUNTIME x \/ reach G main x).
  Proof.
    intros HR HM Hno. destruct (run_program_spec HR HM) as [order [E [T [Hiff Hlast]]]].
    destruct (Hlast Hno) as [l ->]. exists l. split; [| split; assumption].
    rewrite E, evs_app. unfold evs at 2. simpl. rewrite app_nil_r. reflexivity.
  Qed.
End Sim.

Theorem main_main_last : forall prog main rank pk,
  closed (pkg_graph prog) -> ranked (pkg_graph prog) rank ->
  (exists i, lookup (pkg_graph prog) RUNTIME = Some i) ->
  lookup (pkg_table prog) main = Some pk -> pk_is_main pk = true ->
  (forall p, ~ edge (pkg_graph prog) p main) ->
  exists t, run_program prog main = Some (t ++ [EMain main]).
Proof.
  intros prog main rank pk Hcl Hrk HR HT Hm Hno.
  assert (HM : exists i, lookup (pkg_graph prog) main = Some i).
  { rewrite lookup_pkg_graph, HT. simpl. eexists; reflexivity. }
  destruct (run_program_main_last prog main rank Hrk Hcl HR HM Hno) as [l [E _]].
  rewrite E. unfold own. rewrite HT. unfold own_events, main_events.
  rewrite Hm. rewrite (lookup_pkg_table_path _ _ _ HT). rewrite str_eqb_refl. simpl.
  eexists. rewrite !app_assoc. reflexivity.
Qed.

Theorem init_after_imports : forall prog main rank,
  closed (pkg_graph prog) -> ranked (pkg_graph prog) rank ->
  (exists i, lookup (pkg_graph prog) RUNTIME = Some i) ->
  (exists i, lookup (pkg_graph prog) main = Some i) ->
  exists order, run_program prog main = Some (evs prog main order) /\ NoDup order /\
    forall p q, In p order -> edge (pkg_graph prog) p q ->
      exists t1 t2 t3, evs prog main order = t1 ++ own prog main q ++ t2 ++ own prog main p ++ t3.
Proof.
  intros prog main rank Hcl Hrk HR HM.
  destruct (run_program_spec prog main rank Hrk Hcl HR HM) as [order [E [[Tn [_ To]] _]]].
  exists order. split; [exact E | split; [exact Tn |]].
  intros p q Hp He. destruct (To p q Hp He) as [l1 [l2 [X Hq]]].
  apply in_split in Hq. destruct Hq as [a [c Hq]]. subst l1. subst order.
  exists (evs prog main a), (evs prog main c), (evs prog main l2).
  rewrite evs_app. rewrite evs_app.
  change (q :: c) with ([q] ++ c). rewrite evs_app.
  change (p :: l2) with ([p] ++ l2). rewrite evs_app.
  unfold evs at 2 5. simpl. rewrite !app_nil_r. rewrite <- !app_assoc. reflexivity.
Qed.
