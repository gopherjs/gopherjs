(* C10 — lemmas about the go:linkname directive parser, its validation and GoLinknameSet. *)
From Coq Require Import List NArith Arith Bool Lia.
From Verif Require Import Base.Lists Model.C10_Order Model.C10_Linkname Proofs.C10_Order.
Import ListNotations.
Local Open Scope N_scope.

Definition nospace (w : str) : Prop := forallb (fun c => negb (is_space c)) w = true.
Definition allspace (w : str) : Prop := forallb is_space w = true.

Lemma fields_go_word : forall w acc s, nospace w -> fields_go acc (w ++ s) = fields_go (acc ++ w) s.
Proof.
  unfold nospace. induction w as [|a w IH]; simpl; intros acc s H.
  - rewrite app_nil_r. reflexivity.
  - apply andb_true_iff in H. destruct H as [H1 H2]. apply negb_true_iff in H1. rewrite H1.
    rewrite IH; auto. rewrite <- app_assoc. reflexivity.
Qed.

Lemma fields_go_skip : forall ws s, allspace ws -> fields_go [] (ws ++ s) = fields_go [] s.
Proof.
  unfold allspace. induction ws as [|a ws IH]; simpl; intros s H; auto.
  apply andb_true_iff in H. destruct H as [H1 H2]. rewrite H1. apply IH. exact H2.
Qed.

Lemma fields_word_sep : forall w ws s, nospace w -> w <> [] -> allspace ws -> ws <> [] ->
  fields_go [] (w ++ ws ++ s) = w :: fields_go [] s.
Proof.
  intros w [|a ws] s Hw Hn Ha Hs; [contradiction |].
  rewrite fields_go_word by exact Hw. unfold allspace in Ha. simpl in Ha |- *. apply andb_true_iff in Ha. destruct Ha as [H1 H2].
  rewrite H1. destruct w; [contradiction |]. f_equal. apply fields_go_skip. exact H2.
Qed.

Lemma fields_word_end : forall w ws, nospace w -> w <> [] -> allspace ws -> fields_go [] (w ++ ws) = [w].
Proof.
  intros w [|a ws] Hw Hn Ha.
  - rewrite fields_go_word by exact Hw. simpl. destruct w; [contradiction | reflexivity].
  - rewrite <- (app_nil_r (a :: ws)). apply fields_word_sep; auto. discriminate.
Qed.

Lemma has_prefix_app : forall p s, has_prefix p (p ++ s) = true.
Proof. induction p as [|x p IH]; simpl; intro s; auto. rewrite N.eqb_refl. apply IH. Qed.

Lemma last_index_none : forall c s, index_byte c s = None -> last_index_byte c s = None.
Proof.
  induction s as [|x r IH]; simpl; intro H; auto.
  destruct (x =? c); try discriminate.
  destruct (index_byte c r); try discriminate. rewrite IH; auto.
Qed.

Lemma index_byte_app_none : forall c a r, index_byte c a = None -> index_byte c r = None -> index_byte c (a ++ r) = None.
Proof.
  induction a as [|x a IH]; simpl; intros r Ha Hr; auto.
  destruct (x =? c); try discriminate.
  destruct (index_byte c a); try discriminate. rewrite IH; auto.
Qed.

Lemma last_index_app_found : forall c d rest, last_index_byte c rest = None ->
  last_index_byte c (d ++ c :: rest) = Some (length d).
Proof.
  induction d as [|x d IH]; simpl; intros rest H.
  - rewrite H, N.eqb_refl. reflexivity.
  - rewrite IH; auto.
Qed.

Lemma index_byte_app_found : forall c a rest, index_byte c a = None ->
  index_byte c (a ++ c :: rest) = Some (length a).
Proof.
  induction a as [|x a IH]; simpl; intros rest H.
  - rewrite N.eqb_refl. reflexivity.
  - destruct (x =? c); try discriminate.
    destruct (index_byte c a); try discriminate. rewrite IH; auto.
Qed.

Lemma offset_is_dir : forall dir base name,
  (dir = [] \/ exists d, dir = d ++ [SLASH]) ->
  index_byte SLASH base = None -> index_byte SLASH name = None ->
  match last_index_byte SLASH (dir ++ base ++ DOT :: name) with Some p => S p | None => O end = length dir.
Proof.
  intros dir base name Hd Hb Hn.
  assert (Hrest : index_byte SLASH (base ++ DOT :: name) = None).
  { apply index_byte_app_none; auto. simpl. rewrite Hn. reflexivity. }
  destruct Hd as [Hd | [d Hd]]; subst dir.
  - simpl. rewrite (last_index_none _ _ Hrest). reflexivity.
  - rewrite <- app_assoc. simpl. rewrite last_index_app_found by (apply last_index_none; exact Hrest).
    rewrite app_length. simpl. lia.
Qed.

Theorem parse_linkname_spec : forall pkg ws0 local ws1 dir base name ws2,
  allspace ws0 -> allspace ws1 -> ws1 <> [] -> allspace ws2 ->
  nospace local -> local <> [] ->
  nospace dir -> nospace base -> nospace name ->
  (dir = [] \/ exists d, dir = d ++ [SLASH]) ->
  index_byte SLASH base = None -> index_byte DOT base = None -> index_byte SLASH name = None ->
  local <> dir ++ base ++ DOT :: name ->
  read_linkname pkg (PREFIX ++ ws0 ++ local ++ ws1 ++ (dir ++ base ++ DOT :: name) ++ ws2)
  = PLink {| l_ref := (pkg, local); l_impl := (dir ++ base, name) |}.
Proof.
  intros pkg ws0 local ws1 dir base name ws2 Hs0 Hs1 Hs1n Hs2 Hl Hln Hdir Hbase Hname Hd Hsb Hdb Hsn Hne.
  set (ext := dir ++ base ++ DOT :: name) in *.
  assert (Hens : nospace ext).
  { unfold ext, nospace in *. rewrite !forallb_app. simpl. rewrite Hdir, Hbase, Hname. reflexivity. }
  assert (Hen : ext <> []).
  { unfold ext. destruct dir; destruct base; discriminate. }
  unfold read_linkname. rewrite has_prefix_app. cbn [negb].
  (* the space that ends PREFIX opens the first run of spaces *)
  change (fields (PREFIX ++ ws0 ++ local ++ ws1 ++ ext ++ ws2))
    with (fields_go [] (removelast PREFIX ++ (32 :: ws0) ++ local ++ ws1 ++ ext ++ ws2)).
  rewrite (fields_word_sep (removelast PREFIX) (32 :: ws0)); [| reflexivity | discriminate | exact Hs0 | discriminate].
  rewrite fields_word_sep, fields_word_end by assumption.
  cbv iota beta.
  rewrite (proj2 (str_eqb_neq local ext) Hne).
  cbv zeta.
  assert (Hoff : match last_index_byte SLASH ext with Some p => S p | None => O end = length dir).
  { unfold ext. apply offset_is_dir; assumption. }
  assert (Hsk : skipn (length dir) ext = base ++ DOT :: name).
  { unfold ext. apply skipn_app_exact. }
  rewrite !Hoff, Hsk.
  rewrite index_byte_app_found by exact Hdb.
  assert (F1 : firstn (length dir + length base) ext = dir ++ base).
  { unfold ext. rewrite app_assoc. rewrite <- app_length. apply firstn_app_exact. }
  assert (F2 : skipn (length dir + length base + 1) ext = name).
  { unfold ext. rewrite app_assoc, <- app_length. exact (skipn_app_plus (dir ++ base) (DOT :: name) 1). }
  rewrite F1, F2. reflexivity.
Qed.

Theorem read_linkname_not_a_directive : forall pkg text,
  has_prefix PREFIX text = false -> read_linkname pkg text = PNone.
Proof. intros pkg text H. unfold read_linkname. rewrite H. reflexivity. Qed.

(* one-argument form and self-reference are ignored, anything else with the prefix is a usage error *)
Theorem read_linkname_shapes : forall pkg text,
  has_prefix PREFIX text = true ->
  match fields text with
  | [_; _] => read_linkname pkg text = PNone
  | [_; l; e] => if str_eqb l e then read_linkname pkg text = PNone
                 else exists impl, read_linkname pkg text = PLink {| l_ref := (pkg, l); l_impl := impl |}
  | _ => read_linkname pkg text = PErr
  end.
Proof.
  intros pkg text H. unfold read_linkname. rewrite H. cbn [negb].
  destruct (fields text) as [|a [|l [|e [|x r]]]]; auto.
  destruct (str_eqb l e); auto.
  cbv zeta. destruct (index_byte DOT _); eexists; reflexivity.
Qed.

Theorem unsupported_uses_rejected : forall pkg decls text l,
  read_linkname pkg text = PLink l ->
  process_comment pkg false decls text = VError ENoUnsafe /\
  (lookup_node decls (snd (l_ref l)) = None -> process_comment pkg true decls text = VError ENotFound) /\
  (lookup_node decls (snd (l_ref l)) = Some NodeOther -> mitigated_var (l_ref l) = false ->
     process_comment pkg true decls text = VError ENotFunc) /\
  (lookup_node decls (snd (l_ref l)) = Some (NodeFunc true) -> mitigated_insert (l_ref l) = false ->
     process_comment pkg true decls text = VError EInsert).
Proof.
  intros pkg decls text l H. unfold process_comment. rewrite H. cbn [negb].
  split; [reflexivity | split; [| split]].
  - intro E. rewrite E. reflexivity.
  - intros E M. rewrite E, M. reflexivity.
  - intros E M. rewrite E, M. reflexivity.
Qed.

Theorem accepted_only_if_supported : forall pkg u decls text l,
  process_comment pkg u decls text = VLink l ->
  u = true /\ read_linkname pkg text = PLink l /\ lookup_node decls (snd (l_ref l)) = Some (NodeFunc false).
Proof.
  intros pkg u decls text l. unfold process_comment.
  destruct (read_linkname pkg text) as [| |l0]; try discriminate.
  destruct u; cbn [negb]; try discriminate.
  destruct (lookup_node decls (snd (l_ref l0))) as [[[|]|]|] eqn:E; try discriminate.
  - destruct (mitigated_insert (l_ref l0)); discriminate.
  - intro H. inversion H; subst. auto.
  - destruct (mitigated_var (l_ref l0)); discriminate.
Qed.

Lemma sym_eqb_eq : forall a c : sym, sym_eqb a c = true <-> a = c.
Proof.
  intros [a1 a2] [c1 c2]. unfold sym_eqb. simpl. rewrite andb_true_iff, !str_eqb_eq.
  split. intros [? ?]; subst; auto. intro H; inversion H; auto.
Qed.

Lemma sym_eqb_refl : forall a, sym_eqb a a = true.
Proof. intro a. apply sym_eqb_eq. reflexivity. Qed.

Lemma sym_eqb_neq : forall a c : sym, a <> c -> sym_eqb a c = false.
Proof. intros a c H. destruct (sym_eqb a c) eqn:E; auto. apply sym_eqb_eq in E. contradiction. Qed.

Lemma sym_eqb_spec : forall a c : sym, reflect (a = c) (sym_eqb a c).
Proof. intros a c. apply iff_reflect. symmetry. apply sym_eqb_eq. Qed.

Lemma is_impl_append : forall g e r s,
  gls_is_impl {| by_impl := impl_append (by_impl g) e; by_ref := r |} s = sym_eqb s (l_impl e) || gls_is_impl g s.
Proof.
  intros g e r s. unfold gls_is_impl. simpl. induction (by_impl g) as [|[k v] t IH]; simpl.
  - destruct (sym_eqb s (l_impl e)); reflexivity.
  - destruct (sym_eqb_spec (l_impl e) k) as [<-|N]; simpl.
    + destruct (sym_eqb s (l_impl e)); reflexivity.
    + destruct (sym_eqb s k); [rewrite orb_true_r; reflexivity|exact IH].
Qed.

Definition refs (es : list link) : list sym := map l_ref es.

Lemma gls_add_ok : forall es g,
  NoDup (refs es) ->
  (forall e, In e es -> sym_lookup (by_ref g) (l_ref e) = None) ->
  snd (gls_add es g) = false /\
  (forall e, In e es -> gls_find (fst (gls_add es g)) (l_ref e) = Some (l_impl e) /\
                        gls_is_impl (fst (gls_add es g)) (l_impl e) = true) /\
  (forall s, ~ In s (refs es) -> sym_lookup (by_ref (fst (gls_add es g))) s = sym_lookup (by_ref g) s) /\
  (forall s, gls_is_impl g s = true -> gls_is_impl (fst (gls_add es g)) s = true).
Proof.
  induction es as [|e r IH]; intros g Hnd Hfree.
  - simpl. split; [reflexivity | split; [intros e [] | split; auto]].
  - simpl in Hnd. inversion Hnd as [|? ? Hni Hnd']; subst.
    simpl. rewrite (Hfree e (or_introl eq_refl)).
    set (g1 := {| by_impl := impl_append (by_impl g) e; by_ref := (l_ref e, e) :: by_ref g |}).
    assert (Hfree1 : forall e', In e' r -> sym_lookup (by_ref g1) (l_ref e') = None).
    { intros e' He'. simpl. rewrite sym_eqb_neq.
      - apply Hfree. right. exact He'.
      - intro X. apply Hni. rewrite <- X. unfold refs. apply in_map. exact He'. }
    destruct (IH g1 Hnd' Hfree1) as [Hc [Hall [Hpres Hmono]]].
    split; [exact Hc | split; [| split]].
    + intros e' [He' | He'].
      * subst e'. split.
        -- unfold gls_find. rewrite Hpres by exact Hni. simpl. rewrite sym_eqb_refl. reflexivity.
        -- apply Hmono. unfold g1. rewrite is_impl_append, sym_eqb_refl. reflexivity.
      * apply Hall. exact He'.
    + intros s Hs. rewrite Hpres.
      * simpl. rewrite sym_eqb_neq; [reflexivity |]. intro X. apply Hs. left. symmetry. exact X.
      * intro X. apply Hs. right. exact X.
    + intros s Hs. apply Hmono. unfold g1. rewrite is_impl_append, Hs. apply orb_true_r.
Qed.

Lemma gls_add_no_conflict : forall es g, snd (gls_add es g) = false ->
  NoDup (refs es) /\ (forall e, In e es -> sym_lookup (by_ref g) (l_ref e) = None).
Proof.
  induction es as [|e r IH]; intros g H.
  - split; [constructor | intros e []].
  - simpl in H. destruct (sym_lookup (by_ref g) (l_ref e)) eqn:L; [simpl in H; discriminate |].
    apply IH in H. destruct H as [Hnd Hfree]. simpl in Hfree.
    assert (Hne : forall e', In e' r -> l_ref e' <> l_ref e /\ sym_lookup (by_ref g) (l_ref e') = None).
    { intros e' He'. specialize (Hfree e' He').
      destruct (sym_eqb_spec (l_ref e') (l_ref e)); [discriminate | split; assumption]. }
    split.
    + simpl. constructor; auto. intro Hin. unfold refs in Hin. apply in_map_iff in Hin.
      destruct Hin as [e' [X He']]. destruct (Hne e' He') as [N _]. contradiction.
    + intros e' [He' | He'].
      * subst. exact L.
      * apply Hne. exact He'.
Qed.

Lemma gls_add_app : forall a b g,
  gls_add (a ++ b) g = if snd (gls_add a g) then gls_add a g else gls_add b (fst (gls_add a g)).
Proof.
  induction a as [|e a IH]; intros b g; simpl; [reflexivity |].
  destruct (sym_lookup (by_ref g) (l_ref e)); [reflexivity | apply IH].
Qed.

(* the loops over the packages stop at the first conflict, like one Add of all the entries: [program_conflict] is its error,
   [link_program_from] (the aggregation loop of WriteProgramCode with its error exit) its outcome, the fold of [program_gls] its set *)
Lemma package_loops_concat : forall pkgs g,
  program_conflict pkgs g = snd (gls_add (concat pkgs) g) /\
  link_program_from pkgs g = (if snd (gls_add (concat pkgs) g) then None else Some (fst (gls_add (concat pkgs) g))) /\
  (snd (gls_add (concat pkgs) g) = false ->
   fold_left (fun g es => fst (gls_add es g)) pkgs g = fst (gls_add (concat pkgs) g)).
Proof.
  induction pkgs as [|es r IH]; intro g; simpl; [auto |].
  rewrite gls_add_app. destruct (gls_add es g) as [g1 []]; simpl; [| apply IH].
  repeat split. discriminate.
Qed.

Theorem resolve_full : forall pkgs,
  (NoDup (refs (concat pkgs)) ->
     link_program pkgs = Some (program_gls pkgs) /\
     (forall e, In e (concat pkgs) ->
        gls_find (program_gls pkgs) (l_ref e) = Some (l_impl e) /\ gls_is_impl (program_gls pkgs) (l_impl e) = true) /\
     (forall s, ~ In s (refs (concat pkgs)) -> gls_find (program_gls pkgs) s = None)) /\
  (~ NoDup (refs (concat pkgs)) -> link_program pkgs = None).
Proof.
  intro pkgs. destruct (package_loops_concat pkgs gls_empty) as [_ [L F]].
  unfold link_program, program_gls. rewrite L. split.
  - intro Hnd. destruct (gls_add_ok (concat pkgs) gls_empty Hnd) as [Hc [Hall [Hpres _]]]; [intros e _; reflexivity |].
    rewrite (F Hc), Hc.
    split; [reflexivity | split; [exact Hall |]].
    intros s Hs. unfold gls_find. rewrite Hpres by exact Hs. reflexivity.
  - intro Hdup. destruct (snd (gls_add (concat pkgs) gls_empty)) eqn:E; [reflexivity |].
    exfalso. apply Hdup. apply (gls_add_no_conflict _ _ E).
Qed.
