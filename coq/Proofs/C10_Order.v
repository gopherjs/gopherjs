(* C10 — lemmas: byte-string order, uniqueness of sorted permutations (file order and
   import order depend only on the names). *)
From Coq Require Import List NArith Arith Bool Lia Permutation Sorted.
From Verif Require Import Base.Lists Base.Sorting Model.C10_Order.
Import ListNotations.

Lemma str_eqb_eq : forall a b, str_eqb a b = true <-> a = b.
Proof. exact (list_eqb_eq N.eqb N.eqb_eq). Qed.

Lemma str_eqb_refl : forall a, str_eqb a a = true.
Proof. intro a. apply str_eqb_eq. reflexivity. Qed.

Lemma str_eqb_neq : forall a b, str_eqb a b = false <-> a <> b.
Proof. intros a b. rewrite <- str_eqb_eq. symmetry. apply not_true_iff_false. Qed.

Lemma mem_In : forall p l, mem p l = true <-> In p l.
Proof. exact (existsb_eqb_In str_eqb str_eqb_eq). Qed.

Lemma mem_not_In : forall p l, mem p l = false <-> ~ In p l.
Proof. exact (existsb_eqb_not_In str_eqb str_eqb_eq). Qed.

Lemma str_cmp_lex : forall a b,
  str_cmp a b = if lex_ltb N.ltb a b then Lt else if lex_ltb N.ltb b a then Gt else Eq.
Proof.
  induction a as [|x a IH]; intros [|y b]; cbn; try reflexivity.
  destruct (N.compare_spec x y) as [<-|H|H].
  - rewrite N.ltb_irrefl. apply IH.
  - apply N.ltb_lt in H. rewrite H. reflexivity.
  - rewrite (proj2 (N.ltb_ge x y)) by lia. apply N.ltb_lt in H. rewrite H. reflexivity.
Qed.

Lemma str_ltb_lex : forall a b, str_ltb a b = lex_ltb N.ltb a b.
Proof.
  intros a b. unfold str_ltb. rewrite str_cmp_lex.
  destruct (lex_ltb N.ltb a b); [reflexivity|]. destruct (lex_ltb N.ltb b a); reflexivity.
Qed.

Lemma str_ltb_order : strict_total str_ltb.
Proof.
  destruct (lex_strict_total N.ltb N_ltb_order) as [As Tr To].
  split; intros *; rewrite !str_ltb_lex; [apply As|apply Tr|apply To].
Qed.

Lemma str_gtb_order : strict_total (fun a b => str_ltb b a).
Proof. exact (strict_total_flip _ str_ltb_order). Qed.

Section SortBy.
  Context {A K : Type} (lt : K -> K -> bool) (key : A -> K).
  Hypothesis lt_ok : strict_total lt.
  Local Notation less := (fun a b => lt (key a) (key b)).

  Lemma sort_by_perm : forall l, Permutation (sort_by less l) l.
  Proof. exact (fold_ins_perm lt key (insert_by less) (fun _ => eq_refl) (fun _ _ _ => eq_refl)). Qed.

  Lemma sort_by_sorted : forall l, StronglySorted (fun a b => lt (key b) (key a) = false) (sort_by less l).
  Proof. exact (fold_ins_sorted lt key lt_ok (insert_by less) (fun _ => eq_refl) (fun _ _ _ => eq_refl)). Qed.

  Theorem sort_by_unique : forall l l',
    Permutation l l' -> (forall a b, In a l -> In b l -> key a = key b -> a = b) -> sort_by less l = sort_by less l'.
  Proof. exact (sort_canonical lt key lt_ok (sort_by less) sort_by_sorted sort_by_perm). Qed.
End SortBy.

Lemma map_fst_insert : forall B (x : str * B) l,
  map fst (insert_by file_less x l) = insert_by (fun a c => str_ltb c a) (fst x) (map fst l).
Proof.
  induction l as [|y r IH]; simpl; auto.
  unfold file_less at 1. destruct (str_ltb (fst x) (fst y)); simpl; auto. rewrite IH. reflexivity.
Qed.

Theorem sorted_files_descending : forall B (fs : list (str * B)),
  NoDup (map fst fs) -> StronglySorted (fun f g => str_ltb (fst g) (fst f) = true) (sort_files fs).
Proof.
  intros B fs ND. apply (sorted_strict (fun a b => str_ltb b a) fst str_gtb_order); [| exact (sort_by_sorted _ fst str_gtb_order fs)].
  eapply Permutation_NoDup; [| exact ND]. apply Permutation_map, Permutation_sym, (sort_by_perm (fun a b => str_ltb b a) fst).
Qed.

(* equal import paths are indistinguishable, so repetitions do no harm *)
Theorem sort_paths_canonical : forall l l', Permutation l l' -> sort_paths l = sort_paths l'.
Proof.
  intros l l' P. apply (sort_by_unique str_ltb id str_ltb_order); [exact P|]. intros a b _ _ E. exact E.
Qed.

Lemma sort_paths_In : forall l x, In x (sort_paths l) <-> In x l.
Proof. intros l x. split; apply Permutation_in; [|symmetry]; apply (sort_by_perm str_ltb id). Qed.
