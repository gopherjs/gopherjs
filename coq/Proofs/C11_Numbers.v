(* C11 — lemmas about numbers, the interface{} table, the wrapper cache and the callback guard. *)
From Coq Require Import List ZArith Bool Lia.
From Verif Require Import Base.Word Model.C11_JsMapping.
Import ListNotations.
Local Open Scope Z_scope.
Ltac Zify.zify_post_hook ::= Z.div_mod_to_equations.

(* the body of [to_int32] is the left-hand side of [Base.Word.sres_alt] at 32 bits *)
Lemma to_int32_sres : forall z, to_int32 z = sres 32 z.
Proof. exact (fun z => sres_alt 32 z eq_refl). Qed.

Lemma to_int32_small : forall z, - two31 <= z < two31 -> to_int32 z = z.
Proof. intros z H. rewrite to_int32_sres. exact (sres_id 32 z eq_refl H). Qed.

Lemma to_int32_wrap : forall z, - two31 <= z < two31 -> forall k, to_int32 (z + k * two32) = z.
Proof.
  intros z H k. rewrite <- (to_int32_small z H) at 2. rewrite !to_int32_sres. apply sres_congr, Z_mod_plus_full.
Qed.

Lemma to_uint32_small : forall z, 0 <= z < two32 -> to_uint32 z = z.
Proof. exact (fun z => Z.mod_small z two32). Qed.

Lemma to_uint32_of_int32 : forall z, to_uint32 (to_int32 z) = to_uint32 z.
Proof. intro z. rewrite to_int32_sres. exact (sres_mod 32 z). Qed.

Definition int_range (k : kind) : option (Z * Z) :=
  match k with
  | KInt | KInt32 => Some (- two31, two31 - 1)
  | KInt8 => Some (-128, 127)
  | KInt16 => Some (-32768, 32767)
  | KUint | KUint32 | KUintptr => Some (0, two32 - 1)
  | KUint8 => Some (0, 255)
  | KUint16 => Some (0, 65535)
  | _ => None
  end.

Lemma parse_int_small : forall z, Z.abs z < ten21 -> parse_int (JNum (NumZ z)) = Ok (NumZ z).
Proof. intros z H. unfold parse_int. apply Z.ltb_lt in H. rewrite H. reflexivity. Qed.

Lemma sar_shl : forall z k, 0 <= k -> - two31 <= z < two31 -> - two31 <= z * 2 ^ k < two31 ->
  js_sar (js_shl (NumZ z) k) k = NumZ z.
Proof.
  intros z k Hk Hz Hs. unfold js_sar, js_shl, num_int32, num_trunc.
  rewrite (to_int32_small z), !(to_int32_small (z * 2 ^ k)) by assumption. f_equal. apply Z.div_mul, Z.pow_nonzero; lia.
Qed.

Lemma shr_shl : forall z k, 0 <= k -> - two31 <= z < two31 -> 0 <= z * 2 ^ k < two32 ->
  js_shr (js_shl (NumZ z) k) k = NumZ z.
Proof.
  intros z k Hk Hz Hs. unfold js_shr, js_shl, num_uint32, num_int32, num_trunc.
  rewrite (to_int32_small z), to_uint32_of_int32, to_uint32_small by assumption.
  f_equal. apply Z.div_mul, Z.pow_nonzero; lia.
Qed.

Lemma sar_0 : forall z, - two31 <= z < two31 -> js_sar (NumZ z) 0 = NumZ z.
Proof. intros z H. unfold js_sar, num_int32, num_trunc. rewrite to_int32_small, Z.div_1_r by assumption. reflexivity. Qed.

Lemma shr_0 : forall z, 0 <= z < two32 -> js_shr (NumZ z) 0 = NumZ z.
Proof. intros z H. unfold js_shr, num_uint32, num_trunc. rewrite to_uint32_small, Z.div_1_r by assumption. reflexivity. Qed.

Lemma coerce_int_in_range : forall k lo hi z, int_range k = Some (lo, hi) -> lo <= z <= hi ->
  coerce_int k (NumZ z) = NumZ z.
Proof.
  (* coerce_int is (n << s) >> s for int8 and int16, (n << s) >>> s for uint8 and uint16, n >> 0 for int32,
     n >>> 0 for uint32 and uintptr, and n itself for int and uint *)
  intros k lo hi z Hk Hz.
  destruct k; cbn in Hk; try discriminate; injection Hk as <- <-; cbn [coerce_int]; try reflexivity;
    first [apply sar_shl | apply shr_shl | apply sar_0 | apply shr_0]; unfold two31, two32; lia.
Qed.

Lemma int_roundtrip : forall k lo hi z, int_range k = Some (lo, hi) -> lo <= z <= hi ->
  externalize (TB k) (GNum (NumZ z)) = Ok (JNum (NumZ z)) /\
  internalize (TB k) (JNum (NumZ z)) = Ok (GNum (NumZ z)).
Proof.
  intros k lo hi z Hk Hz. split.
  - destruct k; cbn in Hk; try discriminate; reflexivity.
  - cbn [internalize]. pose proof (coerce_int_in_range _ _ _ _ Hk Hz) as Hc.
    destruct k; cbn in Hk; try discriminate; injection Hk as <- <-; unfold int_basic;
      rewrite parse_int_small by (unfold ten21, two31, two32 in *; lia); cbn [bind]; rewrite Hc; reflexivity.
Qed.

(* the accessor o.Int() and reads of js-tagged integer fields: $parseInt(x) fixed to the kind.  fixNumber adds the
   `>> 0` / `>>> 0` that $internalize leaves out for int and uint, so the compiled conversion of every value is
   $internalize at the sized kind *)
Definition sized (k : kind) : kind := match k with KInt => KInt32 | KUint => KUint32 | _ => k end.

Lemma compiled_is_internalize : forall k j, compiled_internalize (TB k) j = internalize (TB (sized k)) j.
Proof. intros k j. destruct k; try reflexivity; destruct j; reflexivity. Qed.

Lemma int_range_sized : forall k, int_range (sized k) = int_range k.
Proof. destruct k; reflexivity. Qed.

Lemma round53_small : forall z, Z.abs z < two53 -> round53 z = z.
Proof. intros z H. unfold round53. replace (Z.abs z <? two53) with true by lia. reflexivity. Qed.

Lemma new64_halves : forall (signed : bool) hi lo,
  (if signed then - two31 <= hi < two31 else 0 <= hi < two32) -> 0 <= lo < two32 ->
  new64 signed (NumZ (hi * two32 + lo)) = (hi, lo).
Proof.
  intros signed hi lo Hh Hl. unfold new64, num_uint32, num_trunc.
  replace ((hi * two32 + lo) / two32) with hi by (unfold two32 in *; lia).
  replace (to_uint32 (hi * two32 + lo)) with lo by (unfold to_uint32, two32 in *; lia).
  destruct signed; [rewrite to_int32_small|rewrite to_uint32_small]; auto.
Qed.

(* the bound is tight: 2^53 + 1 comes back as 2^53 *)
Lemma int64_bound_tight :
  bind (externalize (TB KInt64) (G64 2097152 1)) (internalize (TB KInt64)) = Ok (G64 2097152 0).
Proof. vm_compute. reflexivity. Qed.

(* third column of the table in js/js.go, for non-nil values *)
Definition table_row (t : gtype) : option gtype :=
  match t with
  | TB KBool => Some (TB KBool)
  | TB KString => Some (TB KString)
  | TB _ => Some (TB KFloat64)
  | TSlice (TB k) | TArray _ (TB k) =>
      match native_array k with
      | Some tk => Some (tkind_slice_type tk)
      | None => Some tslice_any
      end
  | TSlice _ | TArray _ _ => Some tslice_any
  | TMap _ => Some tmap_any
  | TStruct _ => Some tmap_any
  | _ => None
  end.

Definition iface_type (g : gval) : option gtype :=
  match g with GIface (Some (t, _)) => Some t | _ => None end.

(* from [bind m f = Ok _]: m returned some [Ok x], and H becomes [f x = Ok _] *)
Ltac bind_inv H :=
  match type of H with
  | bind ?m _ = Ok _ => let E := fresh "E" in destruct m eqn:E; cbn [bind] in H; try discriminate
  end.

(* the dynamic type $internalize gives a JS value that arrives at an interface{} *)
Definition any_type (j : jsval) : option gtype :=
  match j with
  | JNull => None
  | JUndef => Some TJsObj
  | JTyped k _ => Some (tkind_slice_type k)
  | JArr _ => Some tslice_any
  | JBool _ => Some (TB KBool)
  | JFun _ => Some TFuncAny
  | JNum _ => Some (TB KFloat64)
  | JStr _ => Some (TB KString)
  | JObj _ => Some tmap_any
  end.

Lemma int_any_type : forall j g, int_any j = Ok g -> iface_type g = any_type j.
Proof. intros j g H. destruct j; cbn [int_any] in H; try bind_inv H; injection H as <-; reflexivity. Qed.

(* The first hypothesis is the body of externalize at an array or a non-nil slice of elements e (b the backing of the
   array, or for a slice the typed array that native_array assigns to its element kind, if any); such a value arrives
   at interface{} as []interface{}, or as a slice of the typed array's element kind. *)
Lemma seq_elems_table : forall (e : gtype) (b : option backing) (l : list gval) j g,
  (if needs_ext e then bind (mapM (externalize e) l) (fun js => Ok (JArr js))
   else match b with
        | Some (BTyped k) => bind (mapM gnum_of l) (fun ns => Ok (JTyped k ns))
        | _ => bind (mapM prim_js l) (fun js => Ok (JArr js))
        end) = Ok j ->
  internalize TIface j = Ok g ->
  exists t', iface_type g = Some t' /\
             (t' = tslice_any \/ exists k, b = Some (BTyped k) /\ needs_ext e = false /\ t' = tkind_slice_type k).
Proof.
  intros e b l j g He Hi. cbn [internalize] in Hi. rewrite (int_any_type _ _ Hi).
  destruct (needs_ext e) eqn:En; [|destruct b as [[k|]|]]; bind_inv He; injection He as <-;
    eexists; (split; [reflexivity|]); [left; reflexivity|right; exists k; auto|left; reflexivity..].
Qed.

Lemma table_scalars : forall k v j g,
  externalize (TB k) v = Ok j -> internalize TIface j = Ok g ->
  iface_type g = table_row (TB k).
Proof.
  intros k v j g He Hi. cbn [internalize] in Hi.
  destruct k; destruct v; cbn in He; try discriminate; injection He as <-; exact (int_any_type _ _ Hi).
Qed.

Lemma table_slices : forall e l j g,
  externalize (TSlice e) (GSlice (Some l)) = Ok j -> internalize TIface j = Ok g ->
  iface_type g = table_row (TSlice e).
Proof.
  intros e l j g He Hi. cbn [externalize] in He. cbn [internalize] in Hi. rewrite (int_any_type _ _ Hi).
  destruct e as [k| | | | | | | | |]; [destruct k|..]; cbn in He |- *; bind_inv He; injection He as <-; reflexivity.
Qed.

Lemma table_maps : forall e kvs j g,
  externalize (TMap e) (GMap (Some kvs)) = Ok j -> internalize TIface j = Ok g ->
  iface_type g = table_row (TMap e).
Proof.
  intros e kvs j g He Hi. cbn [externalize] in He. cbn [internalize] in Hi.
  bind_inv He. injection He as <-. exact (int_any_type _ _ Hi).
Qed.

Lemma table_structs : forall fs vs j g,
  search_js_object 8 (TStruct fs) (GStruct vs) = None ->
  externalize (TStruct fs) (GStruct vs) = Ok j -> internalize TIface j = Ok g ->
  iface_type g = table_row (TStruct fs).
Proof.
  intros fs vs j g Hs He Hi. cbn [externalize] in He. rewrite Hs in He. cbn [internalize] in Hi.
  bind_inv He. injection He as <-. exact (int_any_type _ _ Hi).
Qed.

Lemma table_nil : forall t v,
  (v = GSlice None \/ v = GMap None \/ v = GPtr None \/ v = GIface None) ->
  forall j, externalize t v = Ok j -> j = JNull /\ internalize TIface j = Ok (GIface None).
Proof.
  intros t v Hv j He.
  assert (j = JNull).
  { destruct Hv as [-> | [-> | [-> | ->]]]; destruct t as [k| | | | | | | | |]; cbn in He; try discriminate;
      try (injection He as <-; reflexivity); destruct k; discriminate. }
  subst j. split; reflexivity.
Qed.

Definition is_nil (v : gval) : Prop := v = GSlice None \/ v = GMap None \/ v = GPtr None \/ v = GIface None.

(* [t <> TIfaceM]: an interface with methods cannot be internalized at all ("cannot internalize") *)
Lemma nil_roundtrip : forall t v, t <> TIfaceM -> is_nil v ->
  externalize t v = Ok JNull -> internalize t JNull = Ok v.
Proof.
  intros t v Ht Hv He.
  destruct Hv as [-> | [-> | [-> | ->]]]; destruct t as [k|e1|n2 e2|e3|fs|e| | | |]; cbn in He; try discriminate;
    try (destruct k; discriminate); try reflexivity; try congruence.
  destruct e; reflexivity.
Qed.

Lemma wrapper_cached : forall s f,
  let '(j1, s1) := externalize_function s (Some f) in
  externalize_function s1 (Some f) = (j1, s1).
Proof.
  intros s f. unfold externalize_function.
  destruct (lookup_z f (wrappers s)) as [w|] eqn:E.
  - rewrite E. reflexivity.
  - cbn [wrappers lookup_z]. rewrite Z.eqb_refl. reflexivity.
Qed.

Lemma wrapper_preserved : forall s g f w, lookup_z f (wrappers s) = Some w ->
  lookup_z f (wrappers (snd (externalize_function s g))) = Some w.
Proof.
  intros s g f w H. unfold externalize_function. destruct g as [g|]; [|exact H].
  destruct (lookup_z g (wrappers s)) as [w'|] eqn:E; [exact H|].
  cbn [snd wrappers lookup_z]. destruct (f =? g) eqn:Efg; [|exact H].
  apply Z.eqb_eq in Efg. subst. congruence.
Qed.

Fixpoint run_ext (s : fstate) (gs : list (option Z)) : fstate :=
  match gs with [] => s | g :: r => run_ext (snd (externalize_function s g)) r end.

Lemma wrapper_preserved_run : forall gs s f w, lookup_z f (wrappers s) = Some w ->
  lookup_z f (wrappers (run_ext s gs)) = Some w.
Proof.
  induction gs as [|g gs IH]; intros s f w H; [exact H|].
  cbn [run_ext]. apply IH. apply wrapper_preserved. exact H.
Qed.

Lemma ext_fun_registers : forall s f, exists w,
  fst (externalize_function s (Some f)) = JFun w /\
  lookup_z f (wrappers (snd (externalize_function s (Some f)))) = Some w.
Proof.
  intros s f. unfold externalize_function. destruct (lookup_z f (wrappers s)) as [w|] eqn:E.
  - exists w. split; [reflexivity | exact E].
  - exists (next_js s). split; [reflexivity|]. cbn [snd wrappers lookup_z]. rewrite Z.eqb_refl. reflexivity.
Qed.

(* different Go functions never share a wrapper; that every wrapper handed out lies below next_js is what
   keeps this true when a fresh one is taken *)
Definition cache_ok (s : fstate) : Prop :=
  (forall k v, In (k, v) (wrappers s) -> v < next_js s) /\
  (forall k k' v, lookup_z k (wrappers s) = Some v -> lookup_z k' (wrappers s) = Some v -> k = k').

Lemma lookup_in : forall k l v, lookup_z k l = Some v -> In (k, v) l.
Proof.
  induction l as [|[k' v'] l IH]; intros v H; cbn in H; [discriminate|].
  destruct (k =? k') eqn:E.
  - apply Z.eqb_eq in E. injection H as <-. subst. left. reflexivity.
  - right. apply IH. exact H.
Qed.

Lemma cache_ok_step : forall s g, cache_ok s -> cache_ok (snd (externalize_function s g)).
Proof.
  intros s g [Hbelow Hinj]. unfold externalize_function. destruct g as [g|]; [|split; assumption].
  destruct (lookup_z g (wrappers s)) as [w|] eqn:E; [split; assumption|].
  cbn [snd]. split; cbn [wrappers next_js].
  - (* the new entry is (g, next_js s), and next_js goes up by one *)
    intros k v [Hin|Hin]; [injection Hin as <- <-; lia | specialize (Hbelow _ _ Hin); lia].
  - intros k k' v Hk Hk'. cbn [lookup_z] in Hk, Hk'.
    destruct (k =? g) eqn:Ek; destruct (k' =? g) eqn:Ek'.
    + apply Z.eqb_eq in Ek, Ek'. congruence.
    + injection Hk as <-. apply lookup_in in Hk'. specialize (Hbelow _ _ Hk'). lia.
    + injection Hk' as <-. apply lookup_in in Hk. specialize (Hbelow _ _ Hk). lia.
    + eapply Hinj; eauto.
Qed.

Lemma wrapper_injective : forall s f g,
  cache_ok s -> f <> g ->
  let s1 := snd (externalize_function s (Some f)) in
  fst (externalize_function s (Some f)) <> fst (externalize_function s1 (Some g)).
Proof.
  intros s f g Hok Hfg s1.
  pose proof (cache_ok_step s (Some f) Hok) as Hok1. fold s1 in Hok1.
  destruct (ext_fun_registers s f) as [w [Hw Hl]]. fold s1 in Hl. rewrite Hw.
  unfold externalize_function. destruct (lookup_z g (wrappers s1)) as [w'|] eqn:E; cbn [fst].
  - (* g has a wrapper already: were it f's, [Hinj] would make g = f *)
    intros Heq. injection Heq as <-. destruct Hok1 as [_ Hinj]. apply Hfg. eapply Hinj; eauto.
  - (* g gets the fresh wrapper next_js s1, and f's lies below it *)
    intros Heq. injection Heq as Heq. apply lookup_in in Hl. destruct Hok1 as [Hbelow _]. specialize (Hbelow _ _ Hl). lia.
Qed.

Lemma nil_func_is_null : forall s, externalize_function s None = (JNull, s).
Proof. reflexivity. Qed.

Lemma callback_guard : forall s, cur s = None -> block s = GuardError s.
Proof. intros s H. unfold block. rewrite H. reflexivity. Qed.

Lemma block_in_goroutine : forall s g, cur s = Some g ->
  block s = Blocked {| cur := Some g; asleep := g :: asleep s; queue := queue s |}.
Proof. intros s g H. unfold block. rewrite H. reflexivity. Qed.
