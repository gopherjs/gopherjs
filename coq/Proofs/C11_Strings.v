(* C11 — lemmas about the string half of the conversion model (UTF-8 <-> UTF-16).
   $decodeRune and $encodeRune are modelled here over Z and in Model/C14_Utf8.v over N: on the image of [Z.of_N] the two
   models are the same functions ([decode_rune_of_N], [encode_rune_of_N]), so what C14 proves of its decoder and its
   range loop holds of the string loop of $externalize. *)
From Coq Require Import List NArith ZArith Bool Lia.
From Verif Require Model.C14_Utf8.
From Verif Require Import Model.C11_JsMapping Base.C14_Bits Proofs.C14_Decode Proofs.C14_Strings.
Import ListNotations.
Local Open Scope Z_scope.
Ltac Zify.zify_post_hook ::= Z.div_mod_to_equations.

Definition scalar (r : Z) : Prop := 0 <= r <= 0x10FFFF /\ ~ (0xD800 <= r <= 0xDFFF).

Lemma scalar_valid r : scalar r -> validZ r.
Proof. unfold scalar, validZ, C14_Utf8.valid_scalar. lia. Qed.

Definition of_N_pair (p : N * nat) : Z * nat := (Z.of_N (fst p), snd p).

(* Both sides are the same tree of tests over the same bit operations; [Z.of_N] goes through each of them and the
   literals agree by conversion. *)
Lemma decode_rune_of_N l : decode_rune (map Z.of_N l) = of_N_pair (C14_Utf8.decode_rune l 0).
Proof.
  unfold C14_Utf8.decode_rune, decode_rune, cont_bad.
  destruct l as [|c0 [|c1 [|c2 [|c3 t]]]]; cbn [map nth_error Nat.add]; cbv zeta;
    repeat apply if_map; try reflexivity; unfold of_N_pair; cbn [fst snd];
    rewrite ?of_N_ltb, ?of_N_leb, ?of_N_lor, ?of_N_shiftl, ?of_N_land; reflexivity.
Qed.

Lemma encode_rune_of_N r : encode_rune r = map Z.of_N (C14_Utf8.encode_rune r).
Proof.
  unfold C14_Utf8.encode_rune, encode_rune, RuneError.
  (* the code point that is encoded, r or U+FFFD, is not negative *)
  match goal with |- context [Z.to_N ?x] => assert (exists n, x = Z.of_N n) as [n ->] end.
  { destruct (_ || _) eqn:E; [exists 0xFFFD%N; reflexivity|exists (Z.to_N r); lia]. }
  rewrite N2Z.id. repeat apply if_map; cbn [map]; rewrite ?of_N_leb, ?of_N_lor, ?of_N_land, ?of_N_shiftr; reflexivity.
Qed.

Definition utf8_spec (r : Z) : ustr :=
  if r <? 0x80 then [r]
  else if r <? 0x800 then [0xC0 + r / 64; 0x80 + r mod 64]
  else if r <? 0x10000 then [0xE0 + r / 4096; 0x80 + (r / 64) mod 64; 0x80 + r mod 64]
  else [0xF0 + r / 262144; 0x80 + (r / 4096) mod 64; 0x80 + (r / 64) mod 64; 0x80 + r mod 64].

Lemma utf8_spec_of_N n : utf8_spec (Z.of_N n) = map Z.of_N (C14_Utf8.spec_encode n).
Proof.
  unfold utf8_spec, C14_Utf8.spec_encode.
  repeat apply if_map; cbn [map]; rewrite ?of_N_leb, ?N2Z.inj_add, ?N2Z.inj_mod, ?N2Z.inj_div; try reflexivity; lia.
Qed.

Lemma encode_rune_is_utf8 : forall r, scalar r -> encode_rune r = utf8_spec r.
Proof.
  intros r H. rewrite encode_rune_of_N, encode_valid, <- utf8_spec_of_N, Z2N.id by (apply scalar_valid, H || apply H).
  reflexivity.
Qed.

Definition ltb_t a b : a < b -> (a <? b) = true := proj2 (Z.ltb_lt a b).
Definition ltb_f a b : b <= a -> (a <? b) = false := proj2 (Z.ltb_ge a b).

Definition utf8 (rs : list Z) : ustr := flat_map encode_rune rs.
Definition utf16 (rs : list Z) : ustr := flat_map utf16_units rs.

Lemma ext_loop_skipn k : forall l, ext_loop k l = ext_loop 0 (skipn k l).
Proof. induction k; intros [|x l]; try reflexivity. apply IHk. Qed.

(* The string loop of $externalize is the range loop of C14 followed by the UTF-16 encoding of each rune: every unit
   list, well formed or not, converts like []rune(s) in Go, one U+FFFD for each byte that starts no sequence. *)
Lemma ext_loop_runes s : ext_loop 0 (map Z.of_N s) = utf16 (map Z.of_N (C14_Utf8.string_to_runes s)).
Proof.
  rewrite string_to_runes_spec.
  induction s as [|s r w Hne D (Hw & _) IH] using spec_runes_ind; [reflexivity|].
  rewrite spec_runes_unfold, D by assumption. cbn [snd map fst utf16 flat_map].
  fold (utf16 (map Z.of_N (map fst (C14_Utf8.spec_runes (skipn w s))))). rewrite <- IH.
  destruct s as [|x t]; [congruence|]. cbn [map ext_loop].
  change (Z.of_N x :: map Z.of_N t) with (map Z.of_N (x :: t)). rewrite decode_rune_of_N, decode0_eq_spec, D.
  cbn [of_N_pair fst snd]. rewrite ext_loop_skipn, skipn_map. destruct w; [lia|reflexivity].
Qed.

Lemma utf8_of_N rs : utf8 rs = map Z.of_N (flat_map C14_Utf8.encode_rune rs).
Proof.
  induction rs as [|r rs IH]; [reflexivity|]. cbn [utf8 flat_map]. rewrite map_app, <- IH, encode_rune_of_N. reflexivity.
Qed.

Lemma ext_loop_utf8 : forall rs, Forall scalar rs -> ext_loop 0 (utf8 rs) = utf16 rs.
Proof.
  intros rs H.
  rewrite utf8_of_N, ext_loop_runes, <- r2s_all, runes_of_encoded, of_N_to_N by exact (Forall_impl _ scalar_valid H).
  reflexivity.
Qed.

Definition fffd_utf8 : ustr := [0xEF; 0xBF; 0xBD].

Lemma encode_fffd : encode_rune 0xFFFD = fffd_utf8.
Proof. reflexivity. Qed.

Lemma encode_surrogate : forall h, 0xD800 <= h <= 0xDFFF -> encode_rune h = fffd_utf8.
Proof.
  intros h H. unfold encode_rune.
  replace ((h <? 0) || (1114111 <? h) || ((55296 <=? h) && (h <=? 57343))) with true by lia. reflexivity.
Qed.

Lemma int_lone_low : forall h rest, 0xDC00 <= h <= 0xDFFF ->
  int_loop (h :: rest) = fffd_utf8 ++ int_loop rest.
Proof.
  intros h rest H. cbn [int_loop]. replace (is_high h) with false by (unfold is_high; lia).
  rewrite encode_surrogate by lia. reflexivity.
Qed.

(* Go's unicode/utf16.Decode: the reference for ill-formed input *)
Fixpoint utf16_decode (u : ustr) : list Z :=
  match u with
  | [] => []
  | h :: t =>
    if is_high h then
      match t with
      | l :: t' => if is_low l then ((h - 0xD800) * 0x400 + (l - 0xDC00) + 0x10000) :: utf16_decode t'
                   else 0xFFFD :: utf16_decode t
      | [] => [0xFFFD]
      end
    else if is_low h then 0xFFFD :: utf16_decode t
    else h :: utf16_decode t
  end.

Lemma int_loop_decode : forall u, int_loop u = utf8 (utf16_decode u).
Proof.
  assert (Hsurr : forall h, is_high h = true \/ is_low h = true -> encode_rune h = fffd_utf8).
  { intros h H. apply encode_surrogate. unfold is_high, is_low in H. lia. }
  (* the loop consumes one unit or two: the induction carries the statement for the rest after either *)
  enough (forall u, int_loop (tl u) = utf8 (utf16_decode (tl u)) /\ int_loop u = utf8 (utf16_decode u)) by (intros u; apply H).
  induction u as [|h t [IHtl IHt]]; [split; reflexivity|]. split; [exact IHt|].
  cbn [int_loop utf16_decode]. destruct (is_high h) eqn:Eh.
  - destruct t as [|l t']; [rewrite Hsurr by auto; reflexivity|].
    destruct (is_low l); cbn [utf8 flat_map tl] in *.
    + rewrite IHtl. do 2 f_equal. lia.
    + rewrite IHt, Hsurr by auto. reflexivity.
  - rewrite IHt. destruct (is_low h) eqn:El; cbn [utf8 flat_map]; rewrite ?Hsurr by auto; reflexivity.
Qed.

Lemma utf16_decode_units : forall r rest, scalar r -> utf16_decode (utf16_units r ++ rest) = r :: utf16_decode rest.
Proof.
  intros r rest [Hr Hs]. unfold utf16_units. destruct (0xFFFF <? r) eqn:E; cbn [app utf16_decode].
  - (* a surrogate pair *)
    replace (is_high _) with true by (unfold is_high; lia). replace (is_low _) with true by (unfold is_low; lia).
    f_equal. lia.
  - (* one unit, no surrogate *)
    replace (is_high r) with false by (unfold is_high; lia). replace (is_low r) with false by (unfold is_low; lia).
    reflexivity.
Qed.

Lemma utf16_decode_utf16 : forall rs, Forall scalar rs -> utf16_decode (utf16 rs) = rs.
Proof.
  unfold utf16. induction 1 as [|r rs Hr _ IH]; [reflexivity|]. cbn [flat_map]. rewrite utf16_decode_units, IH by exact Hr. reflexivity.
Qed.

Lemma int_loop_utf16 : forall rs, Forall scalar rs -> int_loop (utf16 rs) = utf8 rs.
Proof. intros rs H. rewrite int_loop_decode, utf16_decode_utf16 by exact H. reflexivity. Qed.

(* the $isASCII shortcut returns what the loop would have produced *)
Lemma ext_loop_ascii : forall s, is_ascii s = true -> ext_loop 0 s = s.
Proof.
  induction s as [|c s IH]; intros H; [reflexivity|].
  cbn [is_ascii forallb] in H. apply andb_prop in H as [Hc Hs].
  cbn [ext_loop]. unfold decode_rune.
  assert (Hc' : c <? 0x80 = true) by exact Hc. rewrite Hc'.
  unfold utf16_units. apply Z.ltb_lt in Hc. replace (0xFFFF <? c) with false by lia.
  cbn [app Nat.pred]. f_equal. apply IH. exact Hs.
Qed.

Lemma ext_string_loop : forall s, ext_string s = ext_loop 0 s.
Proof. intros s. unfold ext_string. destruct (is_ascii s) eqn:E; [symmetry; apply ext_loop_ascii; exact E | reflexivity]. Qed.

Lemma int_loop_ascii : forall u, Forall (fun c => 0 <= c) u -> is_ascii u = true -> int_loop u = u.
Proof.
  induction u as [|c u IH]; intros Hn H; [reflexivity|].
  inversion Hn as [|? ? Hc0 Hn']; subst.
  cbn [is_ascii forallb] in H. apply andb_prop in H as [Hc Hs]. apply Z.ltb_lt in Hc.
  cbn [int_loop]. replace (is_high c) with false by (unfold is_high; lia).
  unfold encode_rune.
  replace ((c <? 0) || (1114111 <? c) || ((55296 <=? c) && (c <=? 57343))) with false by lia.
  replace (c <=? 127) with true by lia. cbn [app]. f_equal. apply IH; assumption.
Qed.

Lemma int_string_loop : forall u, Forall (fun c => 0 <= c) u -> int_string u = int_loop u.
Proof.
  intros u Hn. unfold int_string. destruct (is_ascii u) eqn:E; [symmetry; apply int_loop_ascii; assumption | reflexivity].
Qed.

Lemma utf16_units_nonneg : forall r, scalar r -> Forall (fun c => 0 <= c) (utf16_units r).
Proof.
  intros r [Hr _]. unfold utf16_units. destruct (0xFFFF <? r) eqn:E.
  - apply Z.ltb_lt in E. repeat constructor; lia.
  - repeat constructor; lia.
Qed.

Lemma utf16_nonneg : forall rs, Forall scalar rs -> Forall (fun c => 0 <= c) (utf16 rs).
Proof. intros rs H. apply Forall_flat_map, (Forall_impl _ utf16_units_nonneg), H. Qed.

Lemma encode_rune_nonneg : forall r, Forall (fun c => 0 <= c) (encode_rune r).
Proof. intros r. rewrite encode_rune_of_N. apply Forall_map, Forall_forall. intros n _. apply N2Z.is_nonneg. Qed.

Lemma utf8_nonneg : forall rs, Forall scalar rs -> Forall (fun c => 0 <= c) (utf8 rs).
Proof. intros rs _. apply Forall_flat_map, Forall_forall. intros r _. apply encode_rune_nonneg. Qed.

Definition valid_utf8 (s : ustr) : Prop := exists rs, Forall scalar rs /\ s = utf8 rs.
Definition wellformed_utf16 (u : ustr) : Prop := exists rs, Forall scalar rs /\ u = utf16 rs.

Lemma ext_string_utf8 : forall rs, Forall scalar rs -> ext_string (utf8 rs) = utf16 rs.
Proof. intros. rewrite ext_string_loop. apply ext_loop_utf8. assumption. Qed.

Lemma int_string_utf16 : forall rs, Forall scalar rs -> int_string (utf16 rs) = utf8 rs.
Proof. intros rs H. rewrite int_string_loop by (apply utf16_nonneg; exact H). apply int_loop_utf16. exact H. Qed.

Lemma ext_string_valid : forall s, valid_utf8 s -> wellformed_utf16 (ext_string s).
Proof. intros s [rs [H ->]]. exists rs. split; [exact H | apply ext_string_utf8; exact H]. Qed.

Lemma int_string_wellformed : forall u, wellformed_utf16 u -> valid_utf8 (int_string u).
Proof. intros u [rs [H ->]]. exists rs. split; [exact H | apply int_string_utf16; exact H]. Qed.

Lemma ext_invalid_lead : forall c rest, (0x80 <= c < 0xC0 \/ 0xF8 <= c) ->
  ext_loop 0 (c :: rest) = 0xFFFD :: ext_loop 0 rest.
Proof.
  intros c rest H. cbn [ext_loop]. unfold decode_rune.
  destruct H as [H|H]; rewrite (ltb_f c 0x80) by lia.
  - (* a continuation byte *) rewrite ltb_t by lia. reflexivity.
  - (* beyond every lead byte: no test of $decodeRune matches, whatever follows *) rewrite ltb_f by lia.
    destruct (c <? 0xE0) eqn:E1; [lia|]. destruct (c <? 0xF0) eqn:E2; [lia|]. destruct (c <? 0xF8) eqn:E3; [lia|].
    destruct rest as [|c1 [|c2 [|c3 t]]]; repeat destruct (cont_bad _); reflexivity.
Qed.

Lemma ext_truncated : forall c c1 rest, 0xC0 <= c -> cont_bad c1 = true ->
  ext_loop 0 (c :: c1 :: rest) = 0xFFFD :: ext_loop 0 (c1 :: rest).
Proof.
  intros c c1 rest H Hb. cbn [ext_loop]. unfold decode_rune. rewrite !ltb_f, Hb by lia. reflexivity.
Qed.
