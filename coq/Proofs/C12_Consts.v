(* C12 — constants keep their values: Model.C12_Merge.file_consts of a rewritten original file is that of the
   original without the overridden names ([consts_rewritten]), for both variants of the code; the witness against
   the variant that deletes specs inside a parenthesised const group. *)
From Coq Require Import List String Ascii Bool NArith ZArith Arith Lia.
From Verif Require Import Gen.C12_Tables Model.C12_Merge Model.C12_Law Proofs.C12_Merge.
Import ListNotations.
Local Open Scope string_scope.

Arguments String.eqb : simpl never.
Arguments has_key : simpl never.
Arguments Z.add : simpl never.

Definition raw_consts (f : file) : list (string * option Z) := flat_map decl_consts f.

Lemma const_specs_other ss : forall i p, const_specs i p (other_specs ss) = const_specs i p ss.
Proof.
  unfold other_specs. induction ss as [|[im|t|v] r IH]; intros i p; cbn; rewrite ?IH; reflexivity.
Qed.

Lemma decl_consts_other g ss : other_specs ss = other_specs (g_specs g) ->
  decl_consts (DGen (mkg (g_tok g) (g_paren g) (g_doc g) ss)) = decl_consts (DGen g).
Proof.
  intros H. cbn. destruct (g_tok g); try reflexivity.
  rewrite <- const_specs_other, H. apply const_specs_other.
Qed.

Lemma only_imports_consts f : is_only_imports f = true -> raw_consts f = [].
Proof.
  unfold raw_consts, is_only_imports. induction f as [|d r IH]; simpl; intros H; auto.
  apply andb_prop in H. destruct H as [H1 H2]. rewrite (IH H2). rewrite app_nil_r.
  destruct d as [fd|g]; simpl in *; [discriminate|].
  destruct (g_tok g); try discriminate; reflexivity.
Qed.

Lemma prune_consts f : raw_consts (prune_imports f) = raw_consts f.
Proof.
  apply prune_imports_unchanged; [ | exact decl_consts_other | apply only_imports_consts].
  intros t p d. destruct t; reflexivity.
Qed.

(* Which entries of the constant list survive the rewrite: those whose name is not overridden ([kept]);
   file_consts shows the ones that have a name besides ([named]), and blanking a name removes it from sight. *)

Definition kept (ov : overrides) (p : string * option Z) : bool := negb (has_key (fst p) ov).
Definition named (p : string * option Z) : bool := negb (is_blank p).
Definition live (ov : overrides) (p : string * option Z) : bool := named p && kept ov p.

Definition blank_entry (ov : overrides) (p : string * option Z) : string * option Z :=
  (if has_key (fst p) ov then "_" else fst p, snd p).

Lemma filter_andb {A} (a b : A -> bool) l : filter (fun x => a x && b x) l = filter b (filter a l).
Proof. induction l as [|x l IH]; [reflexivity|]. cbn [filter]. destruct (a x); cbn [andb filter]; rewrite IH; reflexivity. Qed.

Lemma live_blank_entry ov l : filter named (map (blank_entry ov) l) = filter (live ov) l.
Proof.
  induction l as [|[n z] l IH]; [reflexivity|]. cbn [map filter]. rewrite IH.
  unfold live, kept, named, blank_entry, is_blank. cbn [fst snd].
  destruct (has_key n ov); cbn [negb]; [rewrite andb_false_r | rewrite andb_true_r]; reflexivity.
Qed.

Lemma zip_blank ov i ns : forall vals,
  zip_consts i (blank_names ov ns) vals = map (blank_entry ov) (zip_consts i ns vals).
Proof.
  induction ns as [|n r IH]; intros vals; [reflexivity|].
  destruct vals as [|v vs]; cbn; rewrite IH; reflexivity.
Qed.

Lemma zip_all_blank i ns : forall vals, forallb (String.eqb "_") ns = true -> filter named (zip_consts i ns vals) = [].
Proof.
  induction ns as [|n r IH]; intros vals H; [reflexivity|]. cbn [forallb] in H. apply andb_prop in H. destruct H as [H1 H2].
  apply String.eqb_eq in H1. subst n. destruct vals as [|v vs]; cbn; apply IH, H2.
Qed.

Lemma zip_filter ov i ns : forall vs, List.length ns = List.length vs ->
  filter named (zip_consts i (fst (filter_pairs ov ns vs)) (snd (filter_pairs ov ns vs))) = filter (live ov) (zip_consts i ns vs).
Proof.
  induction ns as [|n r IH]; intros vs L; [reflexivity|].
  destruct vs as [|v vs']; [discriminate|]. injection L as L. specialize (IH vs' L).
  cbn [filter_pairs zip_consts filter]. destruct (filter_pairs ov r vs') as [a b]. unfold live at 1, kept. cbn [fst snd] in *.
  destruct (has_key n ov); cbn [negb fst snd zip_consts filter]; rewrite ?andb_false_r, ?andb_true_r, IH; reflexivity.
Qed.

Lemma blank_names_id (ov : overrides) ns :
  forallb (fun n => negb (has_key n ov)) ns = true -> blank_names ov ns = ns.
Proof.
  induction ns as [|m r IH]; simpl; intros H; auto.
  apply andb_prop in H. destruct H as [H1 H2]. rewrite negb_true_iff in H1. rewrite H1. f_equal; auto.
Qed.

Lemma nokey_existsb (ov : overrides) ns :
  forallb (fun n => negb (has_key n ov)) ns = true -> existsb (fun n => has_key n ov) ns = false.
Proof.
  induction ns as [|m r IH]; simpl; intros H; auto.
  apply andb_prop in H. destruct H as [H1 H2]. rewrite negb_true_iff in H1. rewrite H1. simpl. auto.
Qed.

(* A parenthesised const group: every spec stays in its place, so iota and the repeated expressions are those of
   the original; overridden names are blanked (the blanking variant), or there are none to blank. *)
Lemma group_vspec cb ov v :
  cb || forallb (fun n => negb (has_key n ov)) (v_names v) = true ->
  exists v', fst (rewrite_vspec cb true ov v) = Some v' /\
             v_names v' = blank_names ov (v_names v) /\ v_values v' = v_values v.
Proof.
  intros C. unfold rewrite_vspec. destruct cb; cbn [andb orb] in *; [eexists; repeat split|].
  pose proof (nokey_existsb ov _ C) as X. rewrite (blank_names_id ov _ C).
  destruct (Nat.eqb (List.length (v_names v)) (List.length (v_values v))) eqn:L.
  - apply Nat.eqb_eq in L. rewrite (filter_pairs_id ov _ _ L X), X.
    destruct (v_names v) eqn:N; eexists; (split; [reflexivity|]); cbn [v_names v_values]; auto.
  - rewrite X. eexists. split; [reflexivity|]. cbn [v_names v_values]. auto.
Qed.

Lemma group_consts cb ov ss :
  cb || forallb (fun n => negb (has_key n ov)) (flat_map spec_names ss) = true ->
  forall i p, const_specs i p (flat_map (rewrite_spec cb true ov) ss) = map (blank_entry ov) (const_specs i p ss).
Proof.
  induction ss as [|s r IH]; intros C i p; [reflexivity|].
  cbn [flat_map] in C. rewrite forallb_app, orb_andb_distrib_r in C. apply andb_prop in C. destruct C as [Cs Cr].
  destruct s as [im|t|v]; cbn [flat_map rewrite_spec app const_specs].
  - apply IH, Cr.
  - destruct (has_key (t_name t) ov); cbn [app const_specs]; apply IH, Cr.
  - destruct (group_vspec cb ov v Cs) as (v' & -> & En & Ev).
    cbn [app const_specs]. rewrite Ev, En, zip_blank, map_app, IH by exact Cr. reflexivity.
Qed.

(* A spec on its own: overridden names go with their values, or are blanked when the values are shared; the spec
   goes when nothing with a name is left. *)
Lemma single_vspec cb ov v i :
  filter named (oread (fun v' => zip_consts i (v_names v') (v_values v')) (fst (rewrite_vspec cb false ov v))) = filter (live ov) (zip_consts i (v_names v) (v_values v)).
Proof.
  unfold rewrite_vspec. rewrite andb_false_r.
  destruct (Nat.eqb (List.length (v_names v)) (List.length (v_values v))) eqn:L.
  - apply Nat.eqb_eq in L. rewrite <- (zip_filter ov i _ _ L).
    destruct (filter_pairs ov (v_names v) (v_values v)) as [a b] eqn:E. cbn [fst snd].
    destruct a as [|a0 a']; [|reflexivity].
    destruct (existsb (fun n => has_key n ov) (v_names v)) eqn:X; [reflexivity|].
    rewrite (filter_pairs_id ov _ _ L X) in E. injection E as E1 _. cbn [fst oread]. rewrite E1. reflexivity.
  - rewrite <- live_blank_entry, <- zip_blank.
    destruct (existsb (fun n => has_key n ov) (v_names v) && forallb (String.eqb "_") (blank_names ov (v_names v))) eqn:X; [|reflexivity].
    apply andb_prop in X. symmetry. apply zip_all_blank, X.
Qed.

(* [const_specs] with nothing to repeat ([prev = []]) takes the values of the spec as they are *)
Lemma values_or_nil (vs : list vexpr) : match vs with [] => [] | v0 :: l => v0 :: l end = vs.
Proof. destruct vs; reflexivity. Qed.

Lemma rewrite_decl_consts cb ov d :
  wf_paren_decl d = true -> cb || decl_nokey ov d = true ->
  filter named (oread decl_consts (fst (rewrite_decl cb ov d))) = filter (live ov) (decl_consts d).
Proof.
  destruct d as [f|g]; [intros _ _; cbn [rewrite_decl]; destruct (rewrite_func ov f) as [[f'|] c]; reflexivity|].
  intros W C. rewrite rewrite_decl_read by (intros [] ? ?; reflexivity).
  unfold decl_nokey, is_const_group in *. cbn [wf_paren_decl decl_consts g_tok g_specs] in *.
  destruct (g_tok g); try reflexivity. destruct (g_paren g); cbn [negb orb] in *.
  - rewrite group_consts by exact C. apply live_blank_entry.
  - (* without parentheses there is at most one spec *)
    destruct (g_specs g) as [|s [|s2 r]]; try discriminate W; [reflexivity|].
    destruct s as [im|t|v]; cbn [flat_map rewrite_spec app].
    + reflexivity.
    + destruct (has_key (t_name t) ov); reflexivity.
    + cbn [const_specs]. rewrite !app_nil_r, values_or_nil, <- (single_vspec cb).
      destruct (fst (rewrite_vspec cb false ov v)) as [v'|]; cbn [const_specs oread]; [|reflexivity].
      rewrite app_nil_r, values_or_nil. reflexivity.
Qed.

Lemma rewrite_decls_consts cb ov ds :
  wf_paren ds = true -> cb || no_override_in_const_groups ov ds = true ->
  filter named (raw_consts (fst (rewrite_decls cb ov ds))) = filter (live ov) (raw_consts ds).
Proof.
  unfold wf_paren, no_override_in_const_groups, raw_consts.
  induction ds as [|d r IH]; cbn [forallb rewrite_decls flat_map]; intros W C; [reflexivity|].
  apply andb_prop in W. destruct W as [W1 W2].
  rewrite orb_andb_distrib_r in C. apply andb_prop in C. destruct C as [C1 C2].
  rewrite filter_app, <- (rewrite_decl_consts cb ov d W1 C1), <- (IH W2 C2), <- filter_app.
  destruct (rewrite_decl cb ov d) as [[d'|] c1]; destruct (rewrite_decls cb ov r) as [r' c2]; reflexivity.
Qed.

Theorem consts_rewritten cb ov f :
  wf_paren f = true -> cb || no_override_in_const_groups ov f = true ->
  file_consts (rewrite_original_file cb ov f) = filter (kept ov) (file_consts f).
Proof.
  intros W C. unfold file_consts. fold named. rewrite <- filter_andb. fold (live ov). fold (raw_consts f).
  rewrite <- (rewrite_decls_consts cb ov f W C). unfold rewrite_original_file.
  destruct (rewrite_decls cb ov f) as [ds [|]]; cbn [fst]; [fold (raw_consts (prune_imports ds)); rewrite prune_consts|]; reflexivity.
Qed.

Lemma consts_untouched cb ov f :
  wf_paren f = true -> cb || no_override_in_const_groups ov f = true ->
  consts_preserved ov f (rewrite_original_file cb ov f).
Proof.
  intros W C n z K H. rewrite consts_rewritten by assumption. apply filter_In. split; [exact H|].
  unfold kept. cbn [fst]. rewrite K. reflexivity.
Qed.

Theorem untouched_values_blanking : forall ov f,
  wf_paren f = true -> consts_preserved ov f (rewrite_original_file true ov f).
Proof. intros. apply consts_untouched; auto. Qed.

Theorem untouched_values_partial : forall ov f,
  wf_paren f = true -> no_override_in_const_groups ov f = true ->
  consts_preserved ov f (rewrite_original_file false ov f).
Proof. intros. apply consts_untouched; auto. Qed.

(* overlay `const B = 100`, original `const (A = iota; B; C)` *)
Definition witness_overlay : file :=
  [DGen (mkg TConst false [] [SValue (mkv ["B"] false [VLit 100] [] [])])].
Definition witness_original : file :=
  [DGen (mkg TConst true [] [SValue (mkv ["A"] false [VIota 0] [] []);
                              SValue (mkv ["B"] false [] [] []);
                              SValue (mkv ["C"] false [] [] [])])].

Lemma witness_values :
  file_consts witness_original = [("A", Some 0%Z); ("B", Some 1%Z); ("C", Some 2%Z)] /\
  (let '(ov, _, origs') := merge false "x/p" [witness_overlay] [witness_original] in
   ov = [("B", plain)] /\ map file_consts origs' = [[("A", Some 0%Z); ("C", Some 1%Z)]]).
Proof. vm_compute. repeat split; reflexivity. Qed.

Theorem untouched_values_refuted :
  ~ (forall ov f, wf_paren f = true -> consts_preserved ov f (rewrite_original_file false ov f)).
Proof.
  intros H.
  assert (P : In ("C", Some 2%Z) (file_consts witness_original)) by (vm_compute; right; right; left; reflexivity).
  specialize (H [("B", plain)] witness_original eq_refl "C" (Some 2%Z) eq_refl P).
  vm_compute in H. destruct H as [H|[H|H]]; [discriminate|discriminate|contradiction].
Qed.

Theorem untouched_values_current :
  if const_group_blanking
  then (forall ov f, wf_paren f = true -> consts_preserved ov f (rewrite_original_file true ov f))
  else ~ (forall ov f, wf_paren f = true -> consts_preserved ov f (rewrite_original_file false ov f)).
Proof.
  destruct const_group_blanking.
  - exact untouched_values_blanking.
  - exact untouched_values_refuted.
Qed.
