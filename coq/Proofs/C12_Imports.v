(* C12 — the imports law: what Model.C12_Merge.prune_imports (build.pruneImports) does to the imports of a file,
   for arbitrary files. *)
From Coq Require Import List String Ascii Bool NArith ZArith Arith Lia.
From Verif Require Import Gen.C12_Tables Model.C12_Merge Model.C12_Law Proofs.C12_Merge.
Import ListNotations.
Local Open Scope string_scope.

Arguments String.eqb : simpl never.

(* while the import names are distinct, pruneImports' [unused] map is the list of the named imports with their
   positions *)

Definition nonempty (n : string) : bool := negb (String.eqb n "").

Fixpoint named_imports (idx : nat) (is : list ispec) : list (string * nat) :=
  match is with
  | [] => []
  | i :: r => ((if String.eqb (import_name i) "" then [] else [(import_name i, idx)]) ++ named_imports (S idx) r)%list
  end.

Lemma lookup_not_in {A} n (m : list (string * A)) : ~ In n (map fst m) -> lookup n m = None.
Proof.
  induction m as [|[k v] m IH]; simpl; intros H; auto.
  destruct (String.eqb n k) eqn:E.
  - apply String.eqb_eq in E. subst. exfalso. apply H. left. reflexivity.
  - apply IH. intros X. apply H. right. exact X.
Qed.

Lemma set_fresh {A} n (v : A) m : lookup n m = None -> set n v m = (m ++ [(n, v)])%list.
Proof.
  induction m as [|[k w] m IH]; simpl; intros H; auto.
  destruct (String.eqb n k); [discriminate|]. rewrite IH; auto.
Qed.

Lemma unused_map_named is : forall idx m,
  NoDup (map fst m ++ filter nonempty (map import_name is))%list ->
  unused_map idx is m = (m ++ named_imports idx is)%list.
Proof.
  induction is as [|i r IH]; intros idx m H; simpl.
  - rewrite app_nil_r. reflexivity.
  - simpl in H. unfold nonempty at 1 in H.
    destruct (String.eqb (import_name i) "") eqn:E; simpl in H.
    + simpl. apply IH. exact H.
    + assert (F : ~ In (import_name i) (map fst m)).
      { intros X. apply NoDup_remove_2 in H. apply H. apply in_or_app. left. exact X. }
      rewrite (set_fresh _ _ _ (lookup_not_in _ _ F)).
      rewrite IH.
      * rewrite <- app_assoc. reflexivity.
      * rewrite map_app. simpl. rewrite <- app_assoc. simpl. exact H.
Qed.

Lemma index_in_app j (a b : list (string * nat)) : index_in j (a ++ b)%list = index_in j a || index_in j b.
Proof. unfold index_in. apply existsb_app. Qed.

Lemma index_in_below (P : string * nat -> bool) is : forall k j,
  j < k -> index_in j (filter P (named_imports k is)) = false.
Proof.
  induction is as [|i r IH]; intros k j L; simpl; auto.
  rewrite filter_app, index_in_app. rewrite (IH (S k) j) by lia. rewrite orb_false_r.
  destruct (String.eqb (import_name i) ""); simpl; auto.
  destruct (P (import_name i, k)); simpl; auto.
  rewrite orb_false_r. apply Nat.eqb_neq. lia.
Qed.

Lemma index_in_at (P : string * nat -> bool) is : forall k j i,
  nth_error is j = Some i ->
  index_in (k + j) (filter P (named_imports k is)) = nonempty (import_name i) && P (import_name i, k + j).
Proof.
  induction is as [|i0 r IH]; intros k j i H; [destruct j; discriminate|].
  simpl. rewrite filter_app, index_in_app.
  destruct j as [|j']; simpl in H.
  - injection H as H. subst i0. rewrite Nat.add_0_r.
    rewrite (index_in_below P r (S k) k) by lia. rewrite orb_false_r.
    unfold nonempty. destruct (String.eqb (import_name i) ""); simpl; auto.
    destruct (P (import_name i, k)); simpl; auto. rewrite Nat.eqb_refl. reflexivity.
  - replace (k + S j') with (S k + j') by lia. rewrite (IH (S k) j' i H).
    assert (X : index_in (S k + j') (filter P (if String.eqb (import_name i0) "" then [] else [(import_name i0, k)])) = false).
    { destruct (String.eqb (import_name i0) ""); [reflexivity|].
      cbn [filter]. destruct (P (import_name i0, k)); [|reflexivity].
      unfold index_in. cbn [existsb]. rewrite orb_false_r. apply Nat.eqb_neq. lia. }
    rewrite X. reflexivity.
Qed.

(* apply_specs decides by position; where the decision depends on the import spec alone ([dec]) it is a flat_map *)

Definition decf (a : iaction) (i : ispec) : list ispec :=
  match a with IKeep => [i] | IBlank => [blank_import i] | IDrop => [] end.

Lemma apply_specs_imports (dec : ispec -> iaction) act ss : forall idx,
  (forall j i, nth_error (flat_map spec_imports ss) j = Some i -> act (idx + j) = dec i) ->
  flat_map spec_imports (fst (fst (apply_specs act idx ss))) =
    flat_map (fun i => decf (dec i) i) (flat_map spec_imports ss) /\
  snd (apply_specs act idx ss) = idx + List.length (flat_map spec_imports ss).
Proof.
  induction ss as [|s r IH]; intros idx H; simpl.
  - split; [reflexivity|lia].
  - destruct s as [i|t|v]; simpl in *.
    + assert (H0 : act idx = dec i). { specialize (H 0 i eq_refl). rewrite Nat.add_0_r in H. exact H. }
      assert (H1 : forall j i', nth_error (flat_map spec_imports r) j = Some i' -> act (S idx + j) = dec i').
      { intros j i' X. specialize (H (S j) i' X). replace (S idx + j) with (idx + S j) by lia. exact H. }
      specialize (IH (S idx) H1). destruct (apply_specs act (S idx) r) as [[r' ch] n]. simpl in *.
      destruct IH as [I1 I2]. rewrite H0.
      destruct (dec i); simpl; (split; [rewrite I1; reflexivity|lia]).
    + specialize (IH idx H). destruct (apply_specs act idx r) as [[r' ch] n]. simpl in *. exact IH.
    + specialize (IH idx H). destruct (apply_specs act idx r) as [[r' ch] n]. simpl in *. exact IH.
Qed.

Lemma apply_imports_imports (dec : ispec -> iaction) act f : forall idx,
  (forall j i, nth_error (file_imports f) j = Some i -> act (idx + j) = dec i) ->
  file_imports (apply_imports act idx f) = flat_map (fun i => decf (dec i) i) (file_imports f).
Proof.
  unfold file_imports. induction f as [|d r IH]; intros idx H; simpl; auto.
  destruct d as [fd|g]; simpl in *.
  - apply IH. exact H.
  - assert (Ha : forall j i, nth_error (flat_map spec_imports (g_specs g)) j = Some i -> act (idx + j) = dec i).
    { intros j i X. apply H. rewrite nth_error_app1; auto. apply nth_error_Some. congruence. }
    pose proof (apply_specs_imports dec act (g_specs g) idx Ha) as [A1 A2].
    destruct (apply_specs act idx (g_specs g)) as [[ss ch] n]. simpl in *.
    assert (Hb : forall j i, nth_error (flat_map decl_imports r) j = Some i -> act (n + j) = dec i).
    { intros j i X. subst n. rewrite <- Nat.add_assoc. apply H.
      rewrite nth_error_app2 by lia. replace (_ + j - _) with j by lia. exact X. }
    specialize (IH n Hb). rewrite flat_map_app. rewrite <- A1, <- IH.
    destruct (ch && match ss with [] => true | _ :: _ => false end) eqn:E.
    + rewrite (emptied _ _ E). reflexivity.
    + reflexivity.
Qed.

Definition dec_of (f : file) (i : ispec) : iaction :=
  if nonempty (import_name i) && negb (mem (import_name i) (file_uses f))
  then (if directive_required f i then IBlank else IDrop) else IKeep.

Lemma decf_law f i : decf (dec_of f i) i = law_import f i.
Proof.
  unfold dec_of, law_import, nonempty.
  destruct (String.eqb (import_name i) ""); simpl; auto.
  destruct (mem (import_name i) (file_uses f)); simpl; auto.
  destruct (directive_required f i); reflexivity.
Qed.

Theorem imports_law : forall f,
  (is_only_imports f && negb (has_directive_prefix f linkname_prefix)) = false ->
  NoDup (filter (fun n => negb (String.eqb n "")) (map import_name (file_imports f))) ->
  file_imports (prune_imports f) = flat_map (law_import f) (file_imports f) /\
  declared (prune_imports f) = declared f.
Proof.
  intros f E ND. unfold prune_imports. cbv zeta. rewrite E.
  rewrite (unused_map_named (file_imports f) 0 [] ND). simpl app.
  match goal with |- context [filter ?p (named_imports 0 (file_imports f))] => set (P := p) end.
  assert (Hact : forall j i, nth_error (file_imports f) j = Some i ->
            index_in j (filter P (named_imports 0 (file_imports f))) =
            nonempty (import_name i) && negb (mem (import_name i) (file_uses f))).
  { intros j i X. apply (index_in_at P (file_imports f) 0 j i X). }
  destruct (filter P (named_imports 0 (file_imports f))) as [|u us] eqn:U.
  - split; [|reflexivity]. symmetry. apply flat_map_single. intros i Hin.
    apply In_nth_error in Hin. destruct Hin as [j Hj]. specialize (Hact j i Hj). simpl in Hact.
    rewrite <- decf_law. unfold dec_of. rewrite <- Hact. reflexivity.
  - split; [|apply apply_imports_declared].
    rewrite (apply_imports_imports (dec_of f)).
    + apply flat_map_ext. intros i. apply decf_law.
    + intros j i X. cbv beta. change (0 + j) with j. rewrite X. rewrite (Hact j i X). unfold dec_of.
      destruct (nonempty (import_name i) && negb (mem (import_name i) (file_uses f))); reflexivity.
Qed.
