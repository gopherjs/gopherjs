(* C12 — the overlay-merge model (Model/C12_Merge.v) against the law (Model/C12_Law.v), for arbitrary files and
   override tables: what the scan of the overlay and the rewrite of the originals declare, their order, purged types. *)
From Coq Require Import List String Ascii Bool NArith ZArith Arith Lia.
From Verif Require Import Gen.C12_Tables Model.C12_Merge Model.C12_Law.
Import ListNotations.
Local Open Scope string_scope.

Lemma flat_map_nil_fun {A B} (l : list A) : flat_map (fun _ : A => @nil B) l = [].
Proof. induction l; simpl; auto. Qed.

Lemma flat_map_single {A} (f : A -> list A) (l : list A) :
  (forall x, In x l -> f x = [x]) -> flat_map f l = l.
Proof.
  induction l; simpl; intros H; auto.
  rewrite H by auto. simpl. f_equal. apply IHl. auto.
Qed.

Lemma lookup_set {A} k k' (v : A) m :
  lookup k (set k' v m) = if String.eqb k k' then Some v else lookup k m.
Proof.
  induction m as [|[k0 v0] m IH]; simpl.
  - destruct (String.eqb k k'); reflexivity.
  - destruct (String.eqb k' k0) eqn:E0; simpl.
    + apply String.eqb_eq in E0. subst k0.
      destruct (String.eqb k k'); reflexivity.
    + destruct (String.eqb k k0) eqn:E1.
      * apply String.eqb_eq in E1. subst k0.
        destruct (String.eqb k k') eqn:E2; auto.
        apply String.eqb_eq in E2. subst k'. rewrite String.eqb_refl in E0. discriminate.
      * exact IH.
Qed.

Lemma lookup_remove {A} k k' (m : list (string * A)) :
  lookup k (remove_key k' m) = if String.eqb k k' then None else lookup k m.
Proof.
  induction m as [|[k0 v0] m IH]; simpl.
  - destruct (String.eqb k k'); reflexivity.
  - destruct (String.eqb k' k0) eqn:E0.
    + apply String.eqb_eq in E0. subst k0. rewrite IH.
      destruct (String.eqb k k'); reflexivity.
    + simpl. destruct (String.eqb k k0) eqn:E1; auto.
      apply String.eqb_eq in E1. subst k0.
      destruct (String.eqb k k') eqn:E2; auto.
      apply String.eqb_eq in E2. subst k'. rewrite String.eqb_refl in E0. discriminate.
Qed.

Definition set_all {A} (es : list (string * A)) (m : list (string * A)) : list (string * A) :=
  fold_left (fun m e => set (fst e) (snd e) m) es m.

Lemma set_all_app {A} (a b : list (string * A)) m : set_all (a ++ b) m = set_all b (set_all a m).
Proof. unfold set_all. apply fold_left_app. Qed.

Lemma lookup_set_all {A} k (es : list (string * A)) m :
  lookup k (set_all es m) = lookup_after k es (lookup k m).
Proof.
  revert m. induction es as [|[k' v] es IH]; intros m; simpl; auto.
  unfold set_all in *. simpl. rewrite IH. unfold lookup_after. simpl. rewrite lookup_set. reflexivity.
Qed.

Arguments is_blank_name : simpl never.
Arguments String.eqb : simpl never.
Arguments has_key : simpl never.
Arguments has_directive : simpl never.

Definition spec_purged (pd : bool) (s : spec) : bool := pd || has_directive (spec_comments s) action_purge.

Lemma scan_spec_eq pd s ov :
  scan_spec pd s ov = (set_all (spec_entries pd s) ov, spec_purged pd s).
Proof.
  unfold scan_spec, spec_purged. f_equal.
  destruct s as [i|t|v]; simpl; auto.
  unfold set_all. generalize ov. induction (v_names v) as [|n ns IH]; simpl; auto.
Qed.

Lemma scan_specs_eq pd ss : forall ov,
  scan_specs pd ss ov =
  (filter (fun s => negb (spec_purged pd s)) ss,
   set_all (flat_map (spec_entries pd) ss) ov,
   existsb (spec_purged pd) ss).
Proof.
  induction ss as [|s r IH]; intros ov; [reflexivity|].
  cbn [scan_specs]. rewrite scan_spec_eq. rewrite IH.
  cbn [flat_map filter existsb]. rewrite set_all_app.
  destruct (spec_purged pd s); reflexivity.
Qed.

Lemma declared_filter_purged tk ss :
  flat_map (declared_spec tk) (filter (fun s => negb (spec_purged false s)) ss) =
  flat_map (overlay_law_spec tk) ss.
Proof.
  induction ss as [|s r IH]; [reflexivity|].
  cbn [filter flat_map]. rewrite <- IH.
  unfold overlay_law_spec, spec_purged. cbn [orb].
  destruct (has_directive (spec_comments s) action_purge); reflexivity.
Qed.

Lemma filter_all_purged (ss : list spec) : filter (fun s => negb (spec_purged true s)) ss = [].
Proof. induction ss; simpl; auto. Qed.

(* what a reader [F] sees of something that may have been removed *)
Definition oread {A B} (F : A -> list B) (o : option A) : list B :=
  match o with Some a => F a | None => [] end.

Lemma scan_decl_law d ov :
  let '(od, ov', _) := scan_decl d ov in
  oread declared_decl od = overlay_law_decl d /\ ov' = set_all (decl_entries d) ov.
Proof.
  destruct d as [f|g].
  - simpl. split; [|reflexivity].
    destruct (has_directive (f_doc f) action_purge || has_directive (f_doc f) action_sig); reflexivity.
  - unfold overlay_law_decl, decl_entries. cbn [scan_decl].
    destruct (has_directive (g_doc g) action_purge) eqn:P; rewrite scan_specs_eq.
    + rewrite filter_all_purged. cbv beta iota. cbn [orb]. split; reflexivity.
    + rewrite <- declared_filter_purged.
      generalize (filter (fun s => negb (spec_purged false s)) (g_specs g)) as ss'. intros ss'.
      cbv beta iota. cbn [orb].
      destruct (existsb (spec_purged false) (g_specs g)); destruct ss'; cbn; split; reflexivity.
Qed.

Lemma scan_decls_law ds : forall ov,
  let '(ds', ov', _) := scan_decls ds ov in
  declared ds' = overlay_law ds /\ ov' = set_all (file_entries ds) ov.
Proof.
  induction ds as [|d r IH]; intros ov; simpl; auto.
  pose proof (scan_decl_law d ov) as H.
  destruct (scan_decl d ov) as [[od ov1] ch1]. destruct H as [H1 H2].
  specialize (IH ov1). destruct (scan_decls r ov1) as [[r' ov2] ch2]. destruct IH as [I1 I2].
  split.
  - unfold declared, overlay_law in *. simpl. rewrite <- H1, <- I1.
    destruct od; simpl; reflexivity.
  - unfold file_entries. simpl. rewrite set_all_app. subst. reflexivity.
Qed.

Definition other_specs (ss : list spec) : list spec := filter (fun s => negb (is_import_spec s)) ss.

Lemma apply_specs_other act ss : forall idx, other_specs (fst (fst (apply_specs act idx ss))) = other_specs ss.
Proof.
  induction ss as [|s r IH]; intros idx; [reflexivity|].
  destruct s as [i|t|v]; cbn [apply_specs].
  - specialize (IH (S idx)). destruct (apply_specs act (S idx) r) as [[r' ch] n]. destruct (act idx); exact IH.
  - specialize (IH idx). destruct (apply_specs act idx r) as [[r' ch] n]. cbn in *. rewrite IH. reflexivity.
  - specialize (IH idx). destruct (apply_specs act idx r) as [[r' ch] n]. cbn in *. rewrite IH. reflexivity.
Qed.

(* the test under which a declaration that has lost its specs is dropped *)
Lemma emptied (b : bool) (ss : list spec) : b && match ss with [] => true | _ :: _ => false end = true -> ss = [].
Proof. destruct ss; [reflexivity|]. rewrite andb_false_r. discriminate. Qed.

(* rewrite_specs works spec by spec: what it leaves of one *)
Definition rewrite_spec (cb grp : bool) (ov : overrides) (s : spec) : list spec :=
  match s with
  | SImport _ => [s]
  | SType t => if has_key (t_name t) ov then [] else [s]
  | SValue v => match fst (rewrite_vspec cb grp ov v) with Some v' => [SValue v'] | None => [] end
  end.

Lemma rewrite_specs_fst cb grp ov ss :
  fst (fst (rewrite_specs cb grp ov ss)) = flat_map (rewrite_spec cb grp ov) ss.
Proof.
  induction ss as [|s r IH]; [reflexivity|]. cbn [rewrite_specs flat_map]. rewrite <- IH.
  destruct (rewrite_specs cb grp ov r) as [[r' ch] dch]. destruct s as [i|t|v]; cbn.
  - reflexivity.
  - destruct (has_key (t_name t) ov); reflexivity.
  - destruct (rewrite_vspec cb grp ov v) as [[v'|] c]; reflexivity.
Qed.

(* A reader [F] of declarations that finds nothing in a [DGen] without specs.  It does not see whether a pass
   drops the declarations it has emptied: it reads the rewrite of a [DGen] as that declaration with its specs
   rewritten one by one; and if it looks at no import spec, it reads the same before and after pruneImports. *)
Section Reader.
Context {B : Type} (F : decl -> list B).
Hypothesis F_empty : forall t p d, F (DGen (mkg t p d [])) = [].

Lemma rewrite_decl_read cb ov g :
  oread F (fst (rewrite_decl cb ov (DGen g))) =
  F (DGen (mkg (g_tok g) (g_paren g) (g_doc g) (flat_map (rewrite_spec cb (is_const_group g) ov) (g_specs g)))).
Proof.
  cbn [rewrite_decl]. rewrite <- rewrite_specs_fst.
  destruct (rewrite_specs cb (is_const_group g) ov (g_specs g)) as [[ss ch] dch]. cbn [fst].
  destruct (dch && _) eqn:E; [|reflexivity]. rewrite (emptied _ _ E). symmetry. apply F_empty.
Qed.

Hypothesis F_other : forall g ss, other_specs ss = other_specs (g_specs g) ->
  F (DGen (mkg (g_tok g) (g_paren g) (g_doc g) ss)) = F (DGen g).

Lemma apply_imports_unchanged act f : forall idx, flat_map F (apply_imports act idx f) = flat_map F f.
Proof.
  induction f as [|d r IH]; intros idx; [reflexivity|].
  destruct d as [fd|g]; cbn [apply_imports flat_map]; [rewrite IH; reflexivity|].
  pose proof (apply_specs_other act (g_specs g) idx) as H.
  destruct (apply_specs act idx (g_specs g)) as [[ss ch] n]. cbn [fst] in H.
  rewrite <- (F_other g ss H).
  destruct (ch && match ss with [] => true | _ :: _ => false end) eqn:E; cbn [flat_map]; rewrite IH; [|reflexivity].
  rewrite (emptied _ _ E), F_empty. reflexivity.
Qed.

Lemma prune_imports_unchanged f :
  (is_only_imports f = true -> flat_map F f = []) -> flat_map F (prune_imports f) = flat_map F f.
Proof.
  intros O. unfold prune_imports.
  destruct (is_only_imports f && negb (has_directive_prefix f linkname_prefix)) eqn:E.
  - apply andb_prop in E. symmetry. apply O, E.
  - match goal with |- context [match ?u with [] => _ | _ => _ end] => destruct u end; [reflexivity|].
    apply apply_imports_unchanged.
Qed.
End Reader.

Lemma declared_other tk ss : flat_map (declared_spec tk) (other_specs ss) = flat_map (declared_spec tk) ss.
Proof. unfold other_specs. induction ss as [|[i|t|v] r IH]; cbn; rewrite ?IH; reflexivity. Qed.

Lemma declared_decl_other g ss : other_specs ss = other_specs (g_specs g) ->
  declared_decl (DGen (mkg (g_tok g) (g_paren g) (g_doc g) ss)) = declared_decl (DGen g).
Proof. intros H. cbn. rewrite <- declared_other, H. apply declared_other. Qed.

Lemma apply_imports_declared act f idx : declared (apply_imports act idx f) = declared f.
Proof. apply apply_imports_unchanged; [reflexivity | exact declared_decl_other]. Qed.

Lemma only_imports_declared f :
  wf_file f = true -> is_only_imports f = true -> declared f = [].
Proof.
  unfold wf_file, is_only_imports, declared.
  induction f as [|d r IH]; simpl; intros W O; auto.
  apply andb_prop in W. destruct W as [W1 W2]. apply andb_prop in O. destruct O as [O1 O2].
  rewrite (IH W2 O2). rewrite app_nil_r.
  destruct d as [fd|g]; simpl in *; [discriminate|].
  destruct (g_tok g); try discriminate.
  induction (g_specs g) as [|s ss IHs]; simpl in *; auto.
  apply andb_prop in W1. destruct W1 as [Ws Wss].
  destruct s; try discriminate. simpl. auto.
Qed.

Lemma prune_imports_declared f :
  wf_file f = true -> declared (prune_imports f) = declared f.
Proof.
  intros W. apply prune_imports_unchanged; [reflexivity | exact declared_decl_other | apply only_imports_declared, W].
Qed.

Lemma rewrite_func_law ov f :
  match fst (rewrite_func ov f) with Some f' => [DIFunc f'] | None => [] end = law_func ov f.
Proof.
  unfold rewrite_func, law_func, receiver_purged.
  destruct (lookup (func_key f) ov) as [info|]; simpl.
  - destruct (o_keep info); destruct (o_sig info); simpl; reflexivity.
  - match goal with |- context [if ?c then _ else _] => destruct c end; reflexivity.
Qed.

Lemma blank_item ov n (mk : string -> ditem) :
  (forall m, law_item ov (mk m) = if has_key m ov then [] else [mk m]) ->
  (if is_blank_name (if has_key n ov then "_" else n) then [] else [mk (if has_key n ov then "_" else n)]) =
  flat_map (law_item ov) (if is_blank_name n then [] else [mk n]).
Proof.
  intros H. destruct (has_key n ov) eqn:K.
  - replace (is_blank_name "_") with true by reflexivity.
    destruct (is_blank_name n); simpl; rewrite ?H, ?K; reflexivity.
  - destruct (is_blank_name n); simpl; rewrite ?H, ?K; reflexivity.
Qed.

Lemma declared_pairs_blank tk typ ov ns : forall vs,
  declared_pairs tk typ (blank_names ov ns) vs = flat_map (law_item ov) (declared_pairs tk typ ns vs).
Proof.
  induction ns as [|n r IH]; intros vs; [reflexivity|].
  destruct vs as [|v vs']; [reflexivity|].
  simpl. rewrite flat_map_app. rewrite <- IH. f_equal.
  apply (blank_item ov n (fun m => DIValue tk m typ (Some v))). reflexivity.
Qed.

Lemma declared_shared_blank tk typ ov ns :
  declared_shared tk typ (blank_names ov ns) = flat_map (law_item ov) (declared_shared tk typ ns).
Proof.
  unfold declared_shared. induction ns as [|n r IH]; [reflexivity|].
  simpl. rewrite flat_map_app. rewrite <- IH. f_equal.
  apply (blank_item ov n (fun m => DIValue tk m typ None)). reflexivity.
Qed.

Lemma declared_shared_all_blank tk typ ns :
  forallb (String.eqb "_") ns = true -> declared_shared tk typ ns = [].
Proof.
  unfold declared_shared. induction ns as [|n r IH]; simpl; auto.
  intros H. apply andb_prop in H. destruct H as [H1 H2].
  unfold is_blank_name. rewrite H1. simpl. auto.
Qed.

Lemma blank_names_length ov ns : List.length (blank_names ov ns) = List.length ns.
Proof. unfold blank_names. apply map_length. Qed.

Lemma filter_pairs_law tk typ ov ns : forall vs,
  List.length ns = List.length vs ->
  declared_pairs tk typ (fst (filter_pairs ov ns vs)) (snd (filter_pairs ov ns vs)) =
    flat_map (law_item ov) (declared_pairs tk typ ns vs) /\
  List.length (fst (filter_pairs ov ns vs)) = List.length (snd (filter_pairs ov ns vs)).
Proof.
  induction ns as [|n r IH]; intros vs L; simpl.
  - split; reflexivity.
  - destruct vs as [|v vs']; simpl in L; [discriminate|].
    injection L as L. specialize (IH vs' L). destruct IH as [I1 I2].
    destruct (filter_pairs ov r vs') as [a b] eqn:E. simpl in *.
    rewrite flat_map_app. rewrite <- I1.
    destruct (has_key n ov) eqn:K; simpl.
    + split; auto. destruct (is_blank_name n); simpl; [reflexivity|]. rewrite K. reflexivity.
    + split; [|lia]. destruct (is_blank_name n); simpl; [reflexivity|]. rewrite K. reflexivity.
Qed.

Lemma filter_pairs_id ov ns : forall vs,
  List.length ns = List.length vs ->
  existsb (fun n => has_key n ov) ns = false -> filter_pairs ov ns vs = (ns, vs).
Proof.
  induction ns as [|n r IH]; intros vs L E; simpl.
  - destruct vs; [reflexivity|discriminate].
  - destruct vs as [|v vs']; simpl in L; [discriminate|]. injection L as L.
    simpl in E. apply orb_false_elim in E. destruct E as [E1 E2].
    rewrite (IH vs' L E2). rewrite E1. reflexivity.
Qed.

Lemma rewrite_vspec_law cb grp tk ov v :
  oread (declared_vspec tk) (fst (rewrite_vspec cb grp ov v)) = flat_map (law_item ov) (declared_vspec tk v).
Proof.
  unfold rewrite_vspec. destruct (cb && grp); simpl.
  - (* in a parenthesised const group overridden names are blanked, whatever the shape of the spec *)
    unfold declared_vspec. simpl. rewrite blank_names_length.
    destruct (Nat.eqb (List.length (v_names v)) (List.length (v_values v))).
    + apply declared_pairs_blank.
    + apply declared_shared_blank.
  - unfold declared_vspec at 2.
    destruct (Nat.eqb (List.length (v_names v)) (List.length (v_values v))) eqn:L.
    + (* one value per name: the overridden names go with their values, the spec with its last name *)
      apply Nat.eqb_eq in L.
      pose proof (filter_pairs_law tk (v_typ v) ov (v_names v) (v_values v) L) as [H1 H2].
      destruct (filter_pairs ov (v_names v) (v_values v)) as [a b] eqn:E. simpl in *.
      destruct a as [|n0 a'].
      * destruct (existsb (fun n => has_key n ov) (v_names v)) eqn:X; simpl.
        -- rewrite <- H1. destruct b; reflexivity.
        -- rewrite <- H1. rewrite (filter_pairs_id ov _ _ L X) in E. injection E as E1 E2.
           unfold declared_vspec. rewrite E1. destruct (v_values v); reflexivity.
      * cbn [fst oread]. unfold declared_vspec at 1. cbn [v_names v_values v_typ].
        rewrite H2. rewrite Nat.eqb_refl. rewrite <- H1. reflexivity.
    + (* values shared by the names: overridden names are blanked, the spec goes when only blanks are left *)
      destruct (existsb (fun n => has_key n ov) (v_names v) && forallb (String.eqb "_") (blank_names ov (v_names v))) eqn:X; simpl.
      * apply andb_prop in X. destruct X as [_ X].
        rewrite <- declared_shared_blank. rewrite (declared_shared_all_blank _ _ _ X). reflexivity.
      * unfold declared_vspec. simpl. rewrite blank_names_length. rewrite L.
        apply declared_shared_blank.
Qed.

Lemma rewrite_spec_law cb grp tk ov s :
  flat_map (declared_spec tk) (rewrite_spec cb grp ov s) = flat_map (law_item ov) (declared_spec tk s).
Proof.
  destruct s as [i|t|v]; cbn.
  - reflexivity.
  - destruct (has_key (t_name t) ov); reflexivity.
  - rewrite <- (rewrite_vspec_law cb grp). destruct (fst (rewrite_vspec cb grp ov v)); cbn; rewrite ?app_nil_r; reflexivity.
Qed.

Lemma rewrite_specs_law cb grp tk ov ss :
  flat_map (declared_spec tk) (flat_map (rewrite_spec cb grp ov) ss) =
  flat_map (law_item ov) (flat_map (declared_spec tk) ss).
Proof.
  induction ss as [|s r IH]; [reflexivity|].
  cbn [flat_map]. rewrite !flat_map_app, IH, rewrite_spec_law. reflexivity.
Qed.

Lemma rewrite_decl_law cb ov d :
  oread declared_decl (fst (rewrite_decl cb ov d)) = flat_map (law_item ov) (declared_decl d).
Proof.
  destruct d as [f|g].
  - simpl. rewrite app_nil_r. rewrite <- rewrite_func_law.
    destruct (rewrite_func ov f) as [[f'|] c]; reflexivity.
  - rewrite rewrite_decl_read by reflexivity. apply rewrite_specs_law.
Qed.

Lemma rewrite_decls_law cb ov ds :
  declared (fst (rewrite_decls cb ov ds)) = flat_map (law_item ov) (declared ds).
Proof.
  unfold declared. induction ds as [|d r IH]; simpl; auto.
  pose proof (rewrite_decl_law cb ov d) as H.
  destruct (rewrite_decl cb ov d) as [od c1]. destruct (rewrite_decls cb ov r) as [r' c2].
  simpl in *. rewrite flat_map_app. rewrite <- H, <- IH.
  destruct od; reflexivity.
Qed.

(* well-formedness survives the rewriting (needed to know what an import-only file declares) *)
Lemma rewrite_specs_imports cb grp ov ss :
  forallb is_import_spec ss = true -> rewrite_specs cb grp ov ss = (ss, false, false).
Proof.
  induction ss as [|s r IH]; simpl; intros H; auto.
  apply andb_prop in H. destruct H as [H1 H2]. rewrite (IH H2).
  destruct s; try discriminate. reflexivity.
Qed.

Lemma rewrite_decls_wf cb ov ds :
  wf_file ds = true -> wf_file (fst (rewrite_decls cb ov ds)) = true.
Proof.
  unfold wf_file. induction ds as [|d r IH]; simpl; intros W; auto.
  apply andb_prop in W. destruct W as [W1 W2]. specialize (IH W2).
  destruct (rewrite_decls cb ov r) as [r' c2]. simpl in IH.
  destruct d as [f|g]; simpl.
  - destruct (rewrite_func ov f) as [[f'|] c]; simpl; auto.
  - simpl in W1. destruct (g_tok g) eqn:T.
    1: { (* import *) rewrite (rewrite_specs_imports cb (is_const_group g) ov _ W1). simpl. rewrite ?T, ?W1. exact IH. }
    (* only an import declaration constrains its specs *)
    all: destruct (rewrite_specs cb (is_const_group g) ov (g_specs g)) as [[ss ch] dch];
      destruct (dch && match ss with [] => true | _ :: _ => false end); simpl; auto; rewrite T; auto.
Qed.

Lemma rewrite_original_file_law cb ov f :
  wf_file f = true ->
  declared (rewrite_original_file cb ov f) = flat_map (law_item ov) (declared f).
Proof.
  intros W. unfold rewrite_original_file.
  pose proof (rewrite_decls_law cb ov f) as H. pose proof (rewrite_decls_wf cb ov f W) as W'.
  destruct (rewrite_decls cb ov f) as [ds ch]. simpl in *.
  destruct ch; auto. rewrite prune_imports_declared; auto.
Qed.

Lemma filter_import_specs (p : spec -> bool) ss :
  forallb is_import_spec ss = true -> forallb is_import_spec (filter p ss) = true.
Proof.
  induction ss as [|s r IH]; simpl; intros H; auto.
  apply andb_prop in H. destruct H as [H1 H2].
  destruct (p s); simpl; auto. rewrite H1. auto.
Qed.

Lemma scan_decls_wf ds : forall ov,
  wf_file ds = true -> wf_file (fst (fst (scan_decls ds ov))) = true.
Proof.
  unfold wf_file. induction ds as [|d r IH]; intros ov W; simpl; auto.
  simpl in W. apply andb_prop in W. destruct W as [W1 W2].
  destruct (scan_decl d ov) as [[od ov1] ch1] eqn:E.
  specialize (IH ov1 W2). destruct (scan_decls r ov1) as [[r' ov2] ch2]. simpl in *.
  destruct od as [d'|]; simpl; auto. rewrite IH. rewrite andb_true_r.
  destruct d as [f|g]; simpl in E.
  - destruct (has_directive (f_doc f) action_purge || has_directive (f_doc f) action_sig); inversion E; subst; reflexivity.
  - rewrite scan_specs_eq in E.
    match type of E with (if ?c then _ else _, _, _) = _ => destruct c end; inversion E; subst. simpl.
    simpl in W1. destruct (g_tok g); auto. apply filter_import_specs. exact W1.
Qed.

Lemma scan_overlay_file_law f ov :
  wf_file f = true ->
  declared (fst (scan_overlay_file f ov)) = overlay_law f /\
  snd (scan_overlay_file f ov) = set_all (file_entries f) ov.
Proof.
  intros W. unfold scan_overlay_file.
  pose proof (scan_decls_law f ov) as H. pose proof (scan_decls_wf f ov W) as W'.
  destruct (scan_decls f ov) as [[ds ov'] ch]. simpl in *. destruct H as [H1 H2].
  split; auto. destruct ch; auto. rewrite prune_imports_declared; auto.
Qed.

Lemma scan_overlay_law fs : forall ov,
  forallb wf_file fs = true ->
  map declared (fst (scan_overlay fs ov)) = map overlay_law fs /\
  snd (scan_overlay fs ov) = set_all (flat_map file_entries fs) ov.
Proof.
  induction fs as [|f r IH]; intros ov W; simpl; auto.
  simpl in W. apply andb_prop in W. destruct W as [W1 W2].
  pose proof (scan_overlay_file_law f ov W1) as [H1 H2].
  destruct (scan_overlay_file f ov) as [f' ov1]. simpl in *.
  specialize (IH ov1 W2). destruct (scan_overlay r ov1) as [r' ov2]. simpl in *.
  destruct IH as [I1 I2]. split.
  - rewrite H1, I1. reflexivity.
  - rewrite set_all_app. subst. reflexivity.
Qed.

(* nosync substitution only touches import specs *)
Lemma nosync_declared p f : declared (augment_original_imports p f) = declared f.
Proof.
  unfold augment_original_imports. destruct (mem p nosync_pkgs); auto.
  unfold declared. induction f as [|d r IH]; simpl; auto.
  rewrite IH. f_equal. destruct d as [fd|g]; simpl; auto.
  induction (g_specs g) as [|s ss IHs]; simpl; auto.
  rewrite IHs. f_equal. destruct s as [i|t|v]; simpl; auto.
  destruct (String.eqb (i_path i) "sync"); reflexivity.
Qed.

Lemma nosync_wf p f : wf_file f = true -> wf_file (augment_original_imports p f) = true.
Proof.
  unfold augment_original_imports. destruct (mem p nosync_pkgs); auto.
  unfold wf_file. induction f as [|d r IH]; simpl; auto.
  intros W. apply andb_prop in W. destruct W as [W1 W2]. rewrite (IH W2). rewrite andb_true_r.
  destruct d as [fd|g]; simpl in *; auto.
  destruct (g_tok g); auto.
  induction (g_specs g) as [|s ss IHs]; simpl in *; auto.
  apply andb_prop in W1. destruct W1 as [Ws Wss]. rewrite (IHs Wss). rewrite andb_true_r.
  destruct s; try discriminate. simpl. destruct (String.eqb (i_path i) "sync"); reflexivity.
Qed.

Lemma law_item_empty it : law_item [] it = [it].
Proof. destruct it; simpl; auto. unfold law_func, receiver_purged. simpl. rewrite andb_false_r. reflexivity. Qed.

Theorem merge_declares : forall cb path ovs origs,
  forallb wf_file ovs = true -> forallb wf_file origs = true ->
  let '(ov, ovs', origs') := merge cb path ovs origs in
  (forall k, lookup k ov =
             if String.eqb k "init" then None else lookup_after k (flat_map file_entries ovs) None) /\
  map declared ovs' = map overlay_law ovs /\
  map declared origs' = map (fun f => flat_map (law_item ov) (declared f)) origs.
Proof.
  intros cb path ovs origs Wo Wr. unfold merge.
  pose proof (scan_overlay_law ovs [] Wo) as [H1 H2].
  destruct (scan_overlay ovs []) as [ovs' ov0]. simpl in *.
  split; [|split]; auto.
  - (* the override table *) intros k. rewrite lookup_remove. rewrite H2. rewrite lookup_set_all. reflexivity.
  - (* the originals *) destruct (remove_key "init" ov0) as [|e ov] eqn:E.
    + (* without overrides the rewrite is skipped, and the law with an empty table keeps every item *)
      rewrite map_map. apply map_ext_in. intros f _.
      rewrite nosync_declared. symmetry. apply flat_map_single. intros; apply law_item_empty.
    + rewrite !map_map. apply map_ext_in. intros f Hin.
      rewrite rewrite_original_file_law.
      * rewrite nosync_declared. reflexivity.
      * apply nosync_wf. rewrite forallb_forall in Wr. auto.
Qed.

Lemma law_item_cases ov it :
  law_item ov it = [] \/ exists it', law_item ov it = [it'] /\ same_origin it it'.
Proof.
  destruct it as [f|t|tk n ty v]; simpl.
  - unfold law_func. destruct (lookup (func_key f) ov) as [info|].
    + destruct (o_keep info || is_some (o_sig info)); [right|left; reflexivity].
      eexists; split; [reflexivity|]. simpl.
      destruct (o_sig info); destruct (o_keep info); simpl; auto.
    + destruct (receiver_purged ov f); [left; reflexivity|right].
      eexists; split; [reflexivity|]. simpl. auto.
  - destruct (has_key (t_name t) ov); [left; reflexivity|right]. eexists; split; [reflexivity|reflexivity].
  - destruct (has_key n ov); [left; reflexivity|right]. eexists; split; [reflexivity|reflexivity].
Qed.

Lemma law_preserves_order ov items :
  exists l, sublist l items /\ Forall2 same_origin l (flat_map (law_item ov) items).
Proof.
  induction items as [|it r [l [S F]]]; simpl.
  - exists []. split; constructor.
  - destruct (law_item_cases ov it) as [E|[it' [E O]]]; rewrite E; simpl.
    + exists l. split; [apply sl_skip; exact S|exact F].
    + exists (it :: l). split; [apply sl_keep; exact S|]. simpl. constructor; [exact O|exact F].
Qed.

(* In the law a function item stems from a function item.  One without an entry of its own is dropped by
   receiver_purged when its receiver type is purged, so a surviving method of a purged type has an entry. *)
Lemma law_purged_method ov it tname info fd' :
  lookup tname ov = Some info -> o_purge info = true -> tname <> "" ->
  In (DIFunc fd') (law_item ov it) -> func_receiver_key fd' = tname ->
  exists fd, it = DIFunc fd /\ has_key (func_key fd) ov = true /\ law_func ov fd = [DIFunc fd'].
Proof.
  intros L P NE I RK. destruct it as [fd|t|tk n ty v]; cbn [law_item] in I.
  2,3: destruct (has_key _ ov); [contradiction | destruct I as [I|[]]; discriminate I].
  exists fd. split; [reflexivity|]. unfold law_func in *. unfold has_key.
  destruct (lookup (func_key fd) ov) as [i|].
  - split; [reflexivity|]. destruct (o_keep i || is_some (o_sig i)); [|contradiction].
    destruct I as [I|[]]. injection I as <-. reflexivity.
  - exfalso. destruct (receiver_purged ov fd) eqn:X; [contradiction|].
    destruct I as [I|[]]. injection I as ->.
    unfold receiver_purged in X. rewrite RK, L, P in X. apply String.eqb_neq in NE. rewrite NE in X. discriminate.
Qed.

(* in the law a purged type declares nothing (so, by merge_declares, neither does the scanned overlay) *)
Lemma overlay_purged_type_absent : forall g t,
  has_directive (g_doc g) action_purge = true \/ has_directive (t_doc t ++ t_cmt t) action_purge = true ->
  In (SType t) (g_specs g) -> overlay_law_decl (DGen g) = [] \/
  overlay_law_spec (g_tok g) (SType t) = [].
Proof.
  intros g t [H|H] _.
  - left. simpl. rewrite H. reflexivity.
  - right. unfold overlay_law_spec. simpl. rewrite H. reflexivity.
Qed.
