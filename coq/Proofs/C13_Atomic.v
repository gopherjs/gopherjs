(* C13 — sync/atomic overrides are the sequential read-modify-write with Go's wrap-around. *)
From Coq Require Import ZArith Lia List Bool.
From Verif Require Import Base.Word Model.C13_Atomic.
Local Open Scope Z_scope.

Definition std (t : ity) : Prop := width t = 32 \/ width t = 64.

(* wrap t picks, for any positive width, the value of the type congruent to its argument: the residue [wres] of Base/Word *)
Lemma wrap_wres : forall t x, 0 < width t -> wrap t x = wres (signed t) (width t) x.
Proof.
  intros t x Hw. unfold wrap, wres, sres. cbv zeta. rewrite (pow2_double (width t) Hw), Z.mul_comm, Z.div_mul by discriminate.
  reflexivity.
Qed.

Section Wrap.
Variables (t : ity) (x : Z).
Hypothesis Hw : 0 < width t.

Lemma wrap_spec : in_range t (wrap t x) /\ (wrap t x - x) mod 2 ^ width t = 0.
Proof.
  rewrite wrap_wres by exact Hw. split; [apply (wres_range (signed t)), Hw |].
  rewrite Zminus_mod, wres_mod, Z.sub_diag by lia. apply Z.mod_0_l, Z.pow_nonzero; lia.
Qed.

Lemma wrap_in_range : in_range t x -> wrap t x = x.
Proof. rewrite wrap_wres by exact Hw. apply wres_id, Hw. Qed.
End Wrap.

Lemma std_width : forall t, std t -> 0 < width t.
Proof. intros t [E | E]; rewrite E; reflexivity. Qed.

Theorem atomic_add_no_wrap : forall t cell d, std t -> in_range t (cell + d) -> add t cell d = (cell + d, cell + d).
Proof. intros t cell d Ht R. unfold add. rewrite wrap_in_range by (apply std_width, Ht || exact R). reflexivity. Qed.

Theorem atomic_load_store_correct : forall cell v, load cell = (cell, cell) /\ fst (store cell v) = v.
Proof. intros. split; reflexivity. Qed.
