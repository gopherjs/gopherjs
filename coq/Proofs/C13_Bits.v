(* C13 — math/bits overrides equal the upstream 64-bit definitions: Mul32 by the carries of the schoolbook product,
   Add32 by reading the top bits as comparisons with 2^31, Div32 as two quotient digits of Knuth's algorithm D. *)
From Coq Require Import ZArith Lia List Bool.
From Verif Require Import Base.Word Model.C13_Bits.
Local Open Scope Z_scope.

Lemma land_mask16 : forall x, Z.land x mask16 = x mod 65536.
Proof. intros x. change mask16 with (Z.ones 16). rewrite Z.land_ones by lia. reflexivity. Qed.

Lemma shr32_div : forall x s, 0 <= s < 32 -> shr32 x s = x / 2 ^ s.
Proof. intros x s H. unfold shr32. destruct (Z.leb_spec 32 s); [lia |]. apply Z.shiftr_div_pow2; lia. Qed.

Lemma shr32_16 : forall x, shr32 x 16 = x / 65536.
Proof. intros x. apply (shr32_div x 16). lia. Qed.

Lemma w32_small : forall x, 0 <= x < 4294967296 -> w32 x = x.
Proof. intros x H. unfold w32, two32. apply Z.mod_small. exact H. Qed.

Lemma w32_add2 : forall a b, w32 (w32 a + b) = w32 (a + b).
Proof. intros. apply Zplus_mod_idemp_l. Qed.

Lemma w32_sub3 : forall a b c, w32 (w32 (w32 a + b) - w32 c) = w32 (a + b - c).
Proof.
  intros. unfold w32. rewrite <- Zminus_mod, <- Z.add_sub_assoc, Zplus_mod_idemp_l, Z.add_sub_assoc. reflexivity.
Qed.

Lemma halves : forall z, 0 <= z < 4294967296 ->
  z = z / 65536 * 65536 + z mod 65536 /\ 0 <= z / 65536 < 65536 /\ 0 <= z mod 65536 < 65536.
Proof. intros z H. pose proof (Z.div_mod z 65536). pose proof (Z.mod_pos_bound z 65536). lia. Qed.

(* the carries of the schoolbook product, over the four partial products pij = xi * yj *)
Lemma mul32_carries : forall p00 p10 p01 p11,
  0 <= p00 <= 65535 * 65535 -> 0 <= p10 <= 65535 * 65535 -> 0 <= p01 <= 65535 * 65535 -> 0 <= p11 <= 65535 * 65535 ->
  let t := w32 (w32 p10 + w32 p00 / 65536) in
  let w1 := w32 (t mod 65536 + w32 p01) in
  w32 (w32 (w32 p11 + t / 65536) + w1 / 65536) = (p11 * 4294967296 + (p10 + p01) * 65536 + p00) / 4294967296.
Proof.
  intros p00 p10 p01 p11 B00 B10 B01 B11. cbv zeta.
  rewrite (w32_small p00), (w32_small p10), (w32_small p01), (w32_small p11) by lia.
  destruct (halves p00) as (E0 & Ba & Bb); [lia |]. set (a := p00 / 65536) in *. set (b := p00 mod 65536) in *. clearbody a b.
  rewrite (w32_small (p10 + a)) by lia.
  destruct (halves (p10 + a)) as (Et & Bc & Bd); [lia |]. set (c := (p10 + a) / 65536) in *. set (d := (p10 + a) mod 65536) in *. clearbody c d.
  rewrite (w32_small (d + p01)) by lia.
  destruct (halves (d + p01)) as (Ev & Be & Bf); [lia |]. set (e := (d + p01) / 65536) in *. set (f := (d + p01) mod 65536) in *. clearbody e f.
  rewrite (w32_small (p11 + c)), (w32_small (p11 + c + e)) by lia.
  apply Z.div_unique_pos with (f * 65536 + b); lia.
Qed.

Theorem mul32_correct : forall x y, u32 x -> u32 y -> mul32 x y = go_mul32 x y.
Proof.
  intros x y Hx Hy. unfold u32, two32 in *. unfold mul32, go_mul32, two32. f_equal.
  rewrite !land_mask16, !shr32_16.
  destruct (halves x Hx) as (Ex & Bx1 & Bx0). destruct (halves y Hy) as (Ey & By1 & By0).
  set (x0 := x mod 65536) in *. set (x1 := x / 65536) in *. set (y0 := y mod 65536) in *. set (y1 := y / 65536) in *.
  clearbody x0 x1 y0 y1.
  replace (x * y) with (x1 * y1 * 4294967296 + (x1 * y0 + x0 * y1) * 65536 + x0 * y0) by (rewrite Ex, Ey; ring).
  apply mul32_carries; nia.
Qed.

Lemma top_bit : forall a, 0 <= a < 4294967296 ->
  a / 2147483648 = Z.b2z (2147483648 <=? a) /\ Z.testbit a 31 = (2147483648 <=? a).
Proof.
  intros a H.
  assert (E : a / 2147483648 = Z.b2z (2147483648 <=? a)).
  { destruct (Z.leb_spec 2147483648 a); cbv [Z.b2z]; [symmetry; apply Z.div_unique_pos with (a - 2147483648) | apply Z.div_small]; lia. }
  split; [exact E |]. rewrite Z.testbit_odd, Z.shiftr_div_pow2 by lia. change (2 ^ 31) with 2147483648. rewrite E.
  destruct (2147483648 <=? a); reflexivity.
Qed.

(* The carry leaves position 31 iff both top bits are set, or one is and the sum's is not:
   with the top bits read as comparisons with 2^31, that is a fact of linear arithmetic. *)
Theorem add32_correct : forall x y c, u32 x -> u32 y -> (c = 0 \/ c = 1) -> add32 x y c = go_add32 x y c.
Proof.
  intros x y c Hx Hy Hc. unfold u32, two32 in *. unfold add32, go_add32.
  rewrite w32_add2. unfold w32, two32. f_equal.
  pose proof (Z.div_mod (x + y + c) 4294967296 ltac:(lia)) as Es.
  pose proof (Z.mod_pos_bound (x + y + c) 4294967296 ltac:(lia)) as Bs.
  set (s := (x + y + c) mod 4294967296) in *. set (k := (x + y + c) / 4294967296) in *. clearbody s k.
  set (v := Z.lor (Z.land x y) (Z.ldiff (Z.lor x y) s)).
  assert (Bv : 0 <= v < 2 ^ 32).
  { apply (bitop_urange Z.lor orb Z.lor_spec eq_refl); [lia | |].
    - apply (bitop_urange Z.land andb Z.land_spec eq_refl); assumption || lia.
    - apply (bitop_urange Z.ldiff (fun a b => a && negb b) Z.ldiff_spec eq_refl); [lia | | assumption].
      apply (bitop_urange Z.lor orb Z.lor_spec eq_refl); assumption || lia. }
  rewrite shr32_div by lia. change (2 ^ 31) with 2147483648. destruct (top_bit v Bv) as [-> <-].
  unfold v. rewrite Z.lor_spec, Z.land_spec, Z.ldiff_spec, Z.lor_spec.
  destruct (top_bit x Hx) as [_ ->]. destruct (top_bit y Hy) as [_ ->]. destruct (top_bit s Bs) as [_ ->].
  destruct (Z.leb_spec 2147483648 x), (Z.leb_spec 2147483648 y), (Z.leb_spec 2147483648 s); cbv [Z.b2z orb andb negb]; lia.
Qed.

(* One quotient digit of Knuth's algorithm D in base B, for a two-digit divisor and words that wrap at B*B.
   U < Y is the running remainder, u the next digit, Y = yn1*B + yn0 the normalised divisor (yn1 >= B/2),
   Q the digit wanted. *)
Section Digit.
Variables B yn1 yn0 u U : Z.
Hypotheses (HB : 0 < B) (Hyn1 : B <= 2 * yn1 < 2 * B) (Hyn0 : 0 <= yn0 < B) (Hu : 0 <= u < B)
  (HU : 0 <= U < yn1 * B + yn0).
Let w (x : Z) := x mod (B * B).
Let Y := yn1 * B + yn0.
Let Q := (U * B + u) / Y.

(* what the correction loop keeps true of its two variables *)
Definition guess (q rhat : Z) : Prop := q * yn1 + rhat = U /\ 0 <= rhat < B /\ Q <= q <= B + 1.

Lemma Q_nonneg : 0 <= Q.
Proof. apply Z.div_pos; unfold Y; nia. Qed.

(* the products compared in the loop test do not wrap, and q*Y = (U - rhat)*B + q*yn0 *)
Lemma loop_test : forall q rhat, guess q rhat ->
  (B <=? q) || (w (w (B * rhat) + u) <? w (q * yn0)) = (Q <? q).
Proof.
  intros q rhat (Eq & Br & BQ & Bq). pose proof Q_nonneg.
  assert (Eqy : Y * q = (U - rhat) * B + q * yn0) by (unfold Y; rewrite <- Eq; ring).
  destruct (Z.leb_spec B q) as [Hbig | Hsmall]; cbn [orb].
  - symmetry. apply Z.ltb_lt. apply Z.lt_le_trans with B; [| exact Hbig].
    apply Z.div_lt_upper_bound; unfold Y; nia.
  - assert (0 <= q * yn0 <= (B - 1) * (B - 1)) by (split; [apply Z.mul_nonneg_nonneg | apply Z.mul_le_mono_nonneg]; lia).
    unfold w. rewrite (Z.mod_small (B * rhat)), (Z.mod_small (B * rhat + u)), (Z.mod_small (q * yn0)) by nia.
    destruct (Z.ltb_spec (B * rhat + u) (q * yn0)), (Z.ltb_spec Q q); try reflexivity; exfalso.
    + assert (Q < q) by (apply Z.div_lt_upper_bound; unfold Y in *; nia). lia.
    + assert (q <= Q) by (apply Z.div_le_lower_bound; unfold Y in *; nia). lia.
Qed.

(* leaving the loop because rhat no longer fits a digit: then (q-1)*Y < U*B already *)
Lemma guess_break : forall q rhat, guess q rhat -> Q < q -> B <= rhat + yn1 -> q - 1 = Q.
Proof.
  intros q rhat (Eq & Br & BQ & Bq) Hlt Hbrk. pose proof Q_nonneg.
  assert (q - 1 <= Q); [| lia].
  apply Z.div_le_lower_bound; [unfold Y; nia |].
  assert ((q - 1) * yn0 <= B * (B - 1)) by (apply Z.mul_le_mono_nonneg; lia).
  replace (Y * (q - 1)) with ((U - (rhat + yn1)) * B + (q - 1) * yn0) by (unfold Y; rewrite <- Eq; ring).
  nia.
Qed.

Lemma first_guess : guess (U / yn1) (U mod yn1).
Proof.
  pose proof (Z.div_mod U yn1 ltac:(lia)) as Hdm. pose proof (Z.mod_pos_bound U yn1 ltac:(lia)) as Hm.
  assert (Hq0 : 0 <= U / yn1) by (apply Z.div_pos; lia).
  unfold guess. repeat split; try lia.
  - apply Z.lt_succ_r. apply Z.div_lt_upper_bound; [unfold Y; nia |].
    set (q := U / yn1) in *.
    assert (0 <= yn0 * Z.succ q) by (apply Z.mul_nonneg_nonneg; lia).
    replace (Y * Z.succ q) with (B * (yn1 * q + yn1) + yn0 * Z.succ q) by (unfold Y; ring). nia.
  - apply Z.lt_succ_r. apply Z.div_lt_upper_bound; nia.
Qed.
End Digit.

(* div32's correction loop is that digit in base 2^16.  Twice rhat grows by 2*yn1 >= 2^16 in each round and the loop ends
   at rhat >= 2^16: three rounds are never all used.  The fuel hypothesis is kept by a round that does not break and, as
   rhat < 2^16, leaves fuel for the next test. *)
Lemma div_correct_spec : forall yn1 yn0 u U,
  65536 <= 2 * yn1 < 2 * 65536 -> 0 <= yn0 < 65536 -> 0 <= u < 65536 -> 0 <= U < yn1 * 65536 + yn0 ->
  forall fuel q rhat, guess 65536 yn1 yn0 u U q rhat -> 3 * 65536 <= 2 * rhat + Z.of_nat fuel * 65536 ->
  div_correct fuel yn1 yn0 u q rhat = (U * 65536 + u) / (yn1 * 65536 + yn0).
Proof.
  intros yn1 yn0 u U Hyn1 Hyn0 Hu HU.
  induction fuel as [| fuel IH]; intros q rhat G Hfuel; pose proof G as (Eq & Br & BQ & Bq); [lia |].
  assert (0 <= (U * 65536 + u) / (yn1 * 65536 + yn0)) by (apply Q_nonneg; assumption || reflexivity).
  cbn [div_correct]. unfold w32, two16. change two32 with (65536 * 65536).
  rewrite (loop_test 65536 yn1 yn0 u U) by (assumption || reflexivity). cbv zeta.
  destruct (Z.ltb_spec ((U * 65536 + u) / (yn1 * 65536 + yn0)) q) as [Hlt | Hge]; [| lia].
  rewrite (Z.mod_small (q - 1)), (Z.mod_small (rhat + yn1)) by lia.
  destruct (Z.leb_spec 65536 (rhat + yn1)) as [Hbrk | Hno].
  - apply (guess_break 65536 yn1 yn0 u U) with rhat; assumption || reflexivity.
  - apply IH; [unfold guess; lia | rewrite Nat2Z.inj_succ in Hfuel; lia].
Qed.

(* the digit as div32 computes it, with the remainder it carries on to the next one *)
Lemma digit : forall Y u U, 2147483648 <= Y < 4294967296 -> 0 <= u < 65536 -> 0 <= U < Y ->
  let yn1 := Y / 65536 in
  div_correct loop_fuel yn1 (Y mod 65536) u (U / yn1) (w32 (U - w32 (U / yn1 * yn1))) = (U * 65536 + u) / Y /\
  w32 (w32 (w32 (U * two16) + u) - w32 ((U * 65536 + u) / Y * Y)) = (U * 65536 + u) mod Y.
Proof.
  intros Y u U HY Hu HU yn1. destruct (halves Y) as (EY & B1 & B0); [lia |]. fold yn1 in EY, B1.
  set (yn0 := Y mod 65536) in *. assert (B1' : 65536 <= 2 * yn1 < 2 * 65536) by lia.
  clearbody yn1 yn0. subst Y. clear B1.
  assert (G : guess 65536 yn1 yn0 u U (U / yn1) (U mod yn1)) by (apply first_guess; assumption || reflexivity).
  pose proof G as (Eq & Br & _ & Bq). split.
  - replace (w32 (U - w32 (U / yn1 * yn1))) with (U mod yn1); [apply div_correct_spec; [assumption .. | unfold loop_fuel; lia] |].
    assert (0 <= U / yn1) by (apply Z.div_pos; lia).
    assert (0 <= U / yn1 * yn1) by (apply Z.mul_nonneg_nonneg; lia).
    rewrite (w32_small (U / yn1 * yn1)) by lia. replace (U - U / yn1 * yn1) with (U mod yn1) by lia.
    symmetry. apply w32_small. lia.
  - rewrite w32_sub3. unfold two16. rewrite Z.mul_comm with (m := yn1 * 65536 + yn0), <- Z.mod_eq by lia.
    apply w32_small. pose proof (Z.mod_pos_bound (U * 65536 + u) (yn1 * 65536 + yn0)). lia.
Qed.

Lemma div_step : forall a B u Y, 0 < Y ->
  (a * B + u) / Y = a / Y * B + (a mod Y * B + u) / Y /\ (a * B + u) mod Y = (a mod Y * B + u) mod Y.
Proof.
  intros a B u Y HY.
  replace (a * B + u) with (a / Y * B * Y + (a mod Y * B + u)) by (rewrite (Z.div_mod a Y) at 3 by lia; ring).
  split; [apply Z.div_add_l; lia | rewrite Z.add_comm; apply Z.mod_add; lia].
Qed.

Lemma shl32_mod : forall x s, 0 <= s < 32 -> shl32 x s = (x * 2 ^ s) mod 4294967296.
Proof. intros x s H. unfold shl32. destruct (Z.leb_spec 32 s); [lia |]. rewrite Z.shiftl_mul_pow2 by lia. reflexivity. Qed.

Lemma norm_shift : forall y, 0 < y < 4294967296 ->
  0 <= leading_zeros32 y < 32 /\ 2147483648 <= y * 2 ^ leading_zeros32 y < 4294967296.
Proof.
  intros y Hy. unfold leading_zeros32, len32. destruct (Z.eqb_spec y 0); [lia |].
  destruct (Z.log2_spec y) as [Hl1 Hl2]; [lia |]. pose proof (Z.log2_nonneg y).
  assert (Z.log2 y < 32) by (apply Z.log2_lt_pow2; [lia | change (2 ^ 32) with 4294967296; lia]).
  set (l := Z.log2 y) in *. set (s := 32 - (l + 1)). assert (Es : l + s = 31) by (unfold s; lia). clearbody s l.
  assert (E : 2 ^ l * 2 ^ s = 2147483648) by (rewrite <- Z.pow_add_r, Es by lia; reflexivity).
  rewrite Z.pow_succ_r in Hl2 by lia. pose proof (pow2_pos s) as HP. split; [lia |]. clear - E Hl1 Hl2 HP Es. nia.
Qed.

(* (hi*2^32 + lo) * 2^s, as the two words un16, un10 that div32 forms: [shl_pair] on Go's uint32 shifts *)
Lemma norm_dividend : forall hi lo s, 0 <= s < 32 -> 0 <= lo < 4294967296 -> 0 <= hi -> hi * 2 ^ s < 4294967296 ->
  Z.lor (shl32 hi s) (shr32 lo (32 - s)) * 4294967296 + shl32 lo s = (hi * 4294967296 + lo) * 2 ^ s.
Proof.
  intros hi lo s Hs Hlo Hhi Hhs. pose proof (top_bits_range 32 s lo ltac:(lia) Hlo) as Bt.
  assert (E : shr32 lo (32 - s) = lo / 2 ^ (32 - s)).
  { (* Go's lo >> 32 is 0 *)
    destruct (Z.eq_dec s 0) as [-> | N]; [symmetry; apply Z.div_small, Hlo | apply shr32_div; lia]. }
  rewrite E, !shl32_mod, (Z.mod_small (hi * 2 ^ s)), lor_shift_add by (assumption || nia).
  symmetry. apply (shl_pair 32 s hi lo). lia.
Qed.

Theorem div32_correct : forall hi lo y, u32 hi -> u32 lo -> u32 y -> div32 hi lo y = go_div32 hi lo y.
Proof.
  intros hi lo y Hhi Hlo Hy. unfold u32, two32 in *. unfold div32, go_div32.
  destruct (Z.eqb_spec y 0) as [-> | Hy0]; [reflexivity |].
  cbn [negb andb]. destruct (Z.leb_spec y hi) as [Hov | Hlt]; [reflexivity |].
  (* the shifted operands: Y = y * 2^s with its top bit set, and un16 * 2^32 + un10 = z * 2^s *)
  destruct (norm_shift y) as [Hs BY]; [lia |].
  set (s := leading_zeros32 y) in *. clearbody s. pose proof (pow2_pos s ltac:(lia)) as HP.
  rewrite (shl32_mod y), (Z.mod_small (y * 2 ^ s)) by lia.
  pose proof (norm_dividend hi lo s Hs Hlo ltac:(lia) ltac:(nia)) as HN.
  set (un16 := Z.lor (shl32 hi s) (shr32 lo (32 - s))) in *.
  set (z := hi * 4294967296 + lo) in *.
  assert (Bz : 0 <= z * 2 ^ s < y * 2 ^ s * 4294967296).
  { replace (y * 2 ^ s * 4294967296) with (y * 4294967296 * 2 ^ s) by ring.
    split; [apply Z.mul_nonneg_nonneg | apply Z.mul_lt_mono_pos_r]; unfold z; lia. }
  set (P := 2 ^ s) in *. set (Y := y * P) in *.
  destruct (halves (shl32 lo s)) as (E10 & Bun1 & Bun0); [rewrite shl32_mod by lia; apply Z.mod_pos_bound; lia |].
  rewrite !land_mask16, !shr32_16.
  set (un1 := shl32 lo s / 65536) in *. set (un0 := shl32 lo s mod 65536) in *.
  assert (Bun16 : 0 <= un16 < Y) by lia. clearbody un16 un1 un0.
  (* the two digits *)
  destruct (digit Y un1 un16) as [-> ->]; [assumption .. |].
  set (un21 := (un16 * 65536 + un1) mod Y).
  destruct (digit Y un0 un21) as [-> ->]; [assumption .. | apply Z.mod_pos_bound; lia |].
  rewrite w32_add2. unfold two16, un21.
  destruct (div_step (un16 * 65536 + un1) 65536 un0 Y) as [<- <-]; [lia |].
  replace ((un16 * 65536 + un1) * 65536 + un0) with (z * P) by lia.
  (* undo the shift *)
  unfold Y. rewrite Z.div_mul_cancel_r, Z.mul_mod_distr_r, shr32_div by lia. fold P. rewrite Z.div_mul by lia.
  assert (0 <= z / y < 4294967296) by (split; [apply Z.div_pos | apply Z.div_lt_upper_bound]; unfold z; lia).
  pose proof (Z.mod_pos_bound z y).
  unfold two32. rewrite w32_small, (Z.mod_small (z / y)), (Z.mod_small (z mod y)) by lia. reflexivity.
Qed.

(* Rem32 reduces hi modulo y first, so that Div32 cannot overflow *)
Theorem rem32_correct : forall hi lo y, u32 hi -> u32 lo -> u32 y -> rem32 hi lo y = go_rem32 hi lo y.
Proof.
  intros hi lo y Hhi Hlo Hy. unfold rem32, go_rem32. destruct (Z.eqb_spec y 0) as [|Hy0]; [reflexivity|].
  unfold u32, two32 in *.
  pose proof (Z.mod_pos_bound hi y ltac:(lia)) as Hm.
  rewrite div32_correct by (unfold u32, two32; lia).
  unfold go_div32. destruct (Z.eqb_spec y 0) as [|_]; [contradiction|]. cbn [negb andb].
  destruct (Z.leb_spec y (hi mod y)); [lia|].
  f_equal. f_equal. unfold two32.
  (* (hi mod y) * 2^32 + lo  ==  hi * 2^32 + lo   (mod y) *)
  rewrite <- (Z.add_mod_idemp_l (hi mod y * 4294967296)) by lia.
  rewrite <- (Z.add_mod_idemp_l (hi * 4294967296)) by lia.
  rewrite Z.mul_mod_idemp_l by lia. reflexivity.
Qed.
