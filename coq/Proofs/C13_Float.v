(* C13 — the float-logic overrides of math.go against upstream, over the values that [decode] yields ([wf]):
   Signbit and Copysign; Trunc and Modf in each shape the model knows (trunc_kind, modf_kind), with refuting inputs
   for the shapes that differ from upstream. *)
From Coq Require Import ZArith Lia List Bool.
From Verif Require Import Model.C13_Float.
Import ListNotations.
Local Open Scope Z_scope.

Definition wf (x : fl) : Prop := match x with FFin _ m _ => 0 <= m | _ => True end.

Lemma decode_wf : forall b, 0 <= b -> wf (decode b).
Proof.
  intros b Hb. unfold decode.
  assert (H : 0 <= Z.land b (two52 - 1)) by (apply Z.land_nonneg; left; exact Hb).
  set (fr := Z.land b (two52 - 1)) in *. clearbody fr.
  destruct (_ =? 2047); [destruct (fr =? 0); exact I|].
  destruct (_ =? 0); unfold wf, two52; lia.
Qed.

(* the input class on which the `1/x == -Inf` test misfires: negative, non-zero, |x| <= 2^-1024 *)
Definition tiny_negative (x : fl) : bool :=
  match x with FFin _ m _ => recip_is_neginf x && negb (m =? 0) | _ => false end.

Lemma recip_pos : forall m e, recip_is_neginf (FFin false m e) = false.
Proof. reflexivity. Qed.

Lemma recip_zero : forall e, recip_is_neginf (FFin true 0 e) = true.
Proof. reflexivity. Qed.

(* on a finite value the override's test reads the sign: -0 is caught by 1/x = -Inf, the rest by x < 0 *)
Lemma js_signbit_fin : forall neg m e, 0 <= m -> js_signbit (FFin neg m e) = neg.
Proof.
  intros neg m e Hm. destruct neg; [| reflexivity]. unfold js_signbit. cbn [lt0 recip_is_neginf andb].
  destruct (Z.eqb_spec m 0) as [-> | Hm0]; [reflexivity |].
  replace (0 <? m) with true by (symmetry; apply Z.ltb_lt; lia). reflexivity.
Qed.

Lemma js_copysign_fin : forall si n k neg m e, 0 <= n -> 0 <= m ->
  js_copysign (FFin si n k) (FFin neg m e) = FFin neg n k.
Proof. intros si n k neg m e Hn Hm. unfold js_copysign. rewrite !js_signbit_fin by assumption. destruct si, neg; reflexivity. Qed.

Theorem signbit_agrees : forall x, wf x -> js_isnan x = false -> js_signbit x = go_signbit x.
Proof.
  intros x Hwf Hn. destruct x as [n | n | n m e]; [discriminate | |].
  - unfold js_signbit. cbn. apply orb_false_r.
  - apply js_signbit_fin. exact Hwf.
Qed.

Theorem copysign_agrees : forall x y, wf x -> wf y -> js_isnan y = false ->
  obs (js_copysign x y) = obs (go_copysign x y).
Proof.
  intros x y Hx Hy Hny. unfold js_copysign, go_copysign. rewrite (signbit_agrees y Hy Hny).
  destruct x as [n | n | n m e].
  - destruct (xorb _ _); reflexivity.
  - rewrite (signbit_agrees (FInf n) I eq_refl). cbn [go_signbit set_sign neg_fl].
    destruct n, (go_signbit y); reflexivity.
  - rewrite (signbit_agrees (FFin n m e) Hx eq_refl). cbn [go_signbit set_sign neg_fl].
    destruct n, (go_signbit y); reflexivity.
Qed.

Theorem trunc_math_trunc_correct : forall x, js_trunc TruncViaMathTrunc x = go_trunc x.
Proof. reflexivity. Qed.

Lemma int_part_zero : forall e, int_part 0 e = 0.
Proof. intros e. unfold int_part. destruct (0 <=? e); [apply Z.shiftl_0_l | apply Z.shiftr_0_l]. Qed.

Lemma int_part_nonneg : forall m e, 0 <= m -> 0 <= int_part m e.
Proof. intros m e H. unfold int_part. destruct (0 <=? e); [apply Z.shiftl_nonneg | apply Z.shiftr_nonneg]; exact H. Qed.

Lemma encode_zero : forall n e, encode (FFin n 0 e) = sign_word n.
Proof. reflexivity. Qed.

(* where the guard `1/x == -Inf` fires on a value that is not tiny, the value is -0, its own truncation *)
Lemma guard_zero : forall neg m e, tiny_negative (FFin neg m e) = false -> recip_is_neginf (FFin neg m e) = true ->
  obs (FFin neg m e) = obs (FFin neg (int_part m e) 0).
Proof.
  unfold tiny_negative. intros neg m e Ht Hr. rewrite Hr in Ht. apply negb_false_iff, Z.eqb_eq in Ht. subst m.
  rewrite int_part_zero. reflexivity.
Qed.

Theorem trunc_guarded_partial : forall x, wf x -> tiny_negative x = false ->
  obs (js_trunc TruncViaMathTruncGuarded x) = obs (go_trunc x).
Proof.
  intros x Hwf Ht. destruct x as [n | n | neg m e]; [reflexivity | reflexivity |].
  cbn [js_trunc js_trunc_guarded go_trunc ieee_trunc]. cbn in Hwf.
  destruct (recip_is_neginf (FFin neg m e)) eqn:Hrec; [apply guard_zero; assumption |].
  rewrite js_copysign_fin by (assumption || apply int_part_nonneg; assumption). reflexivity.
Qed.

Lemma wrap32s_abs : forall n (neg : bool), 0 <= n <= 2147483648 -> Z.abs (wrap32s (if neg then - n else n)) = n.
Proof.
  intros n neg H. unfold wrap32s. destruct neg.
  - rewrite Z.mod_small; lia.
  - destruct (Z.eq_dec n 2147483648) as [-> |]; [reflexivity |]. rewrite Z.mod_small; lia.
Qed.

(* Trunc through `x >> 0`: correct while the truncated magnitude is at most 2^31, which ToInt32 keeps up to the sign *)
Theorem trunc_int32_partial : forall x, wf x -> tiny_negative x = false ->
  (match x with FFin _ m e => int_part m e <= 2147483648 | _ => True end) ->
  obs (js_trunc TruncViaInt32 x) = obs (go_trunc x).
Proof.
  intros x Hwf Ht Hsmall. destruct x as [n | n | neg m e]; [reflexivity | reflexivity |].
  cbn [js_trunc js_trunc_int32 go_trunc ieee_trunc]. cbn in Hwf.
  destruct (recip_is_neginf (FFin neg m e)) eqn:Hrec; [apply guard_zero; assumption |].
  pose proof (int_part_nonneg m e Hwf) as Hn0.
  rewrite js_copysign_fin by (assumption || apply Z.abs_nonneg). rewrite wrap32s_abs by lia. reflexivity.
Qed.

(* 1e10, and the smallest negative denormal *)
Theorem trunc_int32_refuted :
  obs (js_trunc TruncViaInt32 (decode 4756540486875873280)) <> obs (go_trunc (decode 4756540486875873280)) /\
  obs (js_trunc TruncViaInt32 (decode 9223372036854775809)) <> obs (go_trunc (decode 9223372036854775809)) /\
  obs (js_trunc TruncViaMathTruncGuarded (decode 9223372036854775809)) <> obs (go_trunc (decode 9223372036854775809)).
Proof. vm_compute. repeat split; discriminate. Qed.

Definition obs2 (p : fl * fl) : Z * Z := (obs (fst p), obs (snd p)).

(* -0.5 and the smallest negative denormal *)
Theorem modf_via_mod_refuted :
  obs2 (js_modf (decode 13826050856027422720)) <> obs2 (go_modf (decode 13826050856027422720)) /\
  obs2 (js_modf (decode 9223372036854775809)) <> obs2 (go_modf (decode 9223372036854775809)).
Proof. vm_compute. split; discriminate. Qed.

Lemma signbit_fin : forall neg m e, 0 <= m -> js_signbit (FFin neg m e) = true -> neg = true.
Proof. intros neg m e Hm H. rewrite js_signbit_fin in H by exact Hm. exact H. Qed.

(* f - Trunc(f), computed exactly, is the fractional part with the sign of f, or +0 *)
Lemma fsub_trunc : forall neg m e,
  0 <= fst (frac_part m e) /\
  fsub_exact (FFin neg m e) (FFin neg (int_part m e) 0) =
    if fst (frac_part m e) =? 0 then FFin false 0 0 else FFin neg (fst (frac_part m e)) (snd (frac_part m e)).
Proof.
  intros neg m e. unfold fsub_exact, frac_part, int_part.
  destruct (Z.leb_spec 0 e) as [He | He]; cbn [fst snd].
  - (* integer-valued: the difference is exactly zero *)
    split; [lia |]. rewrite Z.min_r, Z.sub_diag, Z.sub_0_r, Z.shiftl_mul_pow2 by lia. change (2 ^ 0) with 1.
    replace ((if neg then - m else m) * 2 ^ e - (if neg then - (m * 2 ^ e) else m * 2 ^ e) * 1) with 0 by (destruct neg; ring).
    destruct neg; reflexivity.
  - rewrite Z.min_l, Z.sub_diag, Z.shiftr_div_pow2 by lia. change (2 ^ 0) with 1. replace (0 - e) with (- e) by lia.
    assert (Hp : 0 < 2 ^ (- e)) by (apply Z.pow_pos_nonneg; lia).
    replace (Z.shiftl 1 (- e) - 1) with (Z.ones (- e)) by (rewrite Z.ones_equiv, Z.shiftl_1_l; lia).
    rewrite Z.land_ones by lia.
    pose proof (Z.div_mod m (2 ^ (- e)) ltac:(lia)) as Hdm. pose proof (Z.mod_pos_bound m (2 ^ (- e)) Hp) as Hfm.
    set (q := m / 2 ^ (- e)) in *. set (fm := m mod 2 ^ (- e)) in *. split; [lia |].
    replace ((if neg then - m else m) * 1 - (if neg then - q else q) * 2 ^ (- e)) with (if neg then - fm else fm)
      by (destruct neg; lia).
    destruct (Z.eqb_spec fm 0) as [E0 | E0].
    + rewrite E0. destruct neg; reflexivity.
    + replace ((if neg then - fm else fm) =? 0) with false by (symmetry; apply Z.eqb_neq; destruct neg; lia).
      replace ((if neg then - fm else fm) <? 0) with neg by (symmetry; destruct neg; [apply Z.ltb_lt | apply Z.ltb_ge]; lia).
      replace (Z.abs (if neg then - fm else fm)) with fm by (destruct neg; lia). reflexivity.
Qed.

Theorem modf_via_trunc_correct : forall x, wf x ->
  obs2 (js_modf_via_trunc TruncViaMathTrunc x) = obs2 (go_modf x).
Proof.
  intros x Hwf. destruct x as [n | n | neg m e]; [reflexivity | reflexivity |]. cbn in Hwf.
  unfold js_modf_via_trunc, go_modf. cbn [js_trunc ieee_trunc].
  destruct (fsub_trunc neg m e) as [Hfm ->]. destruct (frac_part m e) as [fm fe]. cbn [fst snd] in *.
  destruct (Z.eqb_spec fm 0) as [-> | _]; rewrite js_copysign_fin by lia; reflexivity.
Qed.
