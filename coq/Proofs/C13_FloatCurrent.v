(* C13 — the float-logic overrides as /repo has them (shapes read from math.go into Gen/C13_Variants.v)
   against upstream, on all bit patterns. *)
From Coq Require Import ZArith Lia List Bool.
From Verif Require Import Model.C13_Float Proofs.C13_Float Gen.C13_Variants.
Local Open Scope Z_scope.

(* the regenerated flags say: Trunc = Math.trunc, Modf = (Trunc f, Copysign(f - Trunc f, f)).
   If math.go changes shape these two lemmas stop checking. *)
Lemma trunc_shape_current : trunc_impl = TruncViaMathTrunc.
Proof. reflexivity. Qed.
Lemma modf_shape_current : modf_impl = ModfViaTrunc.
Proof. reflexivity. Qed.

Theorem float_current_correct : forall b, 0 <= b ->
  js_trunc trunc_impl (decode b) = go_trunc (decode b) /\
  obs2 (js_modf_impl modf_impl trunc_impl (decode b)) = obs2 (go_modf (decode b)) /\
  (js_isnan (decode b) = false -> js_signbit (decode b) = go_signbit (decode b)) /\
  (forall a, 0 <= a -> js_isnan (decode b) = false ->
     obs (js_copysign (decode a) (decode b)) = obs (go_copysign (decode a) (decode b))) /\
  js_isnan (decode b) = (match decode b with FNaN _ => true | _ => false end) /\
  (forall s, js_isinf (decode b) s = match decode b with FInf false => 0 <=? s | FInf true => s <=? 0 | _ => false end).
Proof.
  intros b Hb. pose proof (decode_wf b Hb) as Hwf.
  rewrite trunc_shape_current, modf_shape_current.
  split; [apply trunc_math_trunc_correct|].
  split; [apply modf_via_trunc_correct; exact Hwf|].
  split; [apply signbit_agrees; exact Hwf|].
  split; [intros a Ha Hn; apply copysign_agrees; try assumption; apply decode_wf; exact Ha|].
  split; [reflexivity|]. intros s. destruct (decode b) as [n|n|n m e]; reflexivity.
Qed.
