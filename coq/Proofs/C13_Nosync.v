(* C13 — nosync refines single-goroutine sync: a step simulation through [abs], under an invariant that bounds the
   reader count. *)
From Coq Require Import ZArith Lia List Bool.
From Verif Require Import Base.Word Model.C13_Nosync.
Import ListNotations.
Local Open Scope Z_scope.

(* reachable-state invariant: the Once flag `doing` is false between calls; the reader count is
   non-negative and bounded by [b] (so the int32 increment cannot wrap) *)
Definition inv (b : Z) (n : nstate) : Prop :=
  match n with
  | NRW _ r => 0 <= r <= b
  | NOnce doing _ => doing = false
  | _ => True
  end.

Lemma wrap32s_small : forall x, -2147483648 <= x < 2147483648 -> wrap32s x = x.
Proof. exact (fun x => sres_id 32 x eq_refl). Qed.

Lemma inv_mono : forall b n, inv b n -> inv (b + 1) n.
Proof. intros b [l | w r | c | doing done]; cbn; lia || auto. Qed.

(* once both steps are computed: the outcomes agree by evaluation, and either sync stopped or the states agree
   and the new reader count is within its bound *)
Local Ltac fin := cbn; split; [reflexivity | intros Hs; discriminate Hs || (split; [reflexivity | cbn; lia || reflexivity])].

(* the bound [b] on the reader count grows by one per call: that is where the bound on the length of a history comes from *)
Lemma step_sim : forall b n o,
  inv b n -> b < 2147483647 ->
  let '(n', no) := nstep n o in
  let '(s', so) := sstep (abs n) o in
  agrees so no = true /\ (stops so = false -> s' = abs n' /\ inv (b + 1) n').
Proof.
  intros b n o Hinv Hb. pose proof (inv_mono b n Hinv) as Hinv'.
  destruct n as [l | w r | c | doing done]; destruct o as [ | | | | | | d | | | f]; cbn [nstep sstep abs];
    (* an operation of another type changes nothing on either side *)
    try (split; [reflexivity | intros _; split; [reflexivity | exact Hinv']]);
    clear Hinv'; cbn [inv] in Hinv.
  - (* Mutex.Lock *) destruct l; fin.
  - (* Mutex.Unlock *) destruct l; fin.
  - (* RWMutex.Lock *) destruct (Z.eqb_spec r 0), (Z.ltb_spec 0 r), w; try lia; fin.
  - (* RWMutex.Unlock *) destruct w; fin.
  - (* RWMutex.RLock *) destruct w; [fin |]. rewrite wrap32s_small by lia. fin.
  - (* RWMutex.RUnlock *) destruct (Z.eqb_spec r 0), (Z.ltb_spec 0 r); try lia; [fin |]. rewrite wrap32s_small by lia. fin.
  - (* WaitGroup.Add *) unfold wg_add, swg_add. destruct (wrap32s (c + d) <? 0); fin.
  - (* WaitGroup.Done *) unfold wg_add, swg_add. destruct (wrap32s (c + -1) <? 0); fin.
  - (* WaitGroup.Wait *) destruct (Z.eqb_spec c 0); fin.
  - (* Once.Do *) subst doing. destruct done; [| destruct f]; fin.
Qed.

Lemma refines_from : forall h b n,
  inv b n -> b + Z.of_nat (length h) < 2147483648 ->
  agree_prefix (srun (abs n) h) (nrun n h) = true.
Proof.
  induction h as [|o h IH]; intros b n Hinv Hb; [reflexivity|].
  cbn [srun nrun length] in *.
  pose proof (step_sim b n o Hinv ltac:(lia)) as S.
  destruct (nstep n o) as [n' no]. destruct (sstep (abs n) o) as [s' so].
  destruct S as [Hag Hnext].
  destruct (stops so) eqn:Hst.
  - cbn. rewrite Hag. reflexivity.
  - cbn. rewrite Hag. cbn. destruct (Hnext eq_refl) as [-> Hinv'].
    apply (IH (b + 1)); [assumption | lia].
Qed.

(* when sync never stops, every call is matched (the two outcome lists have the same length) *)
Lemma srun_length_no_stop : forall h s, forallb (fun o => negb (stops o)) (srun s h) = true -> length (srun s h) = length h.
Proof.
  induction h as [|o h IH]; intros s H; [reflexivity|].
  cbn [srun] in *. destruct (sstep s o) as [s' so]. destruct (stops so) eqn:E.
  - cbn in H. rewrite E in H. discriminate.
  - cbn in H. rewrite E in H. cbn in H. cbn. f_equal. apply IH. exact H.
Qed.

Lemma nrun_length : forall h n, length (nrun n h) = length h.
Proof. induction h as [|o h IH]; intros n; [reflexivity|]. cbn. destruct (nstep n o). cbn. f_equal. apply IH. Qed.
