(* C13 — unicode.to: the override equals upstream's `to`, and both equal the first-match scan on
   sorted tables. *)
From Coq Require Import ZArith Lia List Bool.
From Verif Require Import Model.C13_Unicode.
Import ListNotations.
Local Open Scope Z_scope.

(* the default that the model's [search] gives to nth *)
Definition dflt : case_range := {| cr_lo := 0; cr_hi := -1; cr_d0 := 0; cr_d1 := 0; cr_d2 := 0 |}.

Lemma mid_eq : forall lo hi, mid_js lo hi = mid_go lo hi.
Proof.
  intros. unfold mid_js, mid_go. rewrite Z.shiftr_div_pow2 by lia. change (2 ^ 1) with 2.
  Z.div_mod_to_equations. lia.
Qed.

Lemma search_mid_eq : forall fuel tab c r lo hi, search mid_js fuel tab c r lo hi = search mid_go fuel tab c r lo hi.
Proof.
  induction fuel as [|f IH]; intros; [reflexivity|]. cbn [search]. rewrite mid_eq.
  destruct (lo <? hi); [|reflexivity].
  destruct (in_range _ r); [reflexivity|]. destruct (r <? _); apply IH.
Qed.

Theorem to_js_eq_go : forall tab c r, to_js tab c r = to_go tab c r.
Proof. intros. unfold to_js, to_go, to_with. destruct (_ || _); [reflexivity|]. apply search_mid_eq. Qed.

Lemma sorted_from_nth : forall tab p, sorted_from p tab = true ->
  forall i, (i < length tab)%nat ->
    p < cr_lo (nth i tab dflt) /\ cr_lo (nth i tab dflt) <= cr_hi (nth i tab dflt) /\
    forall j, (i < j < length tab)%nat -> cr_hi (nth i tab dflt) < cr_lo (nth j tab dflt).
Proof.
  induction tab as [|cr rest IH]; intros p Hs i Hi; [cbn in Hi; lia|].
  cbn [sorted_from] in Hs. apply andb_prop in Hs. destruct Hs as [Hs Hrest]. apply andb_prop in Hs. destruct Hs as [Hp Hlh].
  apply Z.ltb_lt in Hp. apply Z.leb_le in Hlh.
  destruct i as [|i'].
  - cbn [nth]. repeat split; try assumption.
    intros j Hj. destruct j as [|j']; [lia|]. cbn [nth]. cbn [length] in Hj.
    destruct (IH _ Hrest j' ltac:(lia)) as (H1 & _). exact H1.
  - cbn [nth]. cbn [length] in Hi.
    destruct (IH _ Hrest i' ltac:(lia)) as (H1 & H2 & H3).
    repeat split; try lia.
    intros j Hj. destruct j as [|j']; [lia|]. cbn [nth]. cbn [length] in Hj. apply H3. lia.
Qed.

Lemma table_sorted_from : forall tab, table_sorted tab = true -> exists p, sorted_from p tab = true.
Proof.
  intros [| cr rest] H; [exists 0; reflexivity |]. exists (cr_lo cr - 1).
  cbn [table_sorted] in H. apply andb_prop in H. destruct H as [H1 H2]. cbn [sorted_from]. rewrite H1, H2.
  replace (cr_lo cr - 1 <? cr_lo cr) with true by (symmetry; apply Z.ltb_lt; lia). reflexivity.
Qed.

Lemma linear_found : forall tab p c r k, sorted_from p tab = true -> (k < length tab)%nat ->
  in_range (nth k tab dflt) r = true ->
  to_linear_from tab c r = (apply_range (nth k tab dflt) c r, true).
Proof.
  induction tab as [|cr rest IH]; intros p c r k Hs Hk Hin; [cbn in Hk; lia|].
  cbn [to_linear_from]. destruct k as [|k'].
  - cbn [nth] in *. rewrite Hin. reflexivity.
  - assert (Hout : in_range cr r = false).
    { destruct (sorted_from_nth _ _ Hs 0%nat ltac:(cbn; lia)) as (_ & _ & H2). specialize (H2 (S k') ltac:(lia)).
      cbn [nth] in *. unfold in_range in *. apply andb_prop in Hin. destruct Hin as [Hlo _]. apply Z.leb_le in Hlo.
      apply andb_false_intro2. apply Z.leb_gt. lia. }
    rewrite Hout. cbn [nth length sorted_from] in *. apply andb_prop in Hs. destruct Hs as [_ Hs].
    apply (IH (cr_hi cr)); [assumption | lia | assumption].
Qed.

Lemma linear_none : forall tab c r, (forall i, (i < length tab)%nat -> in_range (nth i tab dflt) r = false) ->
  to_linear_from tab c r = (r, false).
Proof.
  induction tab as [|cr rest IH]; intros c r H; [reflexivity|].
  cbn [to_linear_from]. pose proof (H 0%nat ltac:(cbn; lia)) as H0. cbn [nth] in H0. rewrite H0. apply IH.
  intros i Hi. apply (H (S i)). cbn. lia.
Qed.

(* the invariant of the binary search, for any midpoint in [lo, hi): the ranges before lo end below r,
   those from hi on start above r *)
Lemma search_spec : forall mid, (forall lo hi, lo < hi -> lo <= mid lo hi < hi) ->
  forall fuel tab p c r lo hi, sorted_from p tab = true ->
  0 <= lo <= hi -> hi <= Z.of_nat (length tab) -> hi - lo < Z.of_nat fuel ->
  (forall i, Z.of_nat i < lo -> cr_hi (nth i tab dflt) < r) ->
  (forall i, hi <= Z.of_nat i < Z.of_nat (length tab) -> r < cr_lo (nth i tab dflt)) ->
  search mid fuel tab c r lo hi = to_linear_from tab c r.
Proof.
  intros mid Hmid. induction fuel as [|f IH]; intros tab p c r lo hi Hs Hlh Hlen Hfuel Hbelow Habove; [lia|].
  cbn [search]. destruct (Z.ltb_spec lo hi) as [Hlt|Hge].
  - specialize (Hmid lo hi Hlt). set (m := mid lo hi) in *.
    assert (Hm : (Z.to_nat m < length tab)%nat) by lia.
    fold dflt. destruct (in_range (nth (Z.to_nat m) tab dflt) r) eqn:Hin.
    + symmetry. apply linear_found with p; assumption.
    + destruct (sorted_from_nth tab p Hs _ Hm) as (_ & Hlohi & Hafter).
      destruct (Z.ltb_spec r (cr_lo (nth (Z.to_nat m) tab dflt))) as [Hless|Hmore].
      * apply (IH tab p); try assumption; try lia.
        intros i Hi. destruct (Nat.eq_dec i (Z.to_nat m)) as [->|Hne]; [exact Hless|].
        specialize (Hafter i ltac:(lia)). lia.
      * assert (Hgt : cr_hi (nth (Z.to_nat m) tab dflt) < r).
        { unfold in_range in Hin. apply andb_false_iff in Hin. destruct Hin as [Hin|Hin]; [apply Z.leb_gt in Hin; lia | apply Z.leb_gt in Hin; lia]. }
        apply (IH tab p); try assumption; try lia.
        intros i Hi. destruct (Nat.eq_dec i (Z.to_nat m)) as [->|Hne]; [exact Hgt|].
        destruct (sorted_from_nth tab p Hs i ltac:(lia)) as (_ & _ & Hi'). specialize (Hi' (Z.to_nat m) ltac:(lia)). lia.
  - symmetry. apply linear_none. intros i Hi. unfold in_range.
    destruct (Z.lt_ge_cases (Z.of_nat i) lo) as [Hl|Hg].
    + specialize (Hbelow i Hl). apply andb_false_intro2. apply Z.leb_gt. lia.
    + specialize (Habove i ltac:(lia)). apply andb_false_intro1. apply Z.leb_gt. lia.
Qed.

Lemma mid_js_bounds : forall lo hi, lo < hi -> lo <= mid_js lo hi < hi.
Proof. intros. unfold mid_js. Z.div_mod_to_equations. lia. Qed.

Theorem to_eq_linear : forall tab c r, table_sorted tab = true -> to_js tab c r = to_linear tab c r.
Proof.
  intros tab c r Hs. unfold to_js, to_with, to_linear. destruct (_ || _); [reflexivity|].
  destruct (table_sorted_from tab Hs) as [p Hp].
  apply (search_spec mid_js mid_js_bounds) with p; try assumption; try lia.
Qed.
