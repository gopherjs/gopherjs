(* C14 — the bit-twiddling decoder of prelude.js equals the table-driven specification. *)
From Coq Require Import List NArith ZArith Bool Arith Lia ZifyN ZifyNat ZifyBool.
From Verif Require Import Base.Lists Model.C14_Utf8 Base.C14_Bits.
Import ListNotations.
Local Open Scope N_scope.
Ltac Zify.zify_post_hook ::= Z.div_mod_to_equations.

(* The value the prelude assembles from 2, 3 or 4 bytes: the shifts distribute over lor, so that the nested lor is
   Horner's scheme in base 64, and each lor of a shifted number with a digit below 64 is an addition. *)
Lemma rune2_horner c0 c1 : N.lor (N.shiftl (N.land c0 0x1F) 6) (N.land c1 0x3F) = (c0 mod 32) * 64 + c1 mod 64.
Proof.
  change 0x1F with (N.ones 5). change 0x3F with (N.ones 6).
  rewrite !N.land_ones. apply pack. apply N.mod_lt. discriminate.
Qed.

Lemma rune3_horner c0 c1 c2 :
  N.lor (N.lor (N.shiftl (N.land c0 0x0F) 12) (N.shiftl (N.land c1 0x3F) 6)) (N.land c2 0x3F)
  = (c0 mod 16) * 4096 + (c1 mod 64) * 64 + c2 mod 64.
Proof.
  change 0x0F with (N.ones 4). change 0x3F with (N.ones 6). rewrite !N.land_ones.
  change 12 with (6 + 6). rewrite <- !N.shiftl_shiftl, <- !N.shiftl_lor, !pack by (apply N.mod_lt; discriminate).
  change (2 ^ 6) with 64. change (2 ^ 4) with 16. ring.
Qed.

Lemma rune4_horner c0 c1 c2 c3 :
  N.lor (N.lor (N.lor (N.shiftl (N.land c0 0x07) 18) (N.shiftl (N.land c1 0x3F) 12))
               (N.shiftl (N.land c2 0x3F) 6)) (N.land c3 0x3F)
  = (c0 mod 8) * 262144 + (c1 mod 64) * 4096 + (c2 mod 64) * 64 + c3 mod 64.
Proof.
  change 0x07 with (N.ones 3). change 0x3F with (N.ones 6). rewrite !N.land_ones.
  change 18 with (6 + 6 + 6). change 12 with (6 + 6).
  rewrite <- !N.shiftl_shiftl, <- !N.shiftl_lor, !pack by (apply N.mod_lt; discriminate).
  change (2 ^ 6) with 64. change (2 ^ 3) with 8. ring.
Qed.

Lemma decode_rune_skipn s pos : decode_rune s pos = decode_rune (skipn pos s) 0.
Proof.
  unfold decode_rune. rewrite !nth_error_skipn. rewrite Nat.add_0_r. reflexivity.
Qed.

Lemma mod_block lo k m c : lo = k * m -> lo <= c < lo + m -> c mod m = c - lo.
Proof. intros -> H. symmetry. apply N.mod_unique with k; lia. Qed.

Lemma tail_mod c : tail c = true -> c mod 64 = c - 0x80.
Proof. unfold tail, between. intros H. apply (mod_block 0x80 2); lia. Qed.

Lemma not_tail c : (c <? 0x80) || (0xC0 <=? c) = negb (tail c).
Proof. unfold tail, between. lia. Qed.

Lemma between_t lo hi c : lo <= c <= hi -> between lo hi c = true.
Proof. unfold between. lia. Qed.

Lemma between_f lo hi c : c < lo \/ hi < c -> between lo hi c = false.
Proof. unfold between. lia. Qed.

Lemma second_ok_tail b0 b1 : tail b1 = false -> second_ok b0 b1 = false.
Proof.
  unfold second_ok, tail, between. intros H.
  destruct (b0 =? 0xE0); [lia|]. destruct (b0 =? 0xED); [lia|].
  destruct (b0 =? 0xF0); [lia|]. destruct (b0 =? 0xF4); lia.
Qed.

(* Table 3-7 restricts the lead byte and the second byte; the decoder of the prelude restricts the
   value.  With continuation bytes in 80..BF the two say the same, for the lead bytes C0, C1 and
   F5..F7 as well, which the table excludes and the prelude rejects by their value. *)
Lemma lead_ok_2 c0 c1 : 0xC0 <= c0 <= 0xDF -> tail c1 = true ->
  between 0xC2 0xDF c0 = negb ((c0 - 0xC0) * 64 + (c1 - 0x80) <=? 0x7F).
Proof. unfold tail, between. lia. Qed.

Lemma second_ok_3 c0 c1 c2 : 0xE0 <= c0 <= 0xEF -> tail c1 = true -> tail c2 = true ->
  let r := (c0 - 0xE0) * 4096 + (c1 - 0x80) * 64 + (c2 - 0x80) in
  second_ok c0 c1 = negb (r <=? 0x7FF) && negb ((0xD800 <=? r) && (r <=? 0xDFFF)).
Proof.
  intros H0 H1 H2 r. subst r. unfold second_ok, tail, between in *.
  destruct (N.eqb_spec c0 0xE0) as [->|]; [lia|]. destruct (N.eqb_spec c0 0xED) as [->|]; [lia|].
  destruct (N.eqb_spec c0 0xF0); [lia|]. destruct (N.eqb_spec c0 0xF4); lia.
Qed.

Lemma second_ok_4 c0 c1 c2 c3 : 0xF0 <= c0 <= 0xF7 -> tail c1 = true -> tail c2 = true -> tail c3 = true ->
  let r := (c0 - 0xF0) * 262144 + (c1 - 0x80) * 4096 + (c2 - 0x80) * 64 + (c3 - 0x80) in
  between 0xF0 0xF4 c0 && second_ok c0 c1 = negb ((r <=? 0xFFFF) || (0x10FFFF <? r)).
Proof.
  intros H0 H1 H2 H3 r. subst r. unfold second_ok, tail, between in *.
  destruct (N.eqb_spec c0 0xE0); [lia|]. destruct (N.eqb_spec c0 0xED); [lia|].
  destruct (N.eqb_spec c0 0xF0) as [->|]; [lia|]. destruct (N.eqb_spec c0 0xF4) as [->|]; lia.
Qed.

Lemma if_same {A} (b : bool) (x : A) : (if b then x else x) = x.
Proof. destruct b; reflexivity. Qed.

(* By the class of the lead byte, as the prelude tests it; within a class the prelude reads the
   continuation bytes one by one, the specification all at once. *)
Lemma decode0_eq_spec t : decode_rune t 0 = spec_decode t.
Proof.
  destruct t as [|c0 t]; [reflexivity|].
  unfold decode_rune, spec_decode. cbn [nth_error Nat.add].
  destruct (c0 <? 0x80) eqn:L1. { (* ASCII *) rewrite leb_t by lia. reflexivity. }
  rewrite leb_f by lia.
  destruct (c0 <? 0xC0) eqn:L2. { (* a continuation byte *) rewrite !between_f by lia. reflexivity. }
  destruct (c0 <? 0xE0) eqn:L3.
  { (* two bytes; the lead bytes start at 0xC0 = 6 * 32, 0xE0 = 14 * 16, 0xF0 = 30 * 8 *)
    rewrite (between_f 0xE0), (between_f 0xF0) by lia.
    destruct t as [|c1 t]; cbn [nth_error]; [symmetry; apply if_same|].
    rewrite not_tail. destruct (tail c1) eqn:T1; [|symmetry; apply if_same].
    rewrite rune2_horner, (mod_block 0xC0 6), tail_mod, (lead_ok_2 c0 c1) by (assumption || lia).
    destruct (_ <=? 0x7F); reflexivity. }
  rewrite (between_f 0xC2) by lia.
  destruct (c0 <? 0xF0) eqn:L4.
  { (* three bytes *) rewrite (between_t 0xE0) by lia.
    destruct t as [|c1 [|c2 t]]; cbn [nth_error]; rewrite ?not_tail, ?if_same; [reflexivity..|].
    destruct (tail c1) eqn:T1; [|rewrite second_ok_tail by assumption; reflexivity].
    destruct (tail c2) eqn:T2; [|rewrite andb_false_r; reflexivity].
    rewrite rune3_horner, (mod_block 0xE0 14), !tail_mod, (second_ok_3 c0 c1 c2) by (assumption || lia).
    destruct (_ <=? 0x7FF), (_ && (_ <=? 0xDFFF)); reflexivity. }
  (* four bytes, or a lead byte from 0xF8 on, which both reject *)
  rewrite (between_f 0xE0) by lia.
  destruct t as [|c1 [|c2 [|c3 t]]]; cbn [nth_error]; rewrite ?not_tail, ?if_same; [reflexivity..|].
  destruct (tail c1) eqn:T1; [|rewrite second_ok_tail by assumption; destruct (between _ _ c0); reflexivity].
  destruct (tail c2) eqn:T2; [|destruct (between _ _ c0), (second_ok c0 c1); reflexivity].
  destruct (tail c3) eqn:T3; [|destruct (between _ _ c0), (second_ok c0 c1); reflexivity].
  destruct (c0 <? 0xF8) eqn:L5; [|rewrite between_f by lia; reflexivity].
  rewrite !andb_true_r, <- andb_if, (second_ok_4 c0 c1 c2 c3) by (assumption || lia).
  rewrite rune4_horner, (mod_block 0xF0 30), !tail_mod by (assumption || lia).
  destruct (_ || _); reflexivity.
Qed.

Theorem decode_eq_spec s pos : decode_rune s pos = spec_decode (skipn pos s).
Proof. rewrite decode_rune_skipn. apply decode0_eq_spec. Qed.
