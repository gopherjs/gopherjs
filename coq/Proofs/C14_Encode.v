(* C14 — the encoder equals the specification; decoding and encoding are mutually inverse. *)
From Coq Require Import List NArith ZArith Bool Arith Lia ZifyN ZifyNat ZifyBool.
From Verif Require Import Model.C14_Utf8 Base.C14_Bits Proofs.C14_Decode.
Import ListNotations.
Local Open Scope N_scope.
Ltac Zify.zify_post_hook ::= Z.div_mod_to_equations.

Lemma cont_byte x : N.lor 0x80 (N.land x 0x3F) = 0x80 + x mod 64.
Proof. change 0x3F with (N.ones 6). rewrite N.land_ones. change 0x80 with (2 * 2 ^ 6). apply lor_add. apply N.mod_lt. discriminate. Qed.

Lemma encode_eq_spec r : encode_rune r = spec_string_of_rune r.
Proof.
  unfold encode_rune, spec_string_of_rune, valid_scalar, spec_encode.
  destruct ((r <? 0) || (1114111 <? r) || (55296 <=? r) && (r <=? 57343))%Z eqn:E.
  - replace ((0 <=? r) && (r <=? 1114111) && negb ((55296 <=? r) && (r <=? 57343)))%Z with false by lia.
    vm_compute. reflexivity.
  - replace ((0 <=? r) && (r <=? 1114111) && negb ((55296 <=? r) && (r <=? 57343)))%Z with true by lia.
    assert (Z.to_N r <= 0x10FFFF) by lia.
    destruct (Z.to_N r <=? 127) eqn:E1; [reflexivity|].
    destruct (Z.to_N r <=? 2047) eqn:E2.
    (* [lor_add] takes the prefixes as 0xC0 = 3 * 2^6, 0xE0 = 14 * 2^4, 0xF0 = 30 * 2^3 *)
    { rewrite N.shiftr_div_pow2, (lor_add 3 6), cont_byte by lia. reflexivity. }
    destruct (Z.to_N r <=? 65535) eqn:E3.
    { rewrite !N.shiftr_div_pow2, (lor_add 14 4), !cont_byte by lia. reflexivity. }
    rewrite !N.shiftr_div_pow2, (lor_add 30 3), !cont_byte by lia. reflexivity.
Qed.

Lemma tail_cont b : b < 64 -> tail (0x80 + b) = true.
Proof. intros. apply between_t. lia. Qed.

Lemma spec_decode_encode n rest :
  n <= 0x10FFFF -> ~ (0xD800 <= n <= 0xDFFF) ->
  spec_decode (spec_encode n ++ rest) = (n, length (spec_encode n)).
Proof.
  intros Hn Hs. unfold spec_encode.
  assert (M : forall x, x mod 64 < 64) by (intros; apply N.mod_lt; discriminate).
  destruct (n <=? 127) eqn:E1; [|destruct (n <=? 2047) eqn:E2; [|destruct (n <=? 65535) eqn:E3]];
  cbn [app length]; unfold spec_decode.
  - (* one byte *) rewrite E1. reflexivity.
  - (* two *) rewrite leb_f, (between_t 0xC2), tail_cont, !add_sub_l by (apply M || lia). f_equal. lia.
  - (* three *) rewrite leb_f, (between_f 0xC2), (between_t 0xE0), (second_ok_3 _ _ (0x80 + n mod 64)), !tail_cont, !add_sub_l
      by (apply tail_cont, M || apply M || lia).
    replace (n / 4096 * 4096 + n / 64 mod 64 * 64 + n mod 64) with n by lia.
    rewrite leb_f by lia. replace ((0xD800 <=? n) && (n <=? 0xDFFF)) with false by lia. reflexivity.
  - (* four *) rewrite leb_f, (between_f 0xC2), (between_f 0xE0), !tail_cont, !andb_true_r, <- andb_if, (second_ok_4 _ _ (0x80 + n / 64 mod 64) (0x80 + n mod 64)), !add_sub_l
      by (apply tail_cont, M || apply M || lia).
    replace (n / 262144 * 262144 + n / 4096 mod 64 * 4096 + n / 64 mod 64 * 64 + n mod 64) with n by lia.
    rewrite leb_f by lia. replace (0x10FFFF <? n) with false by lia. reflexivity.
Qed.

(* What [spec_decode t = (r, w)] tells: the width lies within the input, r is a scalar value, and unless the pair
   is the error pair the w bytes read are the encoding of r.  [facts_err] and [facts1] .. [facts4] establish it by
   the length of the sequence, each from the tests the specification makes for that length. *)
Definition decode_facts (t : list N) (r : N) (w : nat) : Prop :=
  (1 <= w <= 4)%nat /\ (w <= length t)%nat /\ valid_scalar (Z.of_N r) = true /\
  ((r, w) = ERR \/ spec_encode r = firstn w t).

Lemma second_ok_is_tail b0 b1 : second_ok b0 b1 = true -> tail b1 = true.
Proof. intros H. destruct (tail b1) eqn:T; [reflexivity|]. rewrite second_ok_tail in H; assumption. Qed.

Lemma facts_err t : t <> [] -> decode_facts t 0xFFFD 1.
Proof. destruct t; [congruence|]. intros _. unfold decode_facts. cbn [length]. repeat split; try lia. left. reflexivity. Qed.

Lemma facts1 c t : c <= 0x7F -> decode_facts (c :: t) c 1.
Proof.
  intros H. unfold decode_facts, spec_encode, valid_scalar. rewrite leb_t by assumption. cbn [length].
  repeat split; try lia. right. reflexivity.
Qed.

Lemma facts2 c0 c1 t : between 0xC2 0xDF c0 = true -> tail c1 = true ->
  decode_facts (c0 :: c1 :: t) ((c0 - 0xC0) * 64 + (c1 - 0x80)) 2.
Proof.
  unfold tail, between. intros B T1. unfold decode_facts, spec_encode, valid_scalar. rewrite leb_f, leb_t by lia. cbn [length firstn].
  repeat split; try lia. right. repeat f_equal; lia.
Qed.

Lemma facts3 c0 c1 c2 t : between 0xE0 0xEF c0 = true -> second_ok c0 c1 = true -> tail c2 = true ->
  decode_facts (c0 :: c1 :: c2 :: t) ((c0 - 0xE0) * 4096 + (c1 - 0x80) * 64 + (c2 - 0x80)) 3.
Proof.
  intros B S T2. pose proof (second_ok_is_tail _ _ S) as T1. unfold between in B.
  rewrite (second_ok_3 c0 c1 c2) in S by (assumption || lia). unfold tail, between in T1, T2.
  unfold decode_facts, spec_encode, valid_scalar. rewrite !leb_f, leb_t by lia. cbn [length firstn].
  repeat split; try lia. right. repeat f_equal; lia.
Qed.

Lemma facts4 c0 c1 c2 c3 t : between 0xF0 0xF4 c0 = true -> second_ok c0 c1 = true -> tail c2 = true -> tail c3 = true ->
  decode_facts (c0 :: c1 :: c2 :: c3 :: t) ((c0 - 0xF0) * 262144 + (c1 - 0x80) * 4096 + (c2 - 0x80) * 64 + (c3 - 0x80)) 4.
Proof.
  intros B S T2 T3. pose proof (second_ok_is_tail _ _ S) as T1.
  pose proof (second_ok_4 c0 c1 c2 c3 ltac:(unfold between in B; lia) T1 T2 T3) as R. rewrite B, S in R.
  unfold tail, between in *. cbv zeta in R.
  unfold decode_facts, spec_encode, valid_scalar. rewrite !leb_f by lia. cbn [length firstn].
  repeat split; try lia. right. repeat f_equal; lia.
Qed.

Lemma spec_decode_facts t r w : t <> [] -> spec_decode t = (r, w) -> decode_facts t r w.
Proof.
  intros Hne. pose proof (facts_err t Hne) as Err.
  destruct t as [|c0 t]; [congruence|]. unfold spec_decode.
  destruct (c0 <=? 0x7F) eqn:L1. { (* one byte *) intros [= <- <-]. apply facts1. lia. }
  destruct (between 0xC2 0xDF c0) eqn:B2.
  { (* two *) destruct t as [|c1 t]; [intros [= <- <-]; exact Err|].
    destruct (tail c1) eqn:T1; intros [= <- <-]; [apply facts2; assumption|exact Err]. }
  destruct (between 0xE0 0xEF c0) eqn:B3.
  { (* three *) destruct t as [|c1 [|c2 t]]; try (intros [= <- <-]; exact Err).
    destruct (second_ok c0 c1 && tail c2) eqn:S; intros [= <- <-]; [|exact Err].
    apply andb_prop in S as [S T2]. apply facts3; assumption. }
  (* four *)
  destruct (between 0xF0 0xF4 c0) eqn:B4; [|intros [= <- <-]; exact Err].
  destruct t as [|c1 [|c2 [|c3 t]]]; try (intros [= <- <-]; exact Err).
  destruct (second_ok c0 c1 && tail c2 && tail c3) eqn:S; intros [= <- <-]; [|exact Err].
  apply andb_prop in S as [S T3]. apply andb_prop in S as [S T2]. apply facts4; assumption.
Qed.
