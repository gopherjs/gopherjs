(* C14 — encodeString: literal round trip and safety of the emitted text. *)
From Coq Require Import List NArith Bool Arith Lia ZifyN ZifyNat ZifyBool.
From Verif Require Import Model.C14_Utf8 Model.C14_Literal.
Import ListNotations.
Local Open Scope N_scope.

Lemma hexval_hexdig d : d < 16 -> hexval (hexdig d) = Some d.
Proof.
  intros H. unfold hexval, hexdig. destruct (d <? 10) eqn:E.
  - replace ((48 <=? 48 + d) && (48 + d <=? 57)) with true by lia. f_equal. lia.
  - replace ((48 <=? 55 + d) && (55 + d <=? 57)) with false by lia.
    replace ((65 <=? 55 + d) && (55 + d <=? 70)) with true by lia. f_equal. lia.
Qed.

Lemma hexdig_printable d : d < 16 -> printable (hexdig d) = true.
Proof. unfold printable, hexdig. destruct (d <? 10); lia. Qed.

Lemma nibbles b : b < 256 -> b / 16 < 16 /\ b mod 16 < 16 /\ b / 16 * 16 + b mod 16 = b.
Proof.
  intros H. pose proof (N.div_mod' b 16). pose proof (N.mod_lt b 16).
  assert (b / 16 < 16) by (apply N.div_lt_upper_bound; [discriminate|exact H]). lia.
Qed.

(* the eight named escapes by computation, then \xHH, then the byte itself *)
Lemma enc_byte_body b rest : b < 256 -> js_body (enc_byte b ++ rest) = push b (js_body rest).
Proof.
  intros H. unfold enc_byte.
  repeat match goal with |- context [b =? ?k] => destruct (N.eqb_spec b k) as [->|]; [reflexivity|] end.
  destruct (_ || _).
  - destruct (nibbles b H) as (H1 & H2 & E). cbn [app].
    change (js_body (92 :: 120 :: ?h1 :: ?h2 :: rest))
      with (match hexval h1, hexval h2 with Some a, Some b => push (a * 16 + b) (js_body rest) | _, _ => None end).
    rewrite !hexval_hexdig, E by assumption. reflexivity.
  - cbn [app js_body]. rewrite !(proj2 (N.eqb_neq b _)) by assumption. reflexivity.
Qed.

Lemma is_bytes_cons c s : is_bytes (c :: s) = true -> c < 256 /\ is_bytes s = true.
Proof. unfold is_bytes. cbn [forallb]. intros H. apply andb_true_iff in H as [H1 H2]. split; [lia|auto]. Qed.

Lemma body_flat_map s tl : is_bytes s = true -> js_body (flat_map enc_byte s ++ 34 :: tl) = Some (s, tl).
Proof.
  induction s as [|c s IH]; intros H; [reflexivity|].
  apply is_bytes_cons in H as [H1 H2]. cbn [flat_map].
  rewrite <- app_assoc, enc_byte_body, IH by assumption. reflexivity.
Qed.

Lemma literal_roundtrip_ctx s tl : is_bytes s = true ->
  js_unescape (encode_string s ++ tl) = Some (s, tl).
Proof. intros H. unfold encode_string. cbn [app js_unescape]. rewrite <- app_assoc. apply body_flat_map, H. Qed.

Lemma literal_roundtrip s : is_bytes s = true -> js_unescape (encode_string s) = Some (s, []).
Proof. intros H. rewrite <- (app_nil_r (encode_string s)). apply literal_roundtrip_ctx, H. Qed.

Lemma enc_byte_printable b : b < 256 -> forallb printable (enc_byte b) = true.
Proof.
  intros H. unfold enc_byte. repeat match goal with |- context [b =? ?k] => destruct (b =? k); [reflexivity|] end.
  destruct (_ || _) eqn:R; cbn [forallb].
  - destruct (nibbles b H) as (H1 & H2 & _). rewrite !hexdig_printable by assumption. reflexivity.
  - unfold printable. lia.
Qed.

Lemma forallb_flat_map {A B} (p : B -> bool) (f : A -> list B) l :
  (forall x, In x l -> forallb p (f x) = true) -> forallb p (flat_map f l) = true.
Proof.
  induction l; cbn [flat_map]; intros H; [reflexivity|].
  rewrite forallb_app. rewrite H by (left; reflexivity). rewrite IHl; [reflexivity|].
  intros; apply H; right; auto.
Qed.

Lemma is_bytes_in s : is_bytes s = true -> forall x, In x s -> x < 256.
Proof. unfold is_bytes. rewrite forallb_forall. intros H x Hx. specialize (H x Hx). lia. Qed.

Lemma encode_string_safe s : is_bytes s = true -> forallb printable (encode_string s) = true.
Proof.
  intros H. unfold encode_string. cbn [forallb]. rewrite forallb_app. cbn [forallb].
  replace (printable 34) with true by reflexivity. cbn [andb]. rewrite andb_true_r.
  apply forallb_flat_map. intros x Hx. apply enc_byte_printable. eapply is_bytes_in; eauto.
Qed.

Lemma forallb_impl {A} (p q : A -> bool) l : (forall x, p x = true -> q x = true) ->
  forallb p l = true -> forallb q l = true.
Proof. intros Hi H. rewrite forallb_forall in *. auto. Qed.

(* Go strings stay byte strings: the literal's value has only units < 256 *)
Lemma literal_value_bytes s v tl : is_bytes s = true -> js_unescape (encode_string s) = Some (v, tl) -> is_bytes v = true.
Proof. intros H E. rewrite literal_roundtrip in E by assumption. congruence. Qed.
