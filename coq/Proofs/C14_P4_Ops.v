(* C14 — the emitted string operators (Model/C14_Ops.v): comparison, concatenation, slicing, indexing, the
   conversions, map keys and the string switch. *)
From Coq Require Import List NArith ZArith Bool Arith Lia ZifyN ZifyNat ZifyBool.
From Verif Require Import Base.Lists Base.Sorting Model.C14_Utf8 Model.C14_Ops Proofs.C14_Encode Proofs.C14_Strings.
Import ListNotations.
Local Open Scope N_scope.

Lemma units_eqb_eq a : forall b, units_eqb a b = true <-> a = b.
Proof. exact (list_eqb_eq N.eqb N.eqb_eq a). Qed.

Lemma units_eqb_refl a : units_eqb a a = true.
Proof. apply units_eqb_eq. reflexivity. Qed.

Lemma units_eqb_neq a b : units_eqb a b = false <-> a <> b.
Proof. rewrite <- units_eqb_eq. symmetry. apply not_true_iff_false. Qed.

(* the ECMAScript comparison is the lexicographic order of Base/Sorting.v over the code units *)
Lemma units_order : strict_total (lex_ltb N.ltb).
Proof. exact (lex_strict_total _ N_ltb_order). Qed.

Lemma js_str_lt_lex a : forall b, js_str_lt a b = lex_ltb N.ltb a b.
Proof.
  induction a as [|x a IH]; intros [|y b]; try reflexivity.
  specialize (IH b). unfold js_str_lt in *. cbn [is_prefix first_diff lex_ltb].
  rewrite (N.eqb_sym y x). destruct (N.eqb_spec x y) as [->|Hne]; cbn [andb].
  - rewrite N.ltb_irrefl. exact IH.
  - destruct (N.ltb_spec x y); [reflexivity|]. destruct (N.ltb_spec y x); [reflexivity | lia].
Qed.

Lemma bytes_lt_cons x a b : bytes_lt a b -> bytes_lt (x :: a) (x :: b).
Proof.
  intros [(c & t & ->)|(p & u & v & ta & tb & -> & -> & H)].
  - left. exists c, t. reflexivity.
  - right. exists (x :: p), u, v, ta, tb. auto.
Qed.

(* left to right along the recursion of [lex_ltb]; right to left along the common prefix that [bytes_lt] names *)
Lemma lex_ltb_iff a b : lex_ltb N.ltb a b = true <-> bytes_lt a b.
Proof.
  split.
  - revert b. induction a as [|x a IH]; intros [|y b]; try discriminate.
    + intros _. left. exists y, b. reflexivity.
    + rewrite (lex_ltb_cons _ N_ltb_order), N.ltb_lt.
      intros [H|[-> H]]; [right; exists [], x, y, a, b; auto | apply bytes_lt_cons, IH, H].
  - intros [(c & t & ->)|(p & x & y & ta & tb & -> & -> & H)].
    + induction a as [|x a IH]; [reflexivity|]. apply (lex_ltb_cons _ N_ltb_order). auto.
    + induction p as [|z p IH]; apply (lex_ltb_cons _ N_ltb_order); [left; apply N.ltb_lt, H|auto].
Qed.

Lemma js_str_lt_iff a b : js_str_lt a b = true <-> bytes_lt a b.
Proof. rewrite js_str_lt_lex. apply lex_ltb_iff. Qed.

Lemma bytes_lt_irrefl a : ~ bytes_lt a a.
Proof. rewrite <- lex_ltb_iff, (strict_total_irrefl _ units_order). discriminate. Qed.

Lemma bytes_lt_trans a b c : bytes_lt a b -> bytes_lt b c -> bytes_lt a c.
Proof. rewrite <- !lex_ltb_iff. apply (st_trans _ units_order). Qed.

Lemma bytes_lt_trichotomy a b : bytes_lt a b \/ a = b \/ bytes_lt b a.
Proof.
  rewrite <- !lex_ltb_iff. destruct (lex_ltb N.ltb a b) eqn:E1; [auto|]. destruct (lex_ltb N.ltb b a) eqn:E2; [auto|].
  right. left. apply (st_total _ units_order); assumption.
Qed.

Lemma bytes_lt_asym a b : bytes_lt a b -> ~ bytes_lt b a.
Proof. intros H1 H2. exact (bytes_lt_irrefl a (bytes_lt_trans a b a H1 H2)). Qed.

Lemma js_str_le_iff a b : js_str_le a b = true <-> bytes_lt a b \/ a = b.
Proof.
  unfold js_str_le. rewrite negb_true_iff. split.
  - intros H. destruct (bytes_lt_trichotomy a b) as [H1|[H1|H1]]; auto.
    apply js_str_lt_iff in H1. congruence.
  - intros [H| ->].
    + destruct (js_str_lt b a) eqn:E; [|reflexivity]. apply js_str_lt_iff in E. exfalso. exact (bytes_lt_asym _ _ H E).
    + rewrite js_str_lt_lex. apply (strict_total_irrefl _ units_order).
Qed.

Lemma ok_bool_iff b (P : Prop) : (b = true <-> P) -> (Ok (VBool b) = Ok (VBool true) <-> P).
Proof. intros <-. split; [intros [= E]; exact E|intros ->; reflexivity]. Qed.

Lemma compare_iff_bytes_compare a b :
  (holds T_Eql a b <-> a = b) /\ (holds T_Neq a b <-> a <> b) /\
  (holds T_Lss a b <-> bytes_lt a b) /\ (holds T_Leq a b <-> bytes_lt a b \/ a = b) /\
  (holds T_Gtr a b <-> bytes_lt b a) /\ (holds T_Geq a b <-> bytes_lt b a \/ b = a) /\
  (forall t, In t [T_Eql; T_Neq; T_Lss; T_Leq; T_Gtr; T_Geq] -> holds t a b \/ fails t a b).
Proof.
  unfold holds, fails, run. cbn [jeval nth_error bind binop_eval cmp_eval seq_eval T_Eql T_Neq T_Lss T_Leq T_Gtr T_Geq X0 X1].
  repeat match goal with |- _ /\ _ => split end.
  - apply ok_bool_iff, units_eqb_eq.
  - apply ok_bool_iff. rewrite negb_true_iff. apply units_eqb_neq.
  - apply ok_bool_iff, js_str_lt_iff.
  - apply ok_bool_iff, js_str_le_iff.
  - apply ok_bool_iff, js_str_lt_iff.
  - apply ok_bool_iff, (js_str_le_iff b a).
  - intros t Ht. cbn [In] in Ht.
    destruct Ht as [<-|[<-|[<-|[<-|[<-|[<-|[]]]]]]];
      cbn [jeval nth_error bind binop_eval cmp_eval seq_eval T_Eql T_Neq T_Lss T_Leq T_Gtr T_Geq X0 X1];
      match goal with |- Ok (VBool ?b) = _ \/ _ => destruct b; auto end.
Qed.

Lemma len_spec s : run T_Len [VStr s] = Ok (VNum (Z.of_nat (length s))).
Proof. reflexivity. Qed.

Lemma concat_spec a b :
  run T_Add [VStr a; VStr b] = Ok (VStr (a ++ b)) /\
  run T_Len [VStr (a ++ b)] = Ok (VNum (Z.of_nat (length a) + Z.of_nat (length b))) /\
  (is_bytes a = true -> is_bytes b = true -> is_bytes (a ++ b) = true).
Proof.
  split; [reflexivity|]. split.
  - rewrite len_spec, app_length, Nat2Z.inj_add. reflexivity.
  - intros Ha Hb. rewrite is_bytes_app, Ha, Hb. reflexivity.
Qed.

Lemma sl2_spec s lo hi : run T_Sl2 [VStr s; VNum lo; VNum hi] = sub_res (spec_slice s lo hi).
Proof. unfold run. cbn. rewrite substring_three_arg. reflexivity. Qed.

Lemma sllo_spec s lo : run T_SlLo [VStr s; VNum lo] = sub_res (spec_slice s lo (Z.of_nat (length s))).
Proof. unfold run. cbn. rewrite substring_low_only. reflexivity. Qed.

Lemma slhi_spec s hi : run T_SlHi [VStr s; VNum hi] = sub_res (spec_slice s 0 hi).
Proof. unfold run. cbn -[substring]. rewrite substring_three_arg. reflexivity. Qed.

Lemma spec_slice_in s lo hi : (0 <= lo <= hi)%Z -> (hi <= Z.of_nat (length s))%Z ->
  spec_slice s lo hi = Some (firstn (Z.to_nat (hi - lo)) (skipn (Z.to_nat lo) s)).
Proof.
  intros H1 H2. unfold spec_slice.
  replace ((0 <=? lo) && (lo <=? hi) && (hi <=? Z.of_nat (length s)))%Z with true by lia. reflexivity.
Qed.

Lemma concat_of_slices s i j : (0 <= i <= j)%Z -> (j <= Z.of_nat (length s))%Z ->
  exists p m q,
    run T_SlHi [VStr s; VNum i] = Ok (VStr p) /\ run T_Sl2 [VStr s; VNum i; VNum j] = Ok (VStr m) /\
    run T_SlLo [VStr s; VNum j] = Ok (VStr q) /\
    p ++ m ++ q = s /\ Z.of_nat (length p) = i /\ Z.of_nat (length m) = (j - i)%Z.
Proof.
  intros H1 H2. rewrite slhi_spec, sllo_spec, sl2_spec, !spec_slice_in by lia.
  cbn [sub_res Z.to_nat skipn]. do 3 eexists. repeat split.
  - rewrite Z.sub_0_r.
    replace (firstn (Z.to_nat (Z.of_nat (length s) - j)) (skipn (Z.to_nat j) s)) with (skipn (Z.to_nat j) s)
      by (symmetry; apply firstn_all2; rewrite skipn_length; lia).
    replace (Z.to_nat j) with (Z.to_nat i + Z.to_nat (j - i))%nat by lia.
    rewrite <- (skipn_skipn' s (Z.to_nat (j - i)) (Z.to_nat i)), firstn_skipn, firstn_skipn. reflexivity.
  - rewrite Z.sub_0_r, firstn_length. lia.
  - rewrite firstn_length, skipn_length. lia.
Qed.

Lemma idx_spec s i : run T_Idx [VStr s; VNum i] = idx_res (spec_index s i).
Proof.
  rewrite <- (index_emitted_spec false) by discriminate.
  unfold run, index_emitted. cbn [jeval T_Idx X0 X1 nth_error bind binop_eval cmp_eval fld_eval].
  destruct (i <? 0)%Z eqn:E1; cbn [bind orb call1 idx_res]; [reflexivity|].
  destruct (Z.of_nat (length s) <=? i)%Z eqn:E2; cbn [bind call1 idx_res]; [reflexivity|].
  destruct (index_unchecked s i); reflexivity.
Qed.

Lemma idx_in_range s i : (0 <= i < Z.of_nat (length s))%Z ->
  exists c, nth_error s (Z.to_nat i) = Some c /\ run T_Idx [VStr s; VNum i] = Ok (VNum (Z.of_N c)).
Proof.
  intros H. rewrite idx_spec. unfold spec_index.
  replace ((0 <=? i) && (i <? Z.of_nat (length s)))%Z with true by lia.
  destruct (nth_error s (Z.to_nat i)) eqn:E; [eauto|]. apply nth_error_None in E. lia.
Qed.

Lemma idx_of_concat a b i : (0 <= i)%Z ->
  run T_Idx [VStr (a ++ b); VNum i] =
  if (i <? Z.of_nat (length a))%Z then run T_Idx [VStr a; VNum i] else run T_Idx [VStr b; VNum (i - Z.of_nat (length a))].
Proof.
  intros H. rewrite !idx_spec. unfold spec_index. rewrite app_length.
  destruct (i <? Z.of_nat (length a))%Z eqn:E.
  - replace (0 <=? i)%Z with true by lia. replace (i <? Z.of_nat (length a + length b))%Z with true by lia.
    cbn [andb]. rewrite nth_error_app1 by lia. reflexivity.
  - replace ((0 <=? i - Z.of_nat (length a)) && (i - Z.of_nat (length a) <? Z.of_nat (length b)))%Z
      with ((0 <=? i) && (i <? Z.of_nat (length a + length b)))%Z by lia.
    destruct ((0 <=? i) && (i <? Z.of_nat (length a + length b)))%Z; [|reflexivity].
    rewrite nth_error_app2 by lia. replace (Z.to_nat (i - Z.of_nat (length a))) with (Z.to_nat i - length a)%nat by lia.
    reflexivity.
Qed.

Lemma is_bytes_window arr off len : is_bytes arr = true -> is_bytes (window arr off len) = true.
Proof. intros H. unfold window. apply is_bytes_split, is_bytes_split, H. Qed.

Lemma window_length {A} (arr : list A) off len : (off + len <= length arr)%nat -> length (window arr off len) = len.
Proof. intros H. unfold window. rewrite firstn_length, skipn_length. lia. Qed.

Lemma runes_templates s rs off len cap r hi lo :
  run T_ToRunes [VStr s] =
    Ok (VRunes (map Z.of_N (string_to_runes s)) 0 (length (string_to_runes s)) (length (string_to_runes s))) /\
  run T_FromRunes [VRunes rs off len cap] = Ok (VStr (runes_to_string rs off len)) /\
  run T_FromRune [VNum r] = Ok (VStr (spec_string_of_rune r)) /\
  run T_FromI64 [VI64 hi lo] = Ok (VStr (encode_rune (if (hi =? 0)%Z then lo else (-1)%Z))).
Proof.
  unfold run. cbn [jeval T_ToRunes T_FromRunes T_FromRune T_FromI64 X0 nth_error bind call1 new_slice fld_eval binop_eval seq_eval].
  rewrite map_length, encode_eq_spec. repeat split. destruct (hi =? 0)%Z; reflexivity.
Qed.

Lemma runes_to_string_bytes rs off len : is_bytes (runes_to_string rs off len) = true.
Proof.
  unfold runes_to_string. induction (window rs off len) as [|r l IH]; [reflexivity|].
  cbn [flat_map]. rewrite is_bytes_app, encode_rune_bytes. exact IH.
Qed.

Lemma results_wellformed :
  (forall a b, is_bytes a = true -> is_bytes b = true -> exists r, run T_Add [VStr a; VStr b] = Ok (VStr r) /\ is_bytes r = true) /\
  (forall s lo hi r, is_bytes s = true -> run T_Sl2 [VStr s; VNum lo; VNum hi] = Ok (VStr r) -> is_bytes r = true) /\
  (forall s lo r, is_bytes s = true -> run T_SlLo [VStr s; VNum lo] = Ok (VStr r) -> is_bytes r = true) /\
  (forall s hi r, is_bytes s = true -> run T_SlHi [VStr s; VNum hi] = Ok (VStr r) -> is_bytes r = true) /\
  (forall arr off len cap, is_bytes arr = true -> exists r, run T_FromBytes [VBytes arr off len cap] = Ok (VStr r) /\ is_bytes r = true) /\
  (forall rs off len cap, exists r, run T_FromRunes [VRunes rs off len cap] = Ok (VStr r) /\ is_bytes r = true) /\
  (forall x, exists r, run T_FromRune [VNum x] = Ok (VStr r) /\ is_bytes r = true) /\
  (forall hi lo, exists r, run T_FromI64 [VI64 hi lo] = Ok (VStr r) /\ is_bytes r = true) /\
  (forall s, exists arr n, run T_ToBytes [VStr s] = Ok (VBytes arr 0 n n) /\ is_bytes arr = true /\ n = length s /\ length arr = n) /\
  (forall s, is_bytes s = true -> is_bytes (key_for s) = true).
Proof.
  assert (HS : forall s lo hi r, is_bytes s = true -> sub_res (spec_slice s lo hi) = Ok (VStr r) -> is_bytes r = true).
  { intros s lo hi r Hb. unfold spec_slice. destruct ((0 <=? lo) && (lo <=? hi) && (hi <=? Z.of_nat (length s)))%Z; [|discriminate].
    cbn [sub_res]. intros E. injection E as <-. exact (is_bytes_window s _ _ Hb). }
  repeat split.
  - (* T_Add *) intros a b Ha Hb. eexists. split; [reflexivity|]. rewrite is_bytes_app, Ha, Hb. reflexivity.
  - (* T_Sl2 *) intros s lo hi r Hb. rewrite sl2_spec. apply HS, Hb.
  - (* T_SlLo *) intros s lo r Hb. rewrite sllo_spec. apply HS, Hb.
  - (* T_SlHi *) intros s hi r Hb. rewrite slhi_spec. apply HS, Hb.
  - (* T_FromBytes *) intros arr off len cap Hb. eexists. split; [reflexivity|]. rewrite bytes_to_string_spec. apply is_bytes_window, Hb.
  - (* T_FromRunes *) intros rs off len cap. eexists. split; [reflexivity|]. apply runes_to_string_bytes.
  - (* T_FromRune *) intros x. eexists. split; [reflexivity|]. apply encode_rune_bytes.
  - (* T_FromI64 *) intros hi lo. eexists. split; [apply (runes_templates [] [] 0 0 0 0)|apply encode_rune_bytes].
  - (* T_ToBytes *) intros s. exists (string_to_bytes s), (length s). unfold run.
    cbn [jeval T_ToBytes X0 nth_error bind call1 new_slice]. unfold string_to_bytes at 2 3. rewrite map_length.
    repeat split. apply string_to_bytes_bytes. unfold string_to_bytes. apply map_length.
  - (* key_for *) intros s Hb. unfold key_for, is_bytes in *. cbn [forallb]. rewrite Hb. reflexivity.
Qed.

Lemma key_injective a b : key_for a = key_for b -> a = b.
Proof. unfold key_for. intros H. injection H. auto. Qed.

Lemma key_eqb a b : units_eqb (key_for a) (key_for b) = units_eqb a b.
Proof. reflexivity. Qed.

Lemma map_get_set m key e : forall key',
  map_get (map_set m key e) key' = if units_eqb key key' then Some e else map_get m key'.
Proof.
  induction m as [|[k0 e0] m IH]; intros key'; cbn [map_set map_get]; [reflexivity|].
  destruct (units_eqb k0 key) eqn:E1; cbn [map_get].
  - apply units_eqb_eq in E1. subst k0. destruct (units_eqb key key'); reflexivity.
  - rewrite IH. destruct (units_eqb k0 key') eqn:E2; [|reflexivity].
    apply units_eqb_eq in E2. subst k0.
    replace (units_eqb key key') with false; [reflexivity|].
    symmetry. apply units_eqb_neq. apply units_eqb_neq in E1. congruence.
Qed.

Lemma existsb_units tag cs : existsb (units_eqb tag) cs = true <-> In tag cs.
Proof. exact (existsb_eqb_In units_eqb units_eqb_eq tag cs). Qed.

Lemma switch_some tag : forall cls i j, switch_emitted tag cls i = Some j ->
  exists n cl, j = (i + n)%nat /\ nth_error cls n = Some cl /\ In tag cl /\
               forall n' cl', (n' < n)%nat -> nth_error cls n' = Some cl' -> ~ In tag cl'.
Proof.
  induction cls as [|cs cls IH]; intros i j; cbn [switch_emitted]; [discriminate|].
  destruct (existsb (units_eqb tag) cs) eqn:E.
  - intros H. injection H as <-. exists 0%nat, cs. repeat split; [lia|apply existsb_units, E|]. intros n' cl' Hn. lia.
  - intros H. apply IH in H as (n & cl & -> & Hn & Hin & Hfirst). exists (S n), cl. repeat split; [lia|exact Hn|exact Hin|].
    intros [|n'] cl' Hlt Hn'; cbn [nth_error] in Hn'.
    + injection Hn' as <-. intros Hc. apply existsb_units in Hc. congruence.
    + apply (Hfirst n'); [lia|exact Hn'].
Qed.

Lemma switch_none tag : forall cls i, switch_emitted tag cls i = None -> forall cl, In cl cls -> ~ In tag cl.
Proof.
  induction cls as [|cs cls IH]; intros i; cbn [switch_emitted]; [intros _ cl []|].
  destruct (existsb (units_eqb tag) cs) eqn:E; [discriminate|].
  intros H cl [<-|Hin]; [intros Hc; apply existsb_units in Hc; congruence|exact (IH _ H cl Hin)].
Qed.
