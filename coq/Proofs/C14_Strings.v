(* C14 — range loop, rune/byte conversions, slicing, indexing, string(int64). *)
From Coq Require Import List NArith ZArith Bool Arith Lia ZifyN ZifyNat ZifyBool.
From Verif Require Import Base.Lists Model.C14_Utf8 Base.C14_Bits Proofs.C14_Decode Proofs.C14_Encode.
Import ListNotations.
Local Open Scope N_scope.
Ltac Zify.zify_post_hook ::= Z.div_mod_to_equations.

Lemma skipn_skipn' {A} (l : list A) a b : skipn a (skipn b l) = skipn (b + a) l.
Proof. revert l. induction b; intros l; cbn; auto. destruct l; cbn; auto. destruct a; reflexivity. Qed.

Lemma firstn_length_app {A} (a b : list A) : firstn (length a) (a ++ b) = a.
Proof. exact (firstn_app_exact a b). Qed.

Lemma skipn_nonnil {A} (l : list A) i : (i < length l)%nat -> skipn i l <> [].
Proof. intros H E. apply (f_equal (@length A)) in E. rewrite skipn_length in E. cbn in E. lia. Qed.

Fixpoint with_offsets (i : nat) (l : list (N * nat)) : list (nat * N * nat) :=
  match l with
  | [] => []
  | (r, w) :: l' => (i, r, w) :: with_offsets (i + w) l'
  end.

Fixpoint sum_widths (l : list (N * nat)) : nat :=
  match l with [] => O | (_, w) :: l' => (w + sum_widths l')%nat end.

Lemma spec_decode_width t r w : t <> [] -> spec_decode t = (r, w) -> (1 <= w <= length t)%nat.
Proof. intros H1 H2. destruct (spec_decode_facts t r w H1 H2) as (? & ? & _). lia. Qed.

Lemma range_from_spec fuel : forall s i, (length s - i <= fuel)%nat ->
  range_from fuel s i = with_offsets i (spec_runes_fuel fuel (skipn i s)).
Proof.
  induction fuel; intros s i Hf.
  - reflexivity.
  - cbn [range_from spec_runes_fuel].
    destruct (Nat.ltb i (length s)) eqn:E.
    + apply Nat.ltb_lt in E.
      assert (Hne : skipn i s <> []) by (apply skipn_nonnil, E).
      rewrite decode_eq_spec.
      destruct (spec_decode (skipn i s)) as [r w] eqn:D.
      pose proof (spec_decode_width _ _ _ Hne D) as Hw. rewrite skipn_length in Hw.
      destruct (skipn i s) eqn:S; [congruence|]. rewrite <- S.
      cbn [with_offsets]. f_equal. rewrite skipn_skipn'. apply IHfuel; lia.
    + apply Nat.ltb_ge in E. rewrite skipn_all2 by exact E. reflexivity.
Qed.

Lemma spec_runes_nil : spec_runes [] = [].
Proof. reflexivity. Qed.

(* Induction along the decoding of a string: with [spec_runes_unfold] it does for [spec_runes] what
   list induction does for [map], the fuel never showing. *)
Lemma spec_runes_ind (P : list N -> Prop) :
  P [] ->
  (forall s r w, s <> [] -> spec_decode s = (r, w) -> decode_facts s r w -> P (skipn w s) -> P s) ->
  forall s, P s.
Proof.
  intros H0 Hstep. enough (forall n s, (length s <= n)%nat -> P s) by eauto.
  induction n; intros s Hn.
  - destruct s; [exact H0|cbn in Hn; lia].
  - destruct s as [|x s']; [exact H0|]. destruct (spec_decode (x :: s')) as [r w] eqn:D.
    assert (Hne : x :: s' <> []) by discriminate.
    pose proof (spec_decode_facts _ _ _ Hne D) as F. apply (Hstep _ r w Hne D F).
    apply IHn. destruct F as (Hw & Hl & _). rewrite skipn_length. cbn [length] in *. lia.
Qed.

Lemma spec_runes_fuel_enough s : forall f, (length s <= f)%nat -> spec_runes_fuel f s = spec_runes s.
Proof.
  induction s as [|s r w Hne D (Hw & Hl & _) IH] using spec_runes_ind; intros f Hf; [destruct f; reflexivity|].
  unfold spec_runes. destruct s as [|x s']; [congruence|]. destruct f as [|f]; [cbn in Hf; lia|].
  cbn [length spec_runes_fuel]. rewrite D. f_equal.
  rewrite !IH by (rewrite skipn_length; cbn [length] in *; lia). reflexivity.
Qed.

Lemma spec_runes_unfold s : s <> [] ->
  spec_runes s = spec_decode s :: spec_runes (skipn (snd (spec_decode s)) s).
Proof.
  intros Hne. unfold spec_runes at 1.
  destruct (spec_decode s) as [r w] eqn:D. destruct (spec_decode_width s r w Hne D) as [Hw Hl].
  destruct s as [|x s']; [congruence|]. cbn [length spec_runes_fuel snd]. rewrite D. f_equal.
  apply spec_runes_fuel_enough. rewrite skipn_length. cbn [length] in *. lia.
Qed.

Lemma range_loop_spec s : range_loop s = with_offsets 0 (spec_runes s).
Proof. unfold range_loop, spec_runes. rewrite range_from_spec by lia. reflexivity. Qed.

Lemma range_covers s : sum_widths (spec_runes s) = length s.
Proof.
  induction s as [|s r w Hne D (_ & Hl & _) IH] using spec_runes_ind; [reflexivity|].
  rewrite spec_runes_unfold, D by assumption. cbn [snd sum_widths]. rewrite IH, skipn_length. lia.
Qed.

Lemma map_with_offsets i l : map (fun x => snd (fst x)) (with_offsets i l) = map fst l.
Proof. revert i. induction l as [|[r w] l]; intros; cbn; f_equal; auto. Qed.

Lemma string_to_runes_spec s : string_to_runes s = map fst (spec_runes s).
Proof. unfold string_to_runes. rewrite range_loop_spec. apply map_with_offsets. Qed.

Definition validZ (r : Z) : Prop := valid_scalar r = true.

Lemma validZ_N r : validZ r -> Z.to_N r <= 0x10FFFF /\ ~ (0xD800 <= Z.to_N r <= 0xDFFF).
Proof. unfold validZ, valid_scalar. lia. Qed.

Lemma of_N_to_N rs : Forall validZ rs -> map Z.of_N (map Z.to_N rs) = rs.
Proof.
  intros H. rewrite map_map. rewrite <- (map_id rs) at 2. apply map_ext_in.
  intros r Hr. rewrite Forall_forall in H. specialize (H r Hr). unfold validZ, valid_scalar in H. lia.
Qed.

Lemma encode_valid r : validZ r -> encode_rune r = spec_encode (Z.to_N r).
Proof. intros H. rewrite encode_eq_spec. unfold spec_string_of_rune. rewrite H. reflexivity. Qed.

Lemma spec_encode_length n : (1 <= length (spec_encode n) <= 4)%nat.
Proof. unfold spec_encode. destruct (n <=? 0x7F), (n <=? 0x7FF), (n <=? 0xFFFF); cbn; lia. Qed.

Lemma spec_decode_encoded r rest : validZ r ->
  spec_decode (encode_rune r ++ rest) = (Z.to_N r, length (encode_rune r)).
Proof. intros Hv. rewrite encode_valid by assumption. destruct (validZ_N r Hv). apply spec_decode_encode; assumption. Qed.

Lemma decode_encode pre r rest : validZ r ->
  decode_rune (pre ++ encode_rune r ++ rest) (length pre) = (Z.to_N r, length (encode_rune r)).
Proof. intros Hv. rewrite decode_eq_spec, skipn_app_exact. apply spec_decode_encoded, Hv. Qed.

Lemma encode_invalid r : valid_scalar r = false -> encode_rune r = [0xEF; 0xBF; 0xBD].
Proof. intros H. rewrite encode_eq_spec. unfold spec_string_of_rune. rewrite H. reflexivity. Qed.

Lemma encode_replacement : encode_rune 0xFFFD = [0xEF; 0xBF; 0xBD].
Proof. reflexivity. Qed.

Lemma spec_encode_bytes n : n <= 0x10FFFF -> is_bytes (spec_encode n) = true.
Proof.
  intros. unfold spec_encode, is_bytes.
  destruct (n <=? 0x7F) eqn:E1, (n <=? 0x7FF) eqn:E2, (n <=? 0xFFFF) eqn:E3; cbn [forallb]; lia.
Qed.

Lemma encode_rune_bytes r : is_bytes (encode_rune r) = true.
Proof.
  destruct (valid_scalar r) eqn:E; [|rewrite encode_invalid by assumption; reflexivity].
  rewrite encode_valid by assumption. apply spec_encode_bytes, validZ_N, E.
Qed.

Lemma spec_runes_encoded rs : Forall validZ rs ->
  spec_runes (flat_map encode_rune rs) = map (fun r => (Z.to_N r, length (encode_rune r))) rs.
Proof.
  induction 1 as [|r rs Hr Hrs IH]; [reflexivity|].
  cbn [flat_map map].
  rewrite spec_runes_unfold.
  - rewrite spec_decode_encoded by assumption. cbn [snd]. rewrite skipn_app_exact, IH. reflexivity.
  - rewrite encode_valid by assumption.
    pose proof (spec_encode_length (Z.to_N r)). destruct (spec_encode (Z.to_N r)); cbn in *; [lia|congruence].
Qed.

Lemma r2s_all rs : runes_to_string rs 0 (length rs) = flat_map encode_rune rs.
Proof. unfold runes_to_string, window. cbn [skipn]. rewrite firstn_all. reflexivity. Qed.

Lemma runes_of_encoded rs : Forall validZ rs ->
  string_to_runes (runes_to_string rs 0 (length rs)) = map Z.to_N rs.
Proof.
  intros H. rewrite r2s_all.
  rewrite string_to_runes_spec, spec_runes_encoded by assumption. rewrite map_map. reflexivity.
Qed.

Definition valid_utf8 (s : list N) : Prop :=
  exists rs, Forall validZ rs /\ s = flat_map (fun r => spec_encode (Z.to_N r)) rs.

Lemma encoded_is_spec rs : Forall validZ rs ->
  flat_map encode_rune rs = flat_map (fun r => spec_encode (Z.to_N r)) rs.
Proof.
  induction 1 as [|r rs Hr _ IH]; [reflexivity|]. cbn [flat_map]. rewrite IH, (encode_valid r Hr). reflexivity.
Qed.

Definition back (s : list N) : list N :=
  let rs := map Z.of_N (string_to_runes s) in runes_to_string rs 0 (length rs).

Lemma string_to_runes_valid s : Forall validZ (map Z.of_N (string_to_runes s)).
Proof.
  rewrite string_to_runes_spec, map_map. apply Forall_map.
  induction s as [|s r w Hne D (_ & _ & Hr & _) IH] using spec_runes_ind; [constructor|].
  rewrite spec_runes_unfold, D by assumption. constructor; assumption.
Qed.

Lemma valid_no_error s : valid_utf8 s -> Forall (fun rw => rw <> ERR) (spec_runes s).
Proof.
  intros (rs & Hv & ->). rewrite <- encoded_is_spec, spec_runes_encoded by assumption.
  induction Hv as [|r rs Hr Hrs IH]; cbn [map]; constructor; auto.
  intros E. unfold ERR in E. injection E as E1 E2.
  assert (r = 0xFFFD%Z) by (unfold validZ, valid_scalar in Hr; lia). subst r.
  rewrite encode_replacement in E2. discriminate.
Qed.

Lemma no_error_valid s : Forall (fun rw => rw <> ERR) (spec_runes s) -> valid_utf8 s.
Proof.
  induction s as [|s r w Hne D (_ & _ & Hr & E) IH] using spec_runes_ind; intros H.
  - exists []. split; [constructor|reflexivity].
  - rewrite spec_runes_unfold, D in H by assumption. inversion H as [|? ? Hok Hrest]; subst.
    destruct E as [E|E]; [congruence|]. destruct (IH Hrest) as (rs & Hv & Hrs).
    exists (Z.of_N r :: rs). split.
    + constructor; assumption.
    + cbn [flat_map]. rewrite N2Z.id, E, <- Hrs. symmetry. apply firstn_skipn.
Qed.

Lemma string_to_bytes_id s : is_bytes s = true -> string_to_bytes s = s.
Proof.
  unfold string_to_bytes, is_bytes. induction s as [|c s IH]; cbn [map forallb]; intros H; auto.
  apply andb_true_iff in H as [H1 H2]. f_equal; [apply N.mod_small; lia|auto].
Qed.

Lemma string_to_bytes_bytes s : is_bytes (string_to_bytes s) = true.
Proof.
  unfold string_to_bytes, is_bytes. induction s as [|c s IH]; cbn [map forallb]; auto. rewrite IH, andb_true_r.
  pose proof (N.mod_lt c 256 ltac:(discriminate)). lia.
Qed.

Lemma firstn_add {A} n m (l : list A) : firstn (n + m) l = firstn n l ++ firstn m (skipn n l).
Proof. revert l. induction n; intros [|x l]; cbn; auto. - destruct m; reflexivity. - f_equal. apply IHn. Qed.

Lemma b2s_loop_spec k arr off len : (0 < k)%nat -> forall fuel i, (len - i <= fuel)%nat ->
  b2s_loop fuel k arr off len i = firstn (len - i) (skipn (off + i) arr).
Proof.
  intros Hk. induction fuel; intros i H.
  - replace (len - i)%nat with O by lia. reflexivity.
  - cbn [b2s_loop]. destruct (Nat.ltb i len) eqn:E.
    + apply Nat.ltb_lt in E. rewrite IHfuel by lia.
      destruct (Nat.le_gt_cases (i + k) len) as [L|L].
      * replace (Nat.min len (i + k) - i)%nat with k by lia.
        replace (len - i)%nat with (k + (len - (i + k)))%nat by lia.
        rewrite firstn_add, skipn_skipn'. do 3 f_equal. lia.
      * replace (Nat.min len (i + k) - i)%nat with (len - i)%nat by lia.
        replace (len - (i + k))%nat with O by lia. cbn [firstn]. apply app_nil_r.
    + apply Nat.ltb_ge in E. replace (len - i)%nat with O by lia. reflexivity.
Qed.

Lemma bytes_to_string_k_spec k arr off len : (0 < k)%nat -> bytes_to_string_k k arr off len = window arr off len.
Proof.
  intros Hk. unfold bytes_to_string_k, window. destruct (Nat.eqb len 0) eqn:E.
  - apply Nat.eqb_eq in E. subst. reflexivity.
  - rewrite b2s_loop_spec by lia. rewrite Nat.sub_0_r, Nat.add_0_r. reflexivity.
Qed.

Lemma chunk_pos : (0 < CHUNK)%nat.
Proof. unfold CHUNK. lia. Qed.

Lemma bytes_to_string_spec arr off len : bytes_to_string arr off len = window arr off len.
Proof. apply bytes_to_string_k_spec, chunk_pos. Qed.

Lemma bytes_to_string_all b : bytes_to_string b 0 (length b) = b.
Proof. rewrite bytes_to_string_spec. apply firstn_all. Qed.

Lemma js_substring_in_range s a b : (0 <= a <= b)%Z -> (b <= Z.of_nat (length s))%Z ->
  js_substring s a b = firstn (Z.to_nat (b - a)) (skipn (Z.to_nat a) s).
Proof.
  intros H1 H2. unfold js_substring.
  replace (Z.min (Z.max a 0) (Z.of_nat (length s))) with a by lia.
  replace (Z.min (Z.max b 0) (Z.of_nat (length s))) with b by lia.
  replace (Z.min a b) with a by lia. replace (Z.max a b) with b by lia. reflexivity.
Qed.

Lemma substring_three_arg s lo hi : substring s lo (Some hi) = spec_slice s lo hi.
Proof.
  unfold substring, spec_slice.
  destruct ((lo <? 0) || (hi <? lo) || (Z.of_nat (length s) <? hi))%Z eqn:E.
  - replace ((0 <=? lo) && (lo <=? hi) && (hi <=? Z.of_nat (length s)))%Z with false by lia. reflexivity.
  - replace ((0 <=? lo) && (lo <=? hi) && (hi <=? Z.of_nat (length s)))%Z with true by lia.
    rewrite js_substring_in_range by lia. reflexivity.
Qed.

Lemma substring_low_only s lo : substring s lo None = spec_slice s lo (Z.of_nat (length s)).
Proof. rewrite <- substring_three_arg. reflexivity. Qed.

Lemma index_unchecked_in_range s i : (0 <= i < Z.of_nat (length s))%Z ->
  Some (index_unchecked s i) = spec_index s i.
Proof.
  intros H. unfold index_unchecked, spec_index.
  replace (i <? 0)%Z with false by lia.
  replace ((0 <=? i) && (i <? Z.of_nat (length s)))%Z with true by lia.
  destruct (nth_error s (Z.to_nat i)) eqn:E; [reflexivity|].
  apply nth_error_None in E. lia.
Qed.

Lemma index_emitted_spec c s i : (c = true -> 0 <= i)%Z -> index_emitted c s i = spec_index s i.
Proof.
  intros Hc. unfold index_emitted.
  destruct (if c then (Z.of_nat (length s) <=? i)%Z else ((i <? 0) || (Z.of_nat (length s) <=? i))%Z) eqn:E.
  - unfold spec_index. replace ((0 <=? i) && (i <? Z.of_nat (length s)))%Z with false; [reflexivity|].
    destruct c; lia.
  - apply index_unchecked_in_range. destruct c; [specialize (Hc eq_refl)|]; lia.
Qed.

Lemma string_of_int64_spec x : string_of_int64 x = spec_string_of_rune x.
Proof.
  unfold string_of_int64. rewrite encode_eq_spec.
  destruct (x / 4294967296 =? 0)%Z eqn:E.
  - replace (x mod 4294967296)%Z with x by lia. reflexivity.
  - unfold spec_string_of_rune.
    replace (valid_scalar x) with false by (unfold valid_scalar; lia). reflexivity.
Qed.

Lemma is_bytes_app a b : is_bytes (a ++ b) = is_bytes a && is_bytes b.
Proof. apply forallb_app. Qed.

Lemma is_bytes_split n s : is_bytes s = true -> is_bytes (firstn n s) = true /\ is_bytes (skipn n s) = true.
Proof. rewrite <- (firstn_skipn n s) at 1. rewrite is_bytes_app. apply andb_true_iff. Qed.

Lemma decode_rune_facts s pos r w : (pos < length s)%nat -> decode_rune s pos = (r, w) ->
  (1 <= w <= 4)%nat /\ (pos + w <= length s)%nat /\ validZ (Z.of_N r) /\
  ((r, w) = ERR \/ encode_rune (Z.of_N r) = firstn w (skipn pos s)).
Proof.
  intros Hp D. rewrite decode_eq_spec in D.
  pose proof (skipn_nonnil s pos Hp) as Hne.
  destruct (spec_decode_facts _ _ _ Hne D) as (Hw & Hl & V & He).
  rewrite skipn_length in Hl. repeat split; try lia; [exact V|].
  destruct He as [He|He]; [left; exact He|right]. rewrite encode_valid, N2Z.id; assumption.
Qed.
