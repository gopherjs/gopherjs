(* C15 — strings: escaping "\" -> "\\", "$" -> "\$" and joining with "$" is injective for a fixed
   arity (over arbitrary lists of arbitrary strings): the escape is a per-character prefix code, the rest
   is Base/PrefixCode; decimal printing is injective and free of "$" and "\". *)
From Coq Require Import List ZArith NArith Bool Ascii String DecimalString DecimalZ.
From Verif Require Import Base.PrefixCode Model.C15_Keys.
Import ListNotations.

Definition esc_char (c : N) : str :=
  if N.eqb c 92 then [92; 92]%N else if N.eqb c 36 then [92; 36]%N else [c].

Lemma escape_chars : forall s, escape s = flat_map esc_char s.
Proof.
  unfold escape, esc_char, BSL, DOLLAR. induction s as [|c r IH]; [reflexivity|].
  cbn [repl_bsl flat_map]. unfold BSL, DOLLAR.
  destruct (N.eqb_spec c 92) as [->|Hb]; cbn [repl_dollar app]; unfold BSL, DOLLAR.
  - cbn. now rewrite IH.
  - destruct (N.eqb_spec c 36); cbn [app]; now rewrite IH.
Qed.

Lemma esc_char_prefix : prefix_code esc_char.
Proof.
  intros c d x y. unfold esc_char.
  destruct (N.eqb_spec c 92), (N.eqb_spec c 36), (N.eqb_spec d 92), (N.eqb_spec d 36); subst;
    cbn [app]; intros H; injection H; intros; subst; try discriminate; try contradiction; now split.
Qed.

Lemma esc_char_not_tail : forall c x r, tail_ok DOLLAR r -> esc_char c ++ x <> r.
Proof.
  intros c x r Hr. unfold esc_char.
  destruct (N.eqb_spec c 92); [|destruct (N.eqb_spec c 36)]; destruct Hr as [->|[r0 ->]]; unfold DOLLAR; cbn [app]; congruence.
Qed.

Lemma escape_delimited : delimited escape (fun _ => True) (tail_ok DOLLAR).
Proof.
  intros a b r r'. rewrite !escape_chars.
  exact (flat_map_delimited esc_char _ esc_char_prefix esc_char_not_tail a b r r').
Qed.

Theorem join_escape_inj : forall l l' : list str,
  List.length l = List.length l' -> join (map escape l) = join (map escape l') -> l = l'.
Proof.
  intros l l'. apply (join_inj_len DOLLAR escape _ escape_delimited); apply Forall_forall; intros; exact I.
Qed.

(* without a fixed arity it is NOT injective: zero strings and one empty string both give "" *)
Lemma join_escape_arity_needed : join (map escape []) = join (map escape [[]]).
Proof. reflexivity. Qed.

Definition plain (s : str) : Prop := Forall (fun c => c <> DOLLAR /\ c <> BSL) s.

Lemma escape_plain : forall s, plain s -> escape s = s.
Proof.
  intros s H. rewrite escape_chars. induction H as [|c r [H1 H2] _ IH]; [reflexivity|].
  cbn [flat_map]. unfold esc_char, DOLLAR, BSL in *.
  destruct (N.eqb_spec c 92); [contradiction|]. destruct (N.eqb_spec c 36); [contradiction|].
  cbn [app]. now rewrite IH.
Qed.

Lemma plain_app : forall a b, plain a -> plain b -> plain (a ++ b).
Proof. intros. apply Forall_app. now split. Qed.

Lemma split_dollar : forall a b x y,
  plain a -> plain b -> a ++ DOLLAR :: x = b ++ DOLLAR :: y -> a = b /\ x = y.
Proof.
  intros a b x y Ha Hb H. rewrite <- (escape_plain a Ha), <- (escape_plain b Hb) in H.
  exact (delimited_split DOLLAR escape _ escape_delimited a b x y I I H).
Qed.

Lemma of_string_inj : forall a b, of_string a = of_string b -> a = b.
Proof.
  unfold of_string. intros a b H. apply (f_equal (map ascii_of_N)) in H.
  rewrite !map_map, !(map_ext _ _ ascii_N_embedding), !map_id in H.
  rewrite <- (string_of_list_ascii_of_string a), <- (string_of_list_ascii_of_string b). now f_equal.
Qed.

Theorem dec_inj : forall a b, dec a = dec b -> a = b.
Proof.
  unfold dec. intros a b H. apply of_string_inj in H.
  apply to_int_inj.
  assert (E : NilEmpty.int_of_string (NilEmpty.string_of_int (Z.to_int a)) =
              NilEmpty.int_of_string (NilEmpty.string_of_int (Z.to_int b))) by now rewrite H.
  rewrite !NilEmpty.isi in E. now injection E.
Qed.

Lemma plain_uint : forall d, plain (of_string (NilEmpty.string_of_uint d)).
Proof.
  unfold plain, of_string, DOLLAR, BSL.
  induction d; cbn; constructor; try assumption; split; discriminate.
Qed.

Theorem dec_plain : forall z, plain (dec z).
Proof.
  intros z. unfold dec. destruct (Z.to_int z) as [d|d]; cbn [NilEmpty.string_of_int].
  - apply plain_uint.
  - unfold plain, of_string. cbn. constructor; [split; discriminate|]. apply plain_uint.
Qed.

Definition plainb (s : str) : bool := forallb (fun c => negb (N.eqb c DOLLAR) && negb (N.eqb c BSL)) s.

Lemma plainb_sound : forall s, plainb s = true -> plain s.
Proof.
  intros s H. apply Forall_forall. intros c Hc. apply (proj1 (forallb_forall _ _) H) in Hc.
  apply andb_true_iff in Hc as [H1 H2]. split; intros ->; discriminate.
Qed.

Lemma plain_of_string_nan : plain (of_string "NaN").
Proof. now apply plainb_sound. Qed.
Lemma plain_of_string_zero : plain (of_string "0").
Proof. now apply plainb_sound. Qed.
Lemma plain_of_string_true : plain (of_string "true").
Proof. now apply plainb_sound. Qed.
Lemma plain_of_string_false : plain (of_string "false").
Proof. now apply plainb_sound. Qed.
Lemma plain_of_string_nil : plain (of_string "nil").
Proof. now apply plainb_sound. Qed.
