(* C15 — two key values get the same JS key exactly when Go's == holds (key_iff_eq), by induction
   on values/key types, for keys computed at ANY two moments of a run (the id counter and the $id
   slots are threaded).  No hypothesis excludes NaN floats (each NaN gets a key of its own, as NaN != NaN)
   or structs with blank fields (skipped by the key and by == alike). *)
From Coq Require Import List ZArith NArith Bool Lia String.
From Verif Require Import Base.Lists Model.C15_Keys Proofs.C15_Escape.
Import ListNotations.
Local Open Scope N_scope.

Section ValInd.
Variable P : val -> Prop.
Hypothesis HBool : forall b, P (VBool b).
Hypothesis HInt : forall z, P (VInt z).
Hypothesis HString : forall s, P (VString s).
Hypothesis HFloat : forall f, P (VFloat f).
Hypothesis H64 : forall h l, P (V64 h l).
Hypothesis HComplex : forall r i, P (VComplex r i).
Hypothesis HRef : forall r, P (VRef r).
Hypothesis HNil : P VNil.
Hypothesis HDyn : forall d v, P v -> P (VDyn d v).
Hypothesis HArr : forall l, Forall P l -> P (VArr l).
Hypothesis HStruct : forall l, Forall P l -> P (VStruct l).
Hypothesis HOpaque : P VOpaque.
Fixpoint val_ind' (v : val) : P v :=
  match v with
  | VBool b => HBool b | VInt z => HInt z | VString s => HString s | VFloat f => HFloat f
  | V64 h l => H64 h l | VComplex r i => HComplex r i | VRef r => HRef r | VNil => HNil
  | VDyn d x => HDyn d x (val_ind' x)
  | VArr l => HArr l ((fix go (l : list val) : Forall P l :=
                         match l with [] => Forall_nil _ | x :: r => Forall_cons _ (val_ind' x) (go r) end) l)
  | VStruct l => HStruct l ((fix go (l : list val) : Forall P l :=
                         match l with [] => Forall_nil _ | x :: r => Forall_cons _ (val_ind' x) (go r) end) l)
  | VOpaque => HOpaque
  end.
End ValInd.

Definition sle (s s' : st) : Prop :=
  ctr s <= ctr s' /\ forall r i, lookup_id r (ids s) = Some i -> lookup_id r (ids s') = Some i.

Definition wf (s : st) : Prop :=
  (forall r i, lookup_id r (ids s) = Some i -> i <= ctr s) /\
  (forall r r' i, lookup_id r (ids s) = Some i -> lookup_id r' (ids s) = Some i -> r = r').

Lemma sle_refl : forall s, sle s s.
Proof. intros s; split; [lia | auto]. Qed.
Lemma sle_trans : forall a b c, sle a b -> sle b c -> sle a c.
Proof. intros a b c [H1 H2] [H3 H4]; split; [lia | auto]. Qed.

Lemma wf_init : forall c, wf {| ctr := c; ids := [] |}.
Proof. intros c; split; cbn; intros; discriminate. Qed.

Definition mono {X} (f : st -> X * st) : Prop :=
  forall s x s', wf s -> f s = (x, s') -> wf s' /\ sle s s'.

Lemma mono_ret : forall {X} (x : X), mono (fun s => (x, s)).
Proof. intros X x s x' s' W E. injection E as <- <-. split; [exact W | apply sle_refl]. Qed.

Lemma mono_bind : forall {X Y} (f : st -> X * st) (g : X -> st -> Y * st),
  mono f -> (forall x, mono (g x)) -> mono (fun s => let (x, s1) := f s in g x s1).
Proof.
  intros X Y f g Hf Hg s y s' W E. destruct (f s) as [x s1] eqn:Ef.
  destruct (Hf _ _ _ W Ef) as [W1 L1]. destruct (Hg x _ _ _ W1 E) as [W2 L2].
  split; [exact W2 | exact (sle_trans _ _ _ L1 L2)].
Qed.

Lemma mono_ext : forall {X} (f g : st -> X * st), (forall s, f s = g s) -> mono g -> mono f.
Proof. intros X f g E Hg s x s' W H. rewrite E in H. exact (Hg _ _ _ W H). Qed.

(* two computations of one run: f yields x, and g, started at that moment or later, yields y *)
Inductive later {X Y} (f : st -> X * st) (g : st -> Y * st) (x : X) (y : Y) : Prop :=
  later_intro s0 s1 s2 s3 : wf s0 -> f s0 = (x, s1) -> sle s1 s2 -> wf s2 -> g s2 = (y, s3) -> later f g x y.
Arguments later_intro {X Y f g x y s0 s1 s2 s3}.

(* f then f' in the first run, g then g' in the second: f is before g, and f' before g' *)
Lemma later_seq : forall {X X' Y Y'} (f : st -> X * st) (f' : st -> X' * st) (g : st -> Y * st) (g' : st -> Y' * st)
    s0 x sa x' s1 s2 y sb y' s3,
  mono f -> mono f' -> mono g ->
  wf s0 -> f s0 = (x, sa) -> f' sa = (x', s1) -> sle s1 s2 -> wf s2 -> g s2 = (y, sb) -> g' sb = (y', s3) ->
  later f g x y /\ later f' g' x' y'.
Proof.
  intros X X' Y Y' f f' g g' s0 x sa x' s1 s2 y sb y' s3 Mf Mf' Mg W0 Ef Ef' L W2 Eg Eg'.
  destruct (Mf _ _ _ W0 Ef) as [Wa _]. destruct (Mf' _ _ _ Wa Ef') as [_ La']. destruct (Mg _ _ _ W2 Eg) as [Wb Lb].
  split.
  - exact (later_intro W0 Ef (sle_trans _ _ _ La' L) W2 Eg).
  - exact (later_intro Wa Ef' (sle_trans _ _ _ L Lb) Wb Eg').
Qed.
Arguments later_seq {X X' Y Y' f f' g g' s0 x sa x' s1 s2 y sb y' s3}.

Lemma str_eqb_eq : forall a b, str_eqb a b = true <-> a = b.
Proof. exact (list_eqb_eq N.eqb N.eqb_eq). Qed.

Lemma dollar_not_plain : forall a b, ~ plain (a ++ DOLLAR :: b).
Proof.
  intros a b H. apply Forall_app in H as [_ H]. inversion H as [|? ? [Hd _] _]. now apply Hd.
Qed.

(* the field list under which an array is a struct: no blank fields, every field of the element type *)
Definition arr_fields (e : kty) (l : list val) : list (bool * kty) := repeat (false, e) (List.length l).

Lemma keys_arr_struct : forall (f : kty -> val -> st -> option jskey * st) (g : jskey -> str) e l s,
  keys_arr (f e) (fun _ => g) l s = keys_struct f g (arr_fields e l) l s.
Proof.
  intros f g e. induction l as [|x l IH]; intros s; [reflexivity|].
  cbn [keys_arr arr_fields List.length repeat keys_struct]. destruct (f e x s) as [[k|] s1]; [|reflexivity].
  now rewrite IH.
Qed.

Lemma all1_fields1 : forall (p : kty -> val -> bool) e l, all1 (p e) l = fields1 p (arr_fields e l) l.
Proof. intros p e. induction l as [|x l IH]; [reflexivity|]. cbn [all1 arr_fields List.length repeat fields1]. now rewrite IH. Qed.

Lemma all1_fieldsnb : forall (p : kty -> val -> bool) e l, all1 (p e) l = fieldsnb p (arr_fields e l) l.
Proof. intros p e. induction l as [|x l IH]; [reflexivity|]. cbn [all1 arr_fields List.length repeat fieldsnb]. now rewrite IH. Qed.

Lemma all2_fields2 : forall (p : kty -> val -> val -> bool) e l l',
  all2 (p e) l l' = fields2 (fun blank ft x y => blank || p ft x y) (arr_fields e l) l l'.
Proof.
  intros p e. induction l as [|x l IH]; intros [|y l']; try reflexivity.
  cbn [all2 arr_fields List.length repeat fields2 orb]. now rewrite IH.
Qed.

Lemma wt_arr : forall n e l,
  wt (TArray n e) (VArr l) = Nat.eqb (List.length l) n && wt (TStruct (arr_fields e l)) (VStruct l).
Proof. intros n e l. exact (f_equal _ (all1_fields1 wt e l)). Qed.

Lemma go_eq_arr : forall n e l l',
  go_eq (TArray n e) (VArr l) (VArr l') = go_eq (TStruct (arr_fields e l)) (VStruct l) (VStruct l').
Proof. intros n e l l'. exact (all2_fields2 go_eq e l l'). Qed.

Lemma hashable_arr : forall n e l, hashable (TArray n e) (VArr l) = hashable (TStruct (arr_fields e l)) (VStruct l).
Proof. intros n e l. exact (all1_fieldsnb hashable e l). Qed.

Lemma comparable_arr_fields : forall e l, comparable e = true -> comparable (TStruct (arr_fields e l)) = true.
Proof. intros e l C. induction l as [|x l IH]; [reflexivity|]. cbn [comparable arr_fields List.length repeat] in *. now rewrite C. Qed.

Section Keys.
Variable nts : Z -> str.
Variable by_id : bool.   (* which text $ifaceKeyFor prints for a dynamic type: its id, or its string *)
(* the trusted number printer: injective on non-zero floats, never prints "0" or "NaN" for them, and
   its text contains neither "$" nor "\" *)
Hypothesis nts_inj : forall x y, is_zero_bits x = false -> is_zero_bits y = false -> nts x = nts y -> x = y.
Hypothesis nts_nonzero : forall x, is_zero_bits x = false -> nts x <> of_string "0".
Hypothesis nts_not_nan : forall x, nts x <> of_string "NaN".
Hypothesis nts_plain : forall x, plain (nts x).

Notation K := (key_for nts by_id).
Notation pre := (iface_prefix by_id).
Notation esc_key := (fun k : jskey => escape (key_str k)).

Lemma K_arr : forall n e l s,
  K (TArray n e) (VArr l) s =
  if comparable e then
    match keys_arr (fun x s => K e x s) (fun _ => esc_key) l s with
    | (Some ks, s') => (Some (KStr (join ks)), s')
    | (None, s') => (None, s')
    end
  else (None, s).
Proof. reflexivity. Qed.

Lemma K_struct : forall fs l s,
  K (TStruct fs) (VStruct l) s =
  match keys_struct (fun ft x s => K ft x s) esc_key fs l s with
  | (Some ks, s') => (Some (KStr (join ks)), s')
  | (None, s') => (None, s')
  end.
Proof. reflexivity. Qed.

Lemma K_arr_struct : forall n e l s,
  K (TArray n e) (VArr l) s = if comparable e then K (TStruct (arr_fields e l)) (VStruct l) s else (None, s).
Proof. intros n e l s. now rewrite K_arr, K_struct, (keys_arr_struct K). Qed.

Lemma K_dyn : forall d x s,
  K TIface (VDyn d x) s =
  if comparable (d_shape d) then
    match K (d_shape d) x s with
    | (Some k, s') => (Some (KStr (pre d ++ DOLLAR :: key_str k)), s')
    | (None, s') => (None, s')
    end
  else (None, s).
Proof. reflexivity. Qed.

Lemma K_float : forall f s, K TFloat (VFloat f) s = (let (k, s') := float_key nts f s in (Some (KStr k), s')).
Proof. reflexivity. Qed.
Lemma K_ref : forall r s, K TRef (VRef r) s = (let (k, s') := id_key r s in (Some (KStr k), s')).
Proof. reflexivity. Qed.
Lemma K_complex : forall re im s,
  K TComplex (VComplex re im) s =
  (let (kr, s1) := float_key nts re s in let (ki, s2) := float_key nts im s1 in (Some (KStr (kr ++ DOLLAR :: ki)), s2)).
Proof. reflexivity. Qed.

Lemma id_key_spec : forall r s k s', wf s -> id_key r s = (k, s') ->
  wf s' /\ sle s s' /\ exists i, lookup_id r (ids s') = Some i /\ k = dec (Z.of_N i).
Proof.
  intros r s k s' [W1 W2] H. unfold id_key in H.
  destruct (lookup_id r (ids s)) as [i|] eqn:E.
  - injection H as <- <-. repeat split; auto; try lia. eauto.
  - injection H as <- <-. split; [|split].
    + split; cbn [ids ctr lookup_id].
      * intros r0 i. destruct (N.eqb_spec r0 r); intros H.
        -- injection H as <-. lia.
        -- apply W1 in H. lia.
      * intros r0 r1 i. destruct (N.eqb_spec r0 r); destruct (N.eqb_spec r1 r); intros H1 H2; subst; auto.
        -- injection H1 as <-. apply W1 in H2. lia.
        -- injection H2 as <-. apply W1 in H1. lia.
        -- eauto.
    + split; cbn [ids ctr lookup_id]; [lia|].
      intros r0 i H. destruct (N.eqb_spec r0 r); [subst; congruence | exact H].
    + exists (N.succ (ctr s)). cbn [ids lookup_id]. now rewrite N.eqb_refl.
Qed.

Lemma id_key_mono : forall r, mono (id_key r).
Proof. intros r s k s' W E. destruct (id_key_spec _ _ _ _ W E) as (A & B & _). now split. Qed.

(* the first id is still in its slot when the second is looked up or handed out *)
Lemma id_key_iff : forall r1 r2 k1 k2, later (id_key r1) (id_key r2) k1 k2 -> (k1 = k2 <-> r1 = r2).
Proof.
  intros r1 r2 k1 k2 [s0 s1 s2 s3 Wf E1 [_ L] Wf2 E2].
  destruct (id_key_spec _ _ _ _ Wf E1) as (_ & _ & i & Li & ->).
  destruct (id_key_spec _ _ _ _ Wf2 E2) as ([_ Winj] & [_ Lb] & j & Lj & ->).
  apply L, Lb in Li. split; intros E.
  - apply dec_inj, N2Z.inj in E. subst j. exact (Winj _ _ _ Li Lj).
  - subst r2. congruence.
Qed.

Lemma float_key_mono : forall f, mono (float_key nts f).
Proof.
  intros [|b] s k s' [W1 W2] H; cbn in H; injection H as <- <-.
  - split; [split; cbn [ids ctr]|split; cbn [ids ctr]]; auto; try lia.
    intros r i Hl. apply W1 in Hl. lia.
  - split; [split; auto | apply sle_refl].
Qed.

Lemma keys_struct_mono_if : forall l, Forall (fun x => forall t, mono (K t x)) l ->
  forall fs, mono (keys_struct (fun ft x s => K ft x s) esc_key fs l).
Proof.
  intros l HF. induction HF as [|x l Hx _ IH]; intros fs.
  - destruct fs as [|[[|] ?] ?]; apply mono_ret.
  - destruct fs as [|[[|] ft] fs]; [apply mono_ret | apply IH |].
    cbn [keys_struct]. apply mono_bind; [apply Hx|]. intros [k|]; [|apply mono_ret].
    apply mono_bind; [apply IH|]. intros [ks|]; apply mono_ret.
Qed.

Lemma K_mono : forall t x, mono (K t x).
Proof.
  intros t x. revert t.
  induction x as [b|z|w|f|hi lo|re im|r| |d x IHx|l IHl|l IHl| ] using val_ind';
    intros t; destruct t; try apply mono_ret; cbn [key_for].
  - (* TFloat, VFloat *)
    apply mono_bind; [apply float_key_mono | intros k; apply mono_ret].
  - (* TComplex, VComplex *)
    apply mono_bind; [apply float_key_mono | intros kr].
    apply mono_bind; [apply float_key_mono | intros ki; apply mono_ret].
  - (* TRef, VRef *)
    apply mono_bind; [apply id_key_mono | intros k; apply mono_ret].
  - (* TIface, VDyn *)
    destruct (comparable (d_shape d)); [|apply mono_ret].
    apply mono_bind; [apply IHx | intros [k|]; apply mono_ret].
  - (* TArray, VArr *)
    destruct (comparable t); [|apply mono_ret].
    apply mono_bind; [|intros [ks|]; apply mono_ret].
    apply (mono_ext _ _ (keys_arr_struct K esc_key t l)), keys_struct_mono_if, IHl.
  - (* TStruct, VStruct *)
    apply mono_bind; [apply keys_struct_mono_if, IHl | intros [ks|]; apply mono_ret].
Qed.

Lemma keys_struct_mono : forall fs l, mono (keys_struct (fun ft x s => K ft x s) esc_key fs l).
Proof. intros fs l. apply keys_struct_mono_if, Forall_forall. intros x _ t. apply K_mono. Qed.

Lemma fl_str_plain : forall f, plain (fl_str nts f).
Proof.
  intros [|b]; cbn [fl_str]; [apply plain_of_string_nan|].
  destruct (is_zero_bits b); [apply plain_of_string_zero | apply nts_plain].
Qed.

Lemma fl_str_eq : forall x y, fl_str nts (FNum x) = fl_str nts (FNum y) <-> fl_eq (FNum x) (FNum y) = true.
Proof.
  intros x y. cbn [fl_str fl_eq].
  destruct (is_zero_bits x) eqn:Zx; destruct (is_zero_bits y) eqn:Zy; cbn [andb]; rewrite ?orb_true_r, ?orb_false_r.
  - tauto.
  - split; intros H.
    + symmetry in H. now apply nts_nonzero in H.
    + apply Z.eqb_eq in H. subst. congruence.
  - split; intros H.
    + now apply nts_nonzero in H.
    + apply Z.eqb_eq in H. subst. congruence.
  - split; intros H.
    + apply Z.eqb_eq. now apply nts_inj.
    + apply Z.eqb_eq in H. now subst.
Qed.

Lemma fl_str_not_nan_text : forall b, fl_str nts (FNum b) <> of_string "NaN".
Proof. intros b. cbn [fl_str]. destruct (is_zero_bits b); [vm_compute; discriminate | apply nts_not_nan]. Qed.

Definition NANP : str := of_string "NaN$".

(* A NaN key is "NaN$" followed by a counter value not used before: it differs from every other
   NaN key, made earlier or later (the counter only grows), and from every number's text (which has
   no "$"), as NaN == x is false for every x. *)
Lemma float_key_nan : forall s,
  float_key nts FNaN s = (NANP ++ dec (Z.of_N (N.succ (ctr s))), {| ctr := N.succ (ctr s); ids := ids s |}).
Proof. reflexivity. Qed.
Lemma float_key_num : forall b s, float_key nts (FNum b) s = (fl_str nts (FNum b), s).
Proof. reflexivity. Qed.

Lemma nanp_split : forall x, NANP ++ x = of_string "NaN" ++ DOLLAR :: x.
Proof. reflexivity. Qed.

Lemma nan_key_fresh : forall s s2,
  ctr (snd (float_key nts FNaN s)) <= ctr s2 -> fst (float_key nts FNaN s) <> fst (float_key nts FNaN s2).
Proof.
  intros s s2 L E. rewrite !float_key_nan in *. cbn [fst snd ctr] in *.
  apply app_inv_head, dec_inj in E. lia.
Qed.

Lemma nan_ne_num : forall c b, NANP ++ dec c <> fl_str nts (FNum b).
Proof.
  intros c b E. apply (dollar_not_plain (of_string "NaN") (dec c)).
  rewrite <- nanp_split, E. apply fl_str_plain.
Qed.

Lemma float_key_iff : forall f1 f2 k1 k2,
  later (float_key nts f1) (float_key nts f2) k1 k2 -> (k1 = k2 <-> fl_eq f1 f2 = true).
Proof.
  intros [|x] [|z] k1 k2 [s0 s1 s2 s3 _ H1 [L _] _ H2]; rewrite ?float_key_nan, ?float_key_num in H1, H2;
    injection H1 as <- <-; injection H2 as <- <-; cbn [fl_eq ctr] in *.
  - (* NaN, NaN: the second counter value is above the first *)
    split; [|discriminate]. intros E. destruct (nan_key_fresh s0 s2 L E).
  - split; [|discriminate]. intros E. destruct (nan_ne_num _ _ E).
  - split; [|discriminate]. intros E. destruct (nan_ne_num _ _ (eq_sym E)).
  - apply fl_str_eq.
Qed.

Definition fshape (k : str) : Prop :=
  (plain k /\ k <> of_string "NaN") \/ (exists c, k = NANP ++ dec c).

Lemma float_key_shape : forall f s k s', float_key nts f s = (k, s') -> fshape k.
Proof.
  intros [|b] s k s' H.
  - rewrite float_key_nan in H. injection H as <- _. right. eexists. reflexivity.
  - rewrite float_key_num in H. injection H as <- _. left. split; [exact (fl_str_plain (FNum b)) | exact (fl_str_not_nan_text b)].
Qed.

Lemma plain_ne_nan : forall a c x y, plain a -> a <> of_string "NaN" ->
  a ++ DOLLAR :: x <> (NANP ++ dec c) ++ DOLLAR :: y.
Proof.
  intros a c x y Pa Na H. rewrite nanp_split, <- app_assoc in H. cbn [app] in H.
  apply split_dollar in H; [|exact Pa|apply plain_of_string_nan]. now destruct H.
Qed.

Lemma fkey_split : forall a b x y, fshape a -> fshape b ->
  a ++ DOLLAR :: x = b ++ DOLLAR :: y -> a = b /\ x = y.
Proof.
  intros a b x y [[Pa Na]|[c ->]] [[Pb Nb]|[c' ->]] H.
  - now apply split_dollar.
  - destruct (plain_ne_nan _ _ _ _ Pa Na H).
  - destruct (plain_ne_nan _ _ _ _ Pb Nb (eq_sym H)).
  - rewrite <- !app_assoc in H. apply app_inv_head in H.
    apply split_dollar in H; try apply dec_plain. destruct H as [-> ->]. now split.
Qed.

Fixpoint dyns (v : val) : list dyn :=
  match v with
  | VDyn d x => d :: dyns x
  | VArr l => flat_map dyns l
  | VStruct l => flat_map dyns l
  | _ => []
  end.

(* the dynamic types met: one record per type identity; the text $ifaceKeyFor prints for a type
   identifies it and contains no "$" / "\" (by construction when it prints the type id) *)
Definition univ_ok (D : list dyn) : Prop :=
  (forall d d', In d D -> In d' D -> d_id d = d_id d' -> d = d') /\
  (forall d d', In d D -> In d' D -> pre d = pre d' -> d_id d = d_id d') /\
  (forall d, In d D -> plain (pre d)).

Definition iff_at (x : val) : Prop :=
  forall t y D ka kb,
    univ_ok D -> incl (dyns x) D -> incl (dyns y) D -> wt t x = true -> wt t y = true ->
    later (K t x) (K t y) (Some ka) (Some kb) ->
    (key_str ka = key_str kb <-> go_eq t x y = true).

Lemma keys_struct_iff : forall l, Forall iff_at l ->
  forall fs l' D ks ks',
    univ_ok D -> incl (flat_map dyns l) D -> incl (flat_map dyns l') D ->
    fields1 wt fs l = true -> fields1 wt fs l' = true ->
    later (keys_struct (fun ft x s => K ft x s) esc_key fs l) (keys_struct (fun ft x s => K ft x s) esc_key fs l')
          (Some ks) (Some ks') ->
    exists rs rs', ks = map escape rs /\ ks' = map escape rs' /\ List.length rs = List.length rs' /\
                   (rs = rs' <-> fields2 (fun blank ft x y => blank || go_eq ft x y) fs l l' = true).
Proof.
  intros l HF. induction HF as [|x l Hx _ IH];
    intros fs l' D ks ks' U I1 I2 W1 W2 [s0 s1 s2 s3 Wf H1 L Wf2 H2].
  - destruct fs as [|[bl ft] fs]; [|discriminate W1]. destruct l' as [|y l']; [|discriminate W2].
    injection H1 as <- <-. injection H2 as <- <-. exists [], []. now repeat split.
  - destruct fs as [|[bl ft] fs]; [discriminate W1|]. destruct l' as [|y l']; [discriminate W2|].
    cbn [keys_struct] in H1, H2. cbn [fields1] in W1, W2.
    apply andb_true_iff in W1 as [Wx W1]. apply andb_true_iff in W2 as [Wy W2].
    cbn [flat_map] in I1, I2.
    destruct (incl_app_inv _ _ I1) as [I1a I1b]. destruct (incl_app_inv _ _ I2) as [I2a I2b].
    destruct bl.
    + (* blank: skipped on both sides *)
      exact (IH fs l' D ks ks' U I1b I2b W1 W2 (later_intro Wf H1 L Wf2 H2)).
    + destruct (K ft x s0) as [[k|] sa] eqn:Ea; [|discriminate].
      destruct (keys_struct _ _ fs l sa) as [[ksa|] sa'] eqn:Ea'; [|discriminate].
      injection H1 as <- <-.
      destruct (K ft y s2) as [[k'|] sb] eqn:Eb; [|discriminate].
      destruct (keys_struct _ _ fs l' sb) as [[ksb|] sb'] eqn:Eb'; [|discriminate].
      injection H2 as <- <-.
      destruct (later_seq (K_mono ft x) (keys_struct_mono fs l) (K_mono ft y) Wf Ea Ea' L Wf2 Eb Eb') as [Lh Lt].
      pose proof (Hx ft y D k k' U I1a I2a Wx Wy Lh) as Hhead.
      destruct (IH fs l' D ksa ksb U I1b I2b W1 W2 Lt) as (rs & rs' & -> & -> & Hl & Hiff).
      exists (key_str k :: rs), (key_str k' :: rs'). cbn [map List.length fields2 orb].
      split; [reflexivity|]. split; [reflexivity|]. split; [now rewrite Hl|].
      rewrite andb_true_iff, <- Hhead, <- Hiff. split; [intros E; now injection E | now intros [-> ->]].
Qed.

Lemma iff_at_struct : forall l, Forall iff_at l -> iff_at (VStruct l).
Proof.
  intros l H t y D ka kb U I1 I2 Wx Wy [s0 s1 s2 s3 Wf Ha L Wf2 Hb].
  destruct t; try discriminate Wx. destruct y; try discriminate Wy.
  rewrite K_struct in Ha, Hb.
  destruct (keys_struct _ _ fs l s0) as [[ks|] w1] eqn:E1; [|discriminate].
  destruct (keys_struct _ _ fs l0 s2) as [[ks'|] w2] eqn:E2; [|discriminate].
  injection Ha as <- <-. injection Hb as <- <-.
  destruct (keys_struct_iff l H fs l0 D ks ks' U I1 I2 Wx Wy (later_intro Wf E1 L Wf2 E2))
    as (rs & rs' & -> & -> & Hl & Hiff).
  cbn [key_str go_eq]. rewrite <- Hiff. split; [now apply join_escape_inj | now intros ->].
Qed.

Lemma iff_at_arr : forall l, iff_at (VStruct l) -> iff_at (VArr l).
Proof.
  intros l HS t y D ka kb U I1 I2 Wx Wy [s0 s1 s2 s3 Wf Ha L Wf2 Hb].
  destruct t; try discriminate Wx. destruct y; try discriminate Wy.
  rewrite wt_arr in Wx, Wy. apply andb_true_iff in Wx as [Nx Wx]. apply andb_true_iff in Wy as [Ny Wy].
  apply Nat.eqb_eq in Nx, Ny.
  rewrite K_arr_struct in Ha, Hb. destruct (comparable t); [|discriminate].
  assert (E : arr_fields t l0 = arr_fields t l) by (unfold arr_fields; congruence). rewrite E in Wy, Hb.
  rewrite go_eq_arr.
  exact (HS (TStruct (arr_fields t l)) (VStruct l0) D ka kb U I1 I2 Wx Wy (later_intro Wf Ha L Wf2 Hb)).
Qed.

Lemma dyn_ne_nil : forall d x s k s', K TIface (VDyn d x) s = (Some k, s') -> key_str k <> of_string "nil".
Proof.
  intros d x s k s' H E. rewrite K_dyn in H. destruct (comparable (d_shape d)); [|discriminate].
  destruct (K (d_shape d) x s) as [[k0|] ?]; [|discriminate]. injection H as <- _.
  apply (dollar_not_plain (pre d) (key_str k0)). cbn [key_str] in E. rewrite E. apply plain_of_string_nil.
Qed.

Lemma iff_at_dyn : forall d x, iff_at x -> iff_at (VDyn d x).
Proof.
  intros d x IHx t y D ka kb U I1 I2 Wx Wy [s0 s1 s2 s3 Wf Ha L Wf2 Hb].
  destruct t; try discriminate Wx. destruct y; try discriminate Wy.
  - (* against nil *)
    cbn in Hb. injection Hb as <- <-. split; [|discriminate].
    intros E. destruct (dyn_ne_nil _ _ _ _ _ Ha E).
  - (* the same dynamic type: the values decide; another one: the type texts differ *)
    rewrite K_dyn in Ha, Hb.
    destruct (comparable (d_shape d)); [|discriminate]. destruct (comparable (d_shape d0)); [|discriminate].
    destruct (K (d_shape d) x s0) as [[k|] w1] eqn:E1; [|discriminate].
    destruct (K (d_shape d0) y s2) as [[k'|] w2] eqn:E2; [|discriminate].
    injection Ha as <- <-. injection Hb as <- <-.
    cbn [dyns] in I1, I2. cbn [key_str go_eq].
    destruct (incl_cons_inv I1) as [Id I1']. destruct (incl_cons_inv I2) as [Id0 I2'].
    destruct (N.eqb_spec (d_id d) (d_id d0)) as [Eid|Nid]; cbn [andb].
    + assert (d = d0) by (apply U; auto). subst d0.
      rewrite <- (IHx (d_shape d) y D k k' U I1' I2' Wx Wy (later_intro Wf E1 L Wf2 E2)).
      split; intros E; [apply app_inv_head in E; now injection E | now rewrite E].
    + split; [|discriminate]. intros E. destruct Nid.
      apply split_dollar in E; [|now apply U ..]. destruct E as [E _]. now apply U.
Qed.

Lemma bool_str_iff : forall a b, key_str (KBool a) = key_str (KBool b) <-> Bool.eqb a b = true.
Proof. intros [|] [|]; cbn [Bool.eqb]; split; intros E; try reflexivity; try discriminate E; vm_compute in E; discriminate E. Qed.

Theorem key_iff : forall x, iff_at x.
Proof.
  induction x as [b|z|w|f|hi lo|r i|r| |d x IHx|l IHl|l IHl| ] using val_ind'.
  (* the values without sub-values (all cases but 9-11, which come last): open the statement and keep
     the t and y that are well-typed *)
  1-8, 12: intros t y D ka kb U I1 I2 Wx Wy [s0 s1 s2 s3 Wf Ha L Wf2 Hb];
    destruct t; try discriminate Wx; destruct y; try discriminate Wy.
  - (* bool *)
    cbn in Ha, Hb. injection Ha as <- <-. injection Hb as <- <-. apply bool_str_iff.
  - (* int *)
    cbn in Ha, Hb. injection Ha as <- <-. injection Hb as <- <-. cbn [key_str go_eq].
    rewrite Z.eqb_eq. split; [apply dec_inj | congruence].
  - (* string *)
    cbn in Ha, Hb. injection Ha as <- <-. injection Hb as <- <-. cbn [key_str go_eq].
    rewrite str_eqb_eq. split; congruence.
  - (* float *)
    rewrite K_float in Ha, Hb.
    destruct (float_key nts f s0) as [k1 v1] eqn:E1. destruct (float_key nts f0 s2) as [k2 v2] eqn:E2.
    injection Ha as <- <-. injection Hb as <- <-.
    exact (float_key_iff _ _ _ _ (later_intro Wf E1 L Wf2 E2)).
  - (* 64 *)
    cbn in Ha, Hb. injection Ha as <- <-. injection Hb as <- <-. cbn [key_str go_eq].
    rewrite andb_true_iff, !Z.eqb_eq. split.
    + intros E. apply split_dollar in E; try apply dec_plain. destruct E as [E1 E2].
      split; now apply dec_inj.
    + now intros [-> ->].
  - (* complex: $floatKey on both parts *)
    rewrite K_complex in Ha, Hb.
    destruct (float_key nts r s0) as [kr a1] eqn:Er. destruct (float_key nts i a1) as [ki a2] eqn:Ei.
    destruct (float_key nts re s2) as [kr' b1] eqn:Er'. destruct (float_key nts im b1) as [ki' b2] eqn:Ei'.
    injection Ha as <- <-. injection Hb as <- <-.
    destruct (later_seq (float_key_mono r) (float_key_mono i) (float_key_mono re) Wf Er Ei L Wf2 Er' Ei') as [Lr Li].
    apply float_key_iff in Lr, Li. cbn [key_str go_eq]. rewrite andb_true_iff, <- Lr, <- Li. split.
    + intros E. apply fkey_split in E; [exact E | eapply float_key_shape; eauto ..].
    + now intros [-> ->].
  - (* ref *)
    rewrite K_ref in Ha, Hb.
    destruct (id_key r s0) as [k1 v1] eqn:E1. destruct (id_key r0 s2) as [k2 v2] eqn:E2.
    injection Ha as <- <-. injection Hb as <- <-. cbn [key_str go_eq]. rewrite N.eqb_eq.
    exact (id_key_iff _ _ _ _ (later_intro Wf E1 L Wf2 E2)).
  - (* nil, nil *)
    cbn in Ha, Hb. injection Ha as <- <-. injection Hb as <- <-. now split.
  - (* nil, dyn *)
    cbn in Ha. injection Ha as <- <-. split; [|discriminate].
    intros E. destruct (dyn_ne_nil _ _ _ _ _ Hb (eq_sym E)).
  - (* opaque *)
    discriminate Ha.
  - (* dyn *)
    exact (iff_at_dyn d x IHx).
  - (* array *)
    exact (iff_at_arr l (iff_at_struct l IHl)).
  - (* struct *)
    exact (iff_at_struct l IHl).
Qed.

Lemma key_kind : forall t x s k s', K t x s = (Some k, s') ->
  match t with
  | TBool => exists b, k = KBool b
  | TInt => exists z, k = KNum z
  | _ => exists w, k = KStr w
  end.
Proof.
  intros t x s k s' H. destruct t; destruct x; cbn [key_for] in H; try discriminate H;
    try (injection H as <- _; eauto; fail).
  - destruct (float_key nts f s). injection H as <- _. eauto.
  - destruct (float_key nts re s) as [? s1]. destruct (float_key nts im s1). injection H as <- _. eauto.
  - destruct (id_key r s). injection H as <- _. eauto.
  - destruct (comparable (d_shape d)); [|discriminate].
    destruct (key_for nts by_id (d_shape d) x s) as [[?|] ?]; [|discriminate]. injection H as <- _. eauto.
  - destruct (comparable t); [|discriminate]. destruct (keys_arr _ _ l s) as [[?|] ?]; [|discriminate]. injection H as <- _. eauto.
  - destruct (keys_struct _ _ fs l s) as [[?|] ?]; [|discriminate]. injection H as <- _. eauto.
Qed.

Lemma jskey_eqb_iff_key_str : forall t x y s1 k1 s1' s2 k2 s2',
  K t x s1 = (Some k1, s1') -> K t y s2 = (Some k2, s2') ->
  (jskey_eqb k1 k2 = true <-> key_str k1 = key_str k2).
Proof.
  intros t x y s1 k1 s1' s2 k2 s2' H1 H2.
  apply key_kind in H1. apply key_kind in H2.
  destruct t; destruct H1 as [a ->]; destruct H2 as [b ->]; cbn [jskey_eqb];
    try (cbn [key_str]; rewrite str_eqb_eq; tauto).
  - symmetry. apply bool_str_iff.
  - cbn [key_str]. rewrite Z.eqb_eq. split; [congruence | apply dec_inj].
Qed.

(* key_iff_eq: the JS Map (SameValueZero on the keys) identifies two keys exactly when Go's == holds.
   The two keys may be computed at any two moments (s1 is the state after the first computation,
   s2 any later state). *)
Theorem key_iff_eq : forall t a b D s0 ka s1 s2 kb s3,
  univ_ok D -> incl (dyns a) D -> incl (dyns b) D ->
  wt t a = true -> wt t b = true ->
  wf s0 -> K t a s0 = (Some ka, s1) -> sle s1 s2 -> wf s2 -> K t b s2 = (Some kb, s3) ->
  (jskey_eqb ka kb = true <-> go_eq t a b = true).
Proof.
  intros t a b D s0 ka s1 s2 kb s3 U I1 I2 W1 W2 Wf H1 L Wf2 H2.
  rewrite (jskey_eqb_iff_key_str t a b s0 ka s1 s2 kb s3 H1 H2).
  exact (key_iff a t b D ka kb U I1 I2 W1 W2 (later_intro Wf H1 L Wf2 H2)).
Qed.

End Keys.
