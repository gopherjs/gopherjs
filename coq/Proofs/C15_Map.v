(* C15 — map_refines: every history of the emitted map operations on the JS representation answers
   like an abstract Go map (association by Go's ==); nil maps. *)
From Coq Require Import List ZArith NArith Bool Lia String.
From Verif Require Import Base.Lists Model.C15_Keys Model.C15_JsMap Proofs.C15_Escape Proofs.C15_Keys Proofs.C15_More.
Import ListNotations.
Local Open Scope N_scope.

Lemma live_size : forall {KK E} (m : jsmap KK E), m_size m = List.length (m_live m).
Proof. induction m as [|[[k' e']|] m IH]; cbn; auto. Qed.

Lemma jskey_eqb_spec : forall a b, jskey_eqb a b = true <-> a = b.
Proof.
  intros [x|x|x] [y|y|y]; cbn [jskey_eqb]; rewrite ?Z.eqb_eq, ?eqb_true_iff, ?str_eqb_eq; split; congruence.
Qed.

Definition amap := list (val * Z).

Section Refines.
Variable nts : Z -> str.
Variable by_id : bool.
Hypothesis nts_inj : forall x y, is_zero_bits x = false -> is_zero_bits y = false -> nts x = nts y -> x = y.
Hypothesis nts_nonzero : forall x, is_zero_bits x = false -> nts x <> of_string "0".
Hypothesis nts_not_nan : forall x, nts x <> of_string "NaN".
Hypothesis nts_plain : forall x, plain (nts x).
Variable t : kty.
Hypothesis t_comparable : comparable t = true.
Variable D : list dyn.
Hypothesis D_ok : univ_ok by_id D.

Notation K := (key_for nts by_id).

Fixpoint a_find (m : amap) (k : val) : option Z :=
  match m with [] => None | (k', v) :: r => if go_eq t k' k then Some v else a_find r k end.
Fixpoint a_set (m : amap) (k : val) (v : Z) : amap :=
  match m with
  | [] => [(k, v)]
  | (k', v') :: r => if go_eq t k' k then (k, v) :: r else (k', v') :: a_set r k v
  end.
Fixpoint a_del (m : amap) (k : val) : amap :=
  match m with [] => [] | (k', v') :: r => if go_eq t k' k then r else (k', v') :: a_del r k end.

(* Go's semantics of one operation on a map value (None = nil map); a panic leaves the map as it is *)
Definition a_step (o : op) (m : option amap) : obs * option amap :=
  match o with
  | OSet k v => match m with
                | None => (RNilMapPanic, m)
                | Some a => if hashable t k then (RUnit, Some (a_set a k v)) else (RNoKeyFor, m)
                end
  | OGet k => if hashable t k
              then (RVal (match m with None => 0%Z | Some a => match a_find a k with Some v => v | None => 0%Z end end), m)
              else (RNoKeyFor, m)
  | OGet2 k => if hashable t k
               then (match m with
                     | None => RVal2 0 false
                     | Some a => match a_find a k with Some v => RVal2 v true | None => RVal2 0 false end
                     end, m)
               else (RNoKeyFor, m)
  | ODel k => if hashable t k
              then (RUnit, match m with None => None | Some a => Some (a_del a k) end)
              else (RNoKeyFor, m)
  | OLen => (RLen (match m with None => 0 | Some a => N.of_nat (List.length a) end), m)
  | OLit kvs => if forallb (fun kv => hashable t (fst kv)) kvs
                then (RUnit, Some (fold_left (fun a kv => a_set a (fst kv) (snd kv)) kvs []))
                else (RNoKeyFor, m)
  | OMakeNil => (RUnit, None)
  end.

Definition contents (m : option amap) : amap := match m with None => [] | Some a => a end.

Fixpoint a_run (os : list op) (m : option amap) : list (obs * amap) :=
  match os with
  | [] => []
  | o :: r => let (ob, m') := a_step o m in (ob, contents m') :: a_run r m'
  end.

Definition kok (k : val) : Prop :=
  wt t k = true /\ incl (dyns k) D.

Definition op_ok (o : op) : Prop :=
  match o with
  | OSet k _ | OGet k | OGet2 k | ODel k => kok k
  | OLit kvs => Forall (fun kv => kok (fst kv)) kvs
  | _ => True
  end.

(* the refinement relation: the live slots, in order, are the abstract entries, and every JS
   key is the key computed for the stored Go key at some earlier moment *)
Definition slot_rel (s : st) (js : jskey * entry) (a : val * Z) : Prop :=
  snd js = a /\ kok (fst a) /\
  exists sa sb, wf sa /\ K t (fst a) sa = (Some (fst js), sb) /\ sle sb s.

Definition R (s : st) (l : list (jskey * entry)) (am : amap) : Prop := Forall2 (slot_rel s) l am.

Lemma slot_mono : forall s s', sle s s' -> forall js a, slot_rel s js a -> slot_rel s' js a.
Proof.
  intros s s' L js a (E & Kk & sa & sb & W & HK & Lb).
  exact (conj E (conj Kk (ex_intro _ sa (ex_intro _ sb (conj W (conj HK (sle_trans _ _ _ Lb L))))))).
Qed.

Lemma R_mono : forall s s' l am, sle s s' -> R s l am -> R s' l am.
Proof. intros s s' l am L H. induction H as [|js a l am Hs _ IH]; constructor; [exact (slot_mono _ _ L _ _ Hs) | exact IH]. Qed.

Lemma slot_new : forall s k v key s', wf s -> kok k -> K t k s = (Some key, s') -> slot_rel s' (key, (k, v)) (k, v).
Proof.
  intros s k v key s' W Kk HK.
  exact (conj eq_refl (conj Kk (ex_intro _ s (ex_intro _ s' (conj W (conj HK (sle_refl s'))))))).
Qed.

Lemma R_contents : forall s l am, R s l am -> map snd l = am.
Proof. intros s l am H. induction H as [|js a l am (E & _) _ IH]; [reflexivity|]. cbn [map]. now rewrite E, IH. Qed.

(* a stored JS key against the key of k computed now: SameValueZero is Go's == *)
Lemma slot_eqb : forall s jk e k0 v0 k key s', wf s -> slot_rel s (jk, e) (k0, v0) -> kok k -> K t k s = (Some key, s') ->
  e = (k0, v0) /\ jskey_eqb jk key = go_eq t k0 k.
Proof.
  intros s jk e k0 v0 k key s' W (E & (Wa & Ia) & sa & sb & Wsa & HK & L) (Wk & Ik) HK2.
  split; [exact E|]. apply eq_true_iff_eq.
  exact (key_iff_eq nts by_id nts_inj nts_nonzero nts_not_nan nts_plain t k0 k D sa jk sb s key s'
                    D_ok Ia Ik Wa Wk Wsa HK L W HK2).
Qed.

(* by induction over the slots: an emptied slot is in neither list *)
Lemma R_get : forall s jm am k key s', wf s -> R s (m_live jm) am -> kok k -> K t k s = (Some key, s') ->
  option_map snd (m_get jskey_eqb jm key) = a_find am k.
Proof.
  intros s jm am k key s' W H Kk HK. revert am H.
  induction jm as [|[[jk e]|] jm IH]; intros am H; cbn [m_live m_get] in *; [inversion H; reflexivity | | exact (IH am H)].
  inversion H as [|? [k0 v0] ? am' Hs Hr]; subst. cbn [a_find].
  destruct (slot_eqb _ _ _ _ _ _ _ _ W Hs Kk HK) as [-> ->].
  destruct (go_eq t k0 k); [reflexivity | exact (IH am' Hr)].
Qed.

Lemma R_set : forall s jm am k v key s', wf s -> R s (m_live jm) am -> kok k -> K t k s = (Some key, s') ->
  R s' (m_live (m_set jskey_eqb jm key (k, v))) (a_set am k v).
Proof.
  intros s jm am k v key s' W H Kk HK. revert am H.
  destruct (K_mono nts by_id t k _ _ _ W HK) as [_ L].
  induction jm as [|[[jk e]|] jm IH]; intros am H; cbn [m_live m_set] in *; [| | exact (IH am H)].
  - inversion H; subst. constructor; [exact (slot_new _ _ v _ _ W Kk HK) | constructor].
  - inversion H as [|? [k0 v0] ? am' Hs Hr]; subst. cbn [a_set].
    destruct (slot_eqb _ _ _ _ _ _ _ _ W Hs Kk HK) as [_ E]. rewrite E.
    destruct (go_eq t k0 k); cbn [m_live].
    + apply jskey_eqb_spec in E. subst jk.
      constructor; [exact (slot_new _ _ v _ _ W Kk HK) | exact (R_mono _ _ _ _ L Hr)].
    + constructor; [exact (slot_mono _ _ L _ _ Hs) | exact (IH am' Hr)].
Qed.

Lemma R_del : forall s jm am k key s', wf s -> R s (m_live jm) am -> kok k -> K t k s = (Some key, s') ->
  R s' (m_live (m_delete jskey_eqb jm key)) (a_del am k).
Proof.
  intros s jm am k key s' W H Kk HK. revert am H.
  destruct (K_mono nts by_id t k _ _ _ W HK) as [_ L].
  induction jm as [|[[jk e]|] jm IH]; intros am H; cbn [m_live m_delete] in *; [inversion H; constructor | | exact (IH am H)].
  inversion H as [|? [k0 v0] ? am' Hs Hr]; subst. cbn [a_del].
  destruct (slot_eqb _ _ _ _ _ _ _ _ W Hs Kk HK) as [_ ->].
  destruct (go_eq t k0 k); cbn [m_live]; [exact (R_mono _ _ _ _ L Hr) | constructor; [exact (slot_mono _ _ L _ _ Hs) | exact (IH am' Hr)]].
Qed.

Definition Rm (s : st) (m : gomap) (am : option amap) : Prop :=
  match m, am with
  | None, None => True
  | Some jm, Some a => R s (m_live jm) a
  | _, _ => False
  end.

Lemma Rm_mono : forall s s' m am, sle s s' -> Rm s m am -> Rm s' m am.
Proof. intros s s' [jm|] [a|] L H; cbn in *; auto. eapply R_mono; eauto. Qed.

Lemma Rm_contents : forall s m am, Rm s m am -> map snd (live_of m) = contents am.
Proof. intros s [jm|] [a|] H; cbn in *; try contradiction; auto. eapply R_contents; eauto. Qed.

Lemma key_cases : forall k s, kok k -> wf s ->
  exists r s', K t k s = (r, s') /\ wf s' /\ sle s s' /\
               hashable t k = match r with Some _ => true | None => false end.
Proof.
  intros k s (Wk & Ik) W. destruct (K t k s) as [r s'] eqn:E. exists r, s'.
  destruct (K_mono nts by_id t k _ _ _ W E) as [W' L].
  pose proof (key_defined nts by_id k t s Wk t_comparable) as Hh. rewrite E in Hh. now rewrite <- Hh.
Qed.

Definition step_ok (s : st) (r : obs * gomap * st) (ar : obs * option amap) : Prop :=
  let '(ob, m', s') := r in wf s' /\ sle s s' /\ fst ar = ob /\ Rm s' m' (snd ar).

Lemma step_ok_keep : forall s s1 m am ob, wf s1 -> sle s s1 -> Rm s m am -> step_ok s (ob, m, s1) (ob, am).
Proof. intros s s1 m am ob W1 L1 HR. exact (conj W1 (conj L1 (conj eq_refl (Rm_mono _ _ _ _ L1 HR)))). Qed.

Lemma step_ok_later : forall s s1 r ar, sle s s1 -> step_ok s1 r ar -> step_ok s r ar.
Proof. intros s s1 [[ob m'] s'] ar L (W' & L' & E & HR). exact (conj W' (conj (sle_trans _ _ _ L L') (conj E HR))). Qed.

(* an operation that starts by computing the key of k and goes on with it (f, against g on the Go side) *)
Lemma keyed_ok : forall k s m am (f : jskey -> st -> obs * gomap * st) (g : obs * option amap),
  kok k -> wf s -> Rm s m am ->
  (forall key s1, K t k s = (Some key, s1) -> wf s1 -> sle s s1 -> step_ok s (f key s1) g) ->
  step_ok s (match K t k s with (Some key, s1) => f key s1 | (None, s1) => (RNoKeyFor, m, s1) end)
            (if hashable t k then g else (RNoKeyFor, am)).
Proof.
  intros k s m am f g Kk W HR Hf. destruct (key_cases k s Kk W) as (r & s1 & E & W1 & L1 & Hh). rewrite E, Hh.
  destruct r as [key|]; [exact (Hf key s1 E W1 L1) | exact (step_ok_keep _ _ _ _ _ W1 L1 HR)].
Qed.

(* $makeMap from jm on, as one step: it throws at the first unhashable key *)
Lemma make_map_refines : forall kvs jm a s m am,
  wf s -> Rm s m am -> R s (m_live jm) a -> Forall (fun kv => kok (fst kv)) kvs ->
  step_ok s (match make_map nts by_id t kvs jm s with
             | (Some jm', s') => (RUnit, Some jm', s')
             | (None, s') => (RNoKeyFor, m, s')
             end)
            (if forallb (fun kv => hashable t (fst kv)) kvs
             then (RUnit, Some (fold_left (fun a kv => a_set a (fst kv) (snd kv)) kvs a))
             else (RNoKeyFor, am)).
Proof.
  induction kvs as [|[k v] kvs IH]; intros jm a s m am W HRm HR HF.
  - exact (conj W (conj (sle_refl s) (conj eq_refl HR))).
  - inversion HF as [|? ? Kk HF']; subst. cbn [fst] in Kk. cbn [make_map forallb fold_left fst snd]. unfold kf.
    destruct (key_cases k s Kk W) as (r & s1 & E & W1 & L1 & Hh). rewrite E, Hh.
    destruct r as [key|]; [|exact (step_ok_keep _ _ _ _ _ W1 L1 HRm)].
    apply (step_ok_later _ _ _ _ L1), IH; [exact W1 | exact (Rm_mono _ _ _ _ L1 HRm) | | exact HF'].
    exact (R_set s jm a k v key s1 W HR Kk E).
Qed.

Lemma step_refines : forall o m am s,
  wf s -> Rm s m am -> op_ok o -> step_ok s (step nts by_id t o m s) (a_step o am).
Proof.
  intros o m am s W HR Hok. destruct o as [k v|k|k|k| |kvs| ]; cbn [step a_step op_ok] in *; unfold kf.
  (* get and comma-ok differ in the observation only *)
  2,3: apply keyed_ok; [exact Hok | exact W | exact HR |]; intros key s1 E W1 L1.
  2,3: destruct m as [jm|], am as [a|]; try contradiction; [|exact (step_ok_keep _ _ _ _ _ W1 L1 HR)].
  2,3: rewrite <- (R_get _ _ _ _ _ _ W HR Hok E).
  2,3: destruct (m_get jskey_eqb jm key) as [[k0 v0]|]; exact (step_ok_keep _ _ _ _ _ W1 L1 HR).
  - (* set: the nil map panics before the key is computed *)
    destruct m as [jm|], am as [a|]; try contradiction; [|exact (step_ok_keep _ _ _ _ _ W (sle_refl s) HR)].
    apply keyed_ok; [exact Hok | exact W | exact HR |]. intros key s1 E W1 L1.
    exact (conj W1 (conj L1 (conj eq_refl (R_set s jm a k v key s1 W HR Hok E)))).
  - (* delete *)
    apply keyed_ok; [exact Hok | exact W | exact HR |]. intros key s1 E W1 L1.
    destruct m as [jm|], am as [a|]; try contradiction; [|exact (step_ok_keep _ _ _ _ _ W1 L1 HR)].
    exact (conj W1 (conj L1 (conj eq_refl (R_del s jm a k key s1 W HR Hok E)))).
  - (* len *)
    refine (conj W (conj (sle_refl s) (conj _ HR))).
    destruct m as [jm|], am as [a|]; try contradiction; [|reflexivity].
    cbn [fst]. now rewrite live_size, (Forall2_length _ _ _ HR).
  - (* literal *)
    exact (make_map_refines kvs [] [] s m am W HR (Forall2_nil _) Hok).
  - (* m = nil *)
    exact (conj W (conj (sle_refl s) (conj eq_refl I))).
Qed.

(* what a history shows of the JS representation: the observation and the (k, v) pairs held, in order *)
Definition js_view (sn : snapshot) : obs * amap := (fst (fst sn), map snd (snd (fst sn))).

Theorem map_refines : forall ops m am s,
  wf s -> Rm s m am -> Forall op_ok ops ->
  map js_view (run nts by_id t ops m s) = a_run ops am.
Proof.
  induction ops as [|o ops IH]; intros m am s W HR HF; [reflexivity|].
  inversion HF as [|? ? Ho HF']; subst. cbn [run a_run].
  pose proof (step_refines o m am s W HR Ho) as H.
  destruct (step nts by_id t o m s) as [[ob m'] s']. destruct (a_step o am) as [ob' am'].
  destruct H as (W' & L & <- & HR'). cbn [map]. f_equal.
  - unfold js_view. cbn [fst snd]. f_equal. exact (Rm_contents _ _ _ HR').
  - now apply IH.
Qed.

Theorem nil_map : forall k v s, wt t k = true -> hashable t k = true ->
  fst (fst (step nts by_id t (OGet k) None s)) = RVal 0 /\
  fst (fst (step nts by_id t (OGet2 k) None s)) = RVal2 0 false /\
  fst (fst (step nts by_id t (ODel k) None s)) = RUnit /\ snd (fst (step nts by_id t (ODel k) None s)) = None /\
  fst (fst (step nts by_id t OLen None s)) = RLen 0 /\
  fst (fst (step nts by_id t (OSet k v) None s)) = RNilMapPanic /\ snd (fst (step nts by_id t (OSet k v) None s)) = None.
Proof.
  intros k v s Wk Hh. destruct (hashable_has_key nts by_id k t s Wk t_comparable Hh) as (key & s1 & E).
  cbn [step]. unfold kf. rewrite E. cbn. repeat split; reflexivity.
Qed.

End Refines.
