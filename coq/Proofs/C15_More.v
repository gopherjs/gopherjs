(* C15 — with $ifaceKeyFor printing the type id, key_iff_eq needs no assumption on type strings
   (univ_ok_by_id); printing the type string it fails on two distinct types of one name, by a
   computed witness; for a comparable static key type, keyFor yields a key exactly when Go can hash
   the value (key_defined). *)
From Coq Require Import List ZArith NArith Bool Lia String.
From Verif Require Import Model.C15_Keys Proofs.C15_Escape Proofs.C15_Keys.
Import ListNotations.
Local Open Scope N_scope.

Lemma univ_ok_by_id : forall D,
  (forall d d', In d D -> In d' D -> d_id d = d_id d' -> d = d') -> univ_ok true D.
Proof.
  intros D H. split; [exact H|]. split.
  - intros d d' _ _ E. unfold iface_prefix in E. apply dec_inj in E. now apply N2Z.inj in E.
  - intros d _. unfold iface_prefix. apply dec_plain.
Qed.

(* with the code as found: the type strings must identify the types and contain no "$", "\" *)
Lemma univ_ok_by_string : forall D,
  (forall d d', In d D -> In d' D -> d_id d = d_id d' -> d = d') ->
  (forall d d', In d D -> In d' D -> d_str d = d_str d' -> d_id d = d_id d') ->
  (forall d, In d D -> plain (d_str d)) -> univ_ok false D.
Proof. intros D H1 H2 H3. split; [exact H1|]. split; [exact H2 | exact H3]. Qed.

Definition st0 : st := {| ctr := 0; ids := [] |}.

Definition keys_agree_with_go (nts : Z -> str) (by_id : bool) (t : kty) (a b : val) : Prop :=
  forall ka s1 kb s3,
    key_for nts by_id t a st0 = (Some ka, s1) -> key_for nts by_id t b s1 = (Some kb, s3) ->
    (jskey_eqb ka kb = true <-> go_eq t a b = true).

Definition nts_dummy : Z -> str := fun _ => [49%N].

(* two DISTINCT types with the same string, e.g. type T int declared in two functions *)
Definition T_in_f : dyn := {| d_id := 101; d_str := of_string "main.T"; d_shape := TInt |}.
Definition T_in_g : dyn := {| d_id := 102; d_str := of_string "main.T"; d_shape := TInt |}.

Lemma iface_key_refuted_by_string :
  wt TIface (VDyn T_in_f (VInt 1)) = true /\ wt TIface (VDyn T_in_g (VInt 1)) = true /\
  hashable TIface (VDyn T_in_f (VInt 1)) = true /\ hashable TIface (VDyn T_in_g (VInt 1)) = true /\
  ~ keys_agree_with_go nts_dummy false TIface (VDyn T_in_f (VInt 1)) (VDyn T_in_g (VInt 1)).
Proof.
  repeat split; try reflexivity.
  (* both keys are "main.T$1", and the two values differ *)
  intros H. destruct (H _ _ _ _ eq_refl eq_refl) as [A _]. discriminate (A eq_refl).
Qed.

Lemma iface_key_witness_ok_by_id :
  keys_agree_with_go nts_dummy true TIface (VDyn T_in_f (VInt 1)) (VDyn T_in_g (VInt 1)).
Proof.
  intros ka s1 kb s3 H1 H2. vm_compute in H1. injection H1 as <- <-. vm_compute in H2. injection H2 as <- <-.
  vm_compute. split; discriminate.
Qed.

(* a dynamic type that is uncomparable only through a blank field: $ifaceKeyFor throws (0da9cd0) *)
Definition blank_slice : dyn :=
  {| d_id := 7; d_str := of_string "struct { a int; _ []int }"; d_shape := TStruct [(false, TInt); (true, TNoKey)] |}.

Section Unhashable.
Variable nts : Z -> str.
Variable by_id : bool.
Notation K := (key_for nts by_id).

Definition has_key {X} (r : option X * st) : bool := match fst r with Some _ => true | None => false end.

Definition defined_at (x : val) : Prop :=
  forall t s, wt t x = true -> comparable t = true -> has_key (K t x s) = hashable t x.

Lemma defined_fields : forall l, Forall defined_at l ->
  forall fs s, wt (TStruct fs) (VStruct l) = true -> comparable (TStruct fs) = true ->
    has_key (keys_struct (fun ft x s => K ft x s) (fun k => escape (key_str k)) fs l s) = hashable (TStruct fs) (VStruct l).
Proof.
  intros l H. induction H as [|x l Hx _ IH]; intros fs s W Ct; cbn [wt hashable comparable] in *.
  - now destruct fs as [|[[|] ?] ?].
  - destruct fs as [|[bl ft] fs]; [discriminate W|].
    apply andb_true_iff in W as [Wx W]. apply andb_true_iff in Ct as [Cf Ct].
    cbn [keys_struct fieldsnb]. destruct bl; [exact (IH fs s W Ct)|].
    rewrite <- (Hx ft s Wx Cf). destruct (K ft x s) as [[k|] s1]; [|reflexivity].
    rewrite <- (IH fs s1 W Ct). now destruct (keys_struct _ _ fs l s1) as [[?|] ?].
Qed.

Lemma defined_struct : forall l, Forall defined_at l -> defined_at (VStruct l).
Proof.
  intros l H t s W Ct. destruct t; try discriminate W.
  rewrite K_struct, <- (defined_fields l H fs s W Ct). now destruct (keys_struct _ _ fs l s) as [[?|] ?].
Qed.

Lemma defined_arr : forall l, defined_at (VStruct l) -> defined_at (VArr l).
Proof.
  intros l HS t s W Ct. destruct t; try discriminate W.
  rewrite wt_arr in W. apply andb_true_iff in W as [_ W]. cbn [comparable] in Ct.
  rewrite K_arr_struct, Ct, hashable_arr. exact (HS _ s W (comparable_arr_fields t l Ct)).
Qed.

Theorem key_defined : forall x, defined_at x.
Proof.
  induction x as [b|z|w|f|hi lo|r i|r| |d x IHx|l IHl|l IHl| ] using val_ind'.
  10: (* array *) exact (defined_arr l (defined_struct l IHl)).
  10: (* struct *) exact (defined_struct l IHl).
  all: intros t u W C; destruct t; try discriminate W; try discriminate C; try reflexivity.
  - rewrite K_float. now destruct (float_key nts f u).
  - rewrite K_complex. destruct (float_key nts r u) as [? s1]. now destruct (float_key nts i s1).
  - rewrite K_ref. now destruct (id_key r u).
  - (* dyn *)
    rewrite K_dyn. cbn [hashable]. destruct (comparable (d_shape d)) eqn:C'; [|reflexivity].
    rewrite <- (IHx _ u W C'). now destruct (K (d_shape d) x u) as [[k|] s1].
Qed.

(* every map operation computes the key first, or checks the nil map first and throws there *)
Theorem unhashable_throws : forall x t s,
  wt t x = true -> comparable t = true -> hashable t x = false -> fst (K t x s) = None.
Proof.
  intros x t s W C Hh. pose proof (key_defined x t s W C) as E. rewrite Hh in E. unfold has_key in E.
  now destruct (fst (K t x s)).
Qed.

Theorem hashable_has_key : forall x ty s,
  wt ty x = true -> comparable ty = true -> hashable ty x = true -> exists k s', K ty x s = (Some k, s').
Proof.
  intros x ty s W C Hh. pose proof (key_defined x ty s W C) as E. rewrite Hh in E. unfold has_key in E.
  destruct (K ty x s) as [[k|] s']; [eauto | discriminate E].
Qed.
End Unhashable.
