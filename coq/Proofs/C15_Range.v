(* C15 — the emitted range-over-map loop, for EVERY loop body (any function from the loop's own
   state and the entry handed to it to a list of Map mutations):
     - every entry handed to the body is in the map at that moment, with its current value
       (so an entry deleted before the iterator reaches it is never visited);
     - the map after the loop is the initial map with exactly the body's mutations applied;
     - the loop makes at most [size at loop start] visits.
   That an entry present from loop start to loop end is visited exactly once is C15_RangeOnce. *)
From Coq Require Import List Bool Lia.
From Verif Require Import Model.C15_Keys Model.C15_JsMap.
Import ListNotations.

Section Range.
Variables K E S : Type.
Variable keq : K -> K -> bool.
Variable body : S -> K -> E -> S * list (mop K E).

(* the trace makes sense from map m: every visit finds its entry, mutations are applied in order *)
Fixpoint trace_ok (m : jsmap K E) (ev : list (event K E)) : Prop :=
  match ev with
  | [] => True
  | EVisit k e :: r => m_get keq m k = Some e /\ trace_ok m r
  | EMut o :: r => trace_ok (apply_mop keq m o) r
  end.

Fixpoint replay (m : jsmap K E) (ev : list (event K E)) : jsmap K E :=
  match ev with
  | [] => m
  | EVisit _ _ :: r => replay m r
  | EMut o :: r => replay (apply_mop keq m o) r
  end.

Definition visits (ev : list (event K E)) : nat :=
  List.length (filter (fun e => match e with EVisit _ _ => true | _ => false end) ev).

Lemma trace_ok_muts : forall ops m ev,
  trace_ok m (map EMut ops ++ ev) <-> trace_ok (fold_left (apply_mop keq) ops m) ev.
Proof. induction ops as [|o ops IH]; intros m ev; cbn; [tauto | apply IH]. Qed.

Lemma replay_muts : forall ops m ev,
  replay m (map EMut ops ++ ev) = replay (fold_left (apply_mop keq) ops m) ev.
Proof. induction ops as [|o ops IH]; intros m ev; cbn; [reflexivity | apply IH]. Qed.

Lemma visits_muts : forall ops ev, visits (map (@EMut K E) ops ++ ev) = visits ev.
Proof. induction ops as [|o ops IH]; intros ev; cbn; [reflexivity | apply IH]. Qed.

Theorem range_loop_law : forall fuel m pos s ev m' s',
  range_loop keq body fuel m pos s = (ev, m', s') ->
  trace_ok m ev /\ m' = replay m ev /\ visits ev <= fuel.
Proof.
  induction fuel as [|f IH]; intros m pos s ev m' s' H; cbn [range_loop] in H.
  - injection H as <- <- <-. cbn. repeat split; lia.
  - destruct (it_next m pos) as [[k pos']|].
    + destruct (m_get keq m k) as [e|] eqn:G.
      * destruct (body s k e) as [s1 ops].
        destruct (range_loop keq body f (fold_left (apply_mop keq) ops m) pos' s1) as [[ev1 m1] s2] eqn:R.
        injection H as <- <- <-.
        destruct (IH _ _ _ _ _ _ R) as (A & B & C).
        cbn [trace_ok replay]. split; [|split].
        -- split; [exact G|]. now apply trace_ok_muts.
        -- now rewrite replay_muts.
        -- unfold visits in *. cbn [filter List.length]. fold (visits (map EMut ops ++ ev1)).
           rewrite visits_muts. unfold visits. lia.
      * destruct (IH _ _ _ _ _ _ H) as (A & B & C). repeat split; auto.
    + destruct (IH _ _ _ _ _ _ H) as (A & B & C). repeat split; auto.
Qed.

Theorem range_over_law : forall m s ev m' s',
  range_over keq body m s = (ev, m', s') ->
  trace_ok m ev /\ m' = replay m ev /\ visits ev <= m_size m.
Proof. intros m s ev m' s' H. exact (range_loop_law _ _ _ _ _ _ _ H). Qed.

(* a key that is not in the map is not handed to the body: deleted-before-reached, never visited *)
Corollary not_in_map_not_visited : forall m k e r,
  trace_ok m (EVisit k e :: r) -> m_get keq m k <> None.
Proof. intros m k e r [H _]. congruence. Qed.
End Range.
