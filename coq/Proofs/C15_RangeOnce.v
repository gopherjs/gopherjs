(* C15 — the emitted range-over-map loop visits an entry that is present from loop start to loop end
   EXACTLY ONCE, for every loop body (any interleaving of Map mutations by the body).
   Slots are identified by their index in the Map's entry list; the budget _size - _i bounds the length of a
   list that holds every live slot from the iterator's position up to the entry's slot (new slots are
   appended behind it, slots before it only die, a visited slot leaves the list). *)
From Coq Require Import List Bool Arith Lia.
From Verif Require Import Base.Lists Model.C15_Keys Model.C15_JsMap.
Import ListNotations.

Section Once.
Variables K E St : Type.
Variable keq : K -> K -> bool.
Hypothesis keq_spec : forall a b, keq a b = true <-> a = b.
Variable body : St -> K -> E -> St * list (mop K E).

Lemma keq_refl : forall a, keq a a = true.
Proof. intros a. now apply keq_spec. Qed.
Lemma keq_sym : forall a b, keq a b = keq b a.
Proof. intros a b. apply eq_true_iff_eq. rewrite !keq_spec. split; congruence. Qed.

Definition key_at (m : jsmap K E) (i : nat) : option K :=
  match nth_error m i with Some (Some (k, _)) => Some k | _ => None end.

Lemma key_at_nil : forall i, key_at [] i = None.
Proof. intros [|i]; reflexivity. Qed.
Lemma key_at_0 : forall slot r, key_at (slot :: r) 0 = match slot with Some (k, _) => Some k | None => None end.
Proof. intros [[k e]|] r; reflexivity. Qed.
Lemma key_at_S : forall slot r i, key_at (slot :: r) (S i) = key_at r i.
Proof. reflexivity. Qed.
Lemma key_at_lt : forall m i k, key_at m i = Some k -> i < List.length m.
Proof.
  intros m i k H. unfold key_at in H. destruct (nth_error m i) eqn:E1; [|discriminate].
  apply nth_error_Some. congruence.
Qed.

Lemma it_next_spec : forall m pos,
  match it_next m pos with
  | Some (k, p') => exists p, p' = S p /\ pos <= p /\ key_at m p = Some k /\ forall i, pos <= i < p -> key_at m i = None
  | None => forall i, pos <= i -> key_at m i = None
  end.
Proof.
  induction m as [|slot r IH]; intros pos; [intros i _; apply key_at_nil|].
  cbn [it_next]. destruct pos as [|q].
  - destruct slot as [[k0 e0]|]; [exists 0; repeat split; auto; intros i Hi; lia|].
    specialize (IH 0). destruct (it_next r 0) as [[k1 p1]|].
    + destruct IH as (p & -> & Hp & Hk & Hd). exists (S p). repeat split; auto; try lia.
      intros [|j] Hj; [reflexivity | apply Hd; lia].
    + intros [|j] Hj; [reflexivity | apply IH; lia].
  - specialize (IH q). destruct (it_next r q) as [[k1 p1]|].
    + destruct IH as (p & -> & Hp & Hk & Hd). exists (S p). repeat split; auto; try lia.
      intros [|j] Hj; [lia | apply Hd; lia].
    + intros [|j] Hj; [lia | apply IH; lia].
Qed.

Lemma live_slots : forall m : jsmap K E, exists L, List.length L = m_size m /\ forall i, key_at m i <> None -> In i L.
Proof.
  induction m as [|slot r (L & HL & Hin)]; [exists []; split; [reflexivity | intros i; now rewrite key_at_nil]|].
  exists ((if slot then [0] else []) ++ map S L). split.
  - rewrite app_length, map_length, HL. now destruct slot as [[k e]|].
  - intros [|i] H; apply in_or_app; [left | right; apply in_map, Hin, H].
    rewrite key_at_0 in H. destruct slot as [[k e]|]; [now left | now destruct H].
Qed.

Lemma del_slot : forall (m : jsmap K E) k' i,
  key_at (m_delete keq m k') i = key_at m i \/
  (exists k, key_at m i = Some k /\ keq k k' = true /\ key_at (m_delete keq m k') i = None).
Proof.
  induction m as [|[[k0 e0]|] r IH]; intros k' i; cbn [m_delete]; [now left| |].
  - destruct (keq k0 k') eqn:E1.
    + destruct i as [|i]; [right; exists k0; now rewrite !key_at_0 | now left].
    + destruct i as [|i]; [now left | rewrite !key_at_S; apply IH].
  - destruct i as [|i]; [now left | rewrite !key_at_S; apply IH].
Qed.

Lemma set_slot : forall (m : jsmap K E) k' e i,
  key_at (m_set keq m k' e) i = key_at m i \/
  (i = List.length m /\ key_at (m_set keq m k' e) i = Some k' /\ forall j, key_at m j <> Some k').
Proof.
  induction m as [|[[k0 e0]|] r IH]; intros k' e i; cbn [m_set].
  - destruct i as [|i]; [right | left; now rewrite key_at_S, !key_at_nil].
    split; [reflexivity|]. split; [reflexivity|]. intros j. now rewrite key_at_nil.
  - destruct (keq k0 k') eqn:E1; [left; now destruct i|].
    destruct i as [|i]; [now left|]. rewrite !key_at_S.
    destruct (IH k' e i) as [H|(Hl & Hk & Hn)]; [now left | right].
    split; [now rewrite Hl|]. split; [exact Hk|]. intros [|j]; [|rewrite key_at_S; apply Hn].
    rewrite key_at_0. intros X. injection X as ->. rewrite keq_refl in E1. discriminate.
  - destruct i as [|i]; [now left|]. rewrite !key_at_S.
    destruct (IH k' e i) as [H|(Hl & Hk & Hn)]; [now left | right].
    split; [now rewrite Hl|]. split; [exact Hk|].
    intros [|j]; [rewrite key_at_0; discriminate | rewrite key_at_S; apply Hn].
Qed.

Lemma del_len : forall (m : jsmap K E) k', List.length (m_delete keq m k') = List.length m.
Proof. induction m as [|[[k0 e0]|] r IH]; intros k'; cbn; auto. destruct (keq k0 k'); cbn; auto. Qed.

Lemma set_len : forall (m : jsmap K E) k' e, List.length m <= List.length (m_set keq m k' e) <= S (List.length m).
Proof.
  induction m as [|[[k0 e0]|] r IH]; intros k' e; cbn [m_set]; [cbn; lia| |].
  - destruct (keq k0 k'); cbn [List.length]; [lia|]. specialize (IH k' e). lia.
  - cbn [List.length]. specialize (IH k' e). lia.
Qed.

Lemma apply_keeps : forall (m : jsmap K E) o i k, key_at m i = Some k ->
  (forall k', o = MDel k' -> keq k k' = false) -> key_at (apply_mop keq m o) i = Some k.
Proof.
  intros m [k' e|k'] i k H Hd; cbn [apply_mop].
  - destruct (set_slot m k' e i) as [->|(-> & _)]; [exact H | apply key_at_lt in H; lia].
  - destruct (del_slot m k' i) as [->|(k0 & Hk & Hq & _)]; [exact H|]. specialize (Hd k' eq_refl). congruence.
Qed.

Lemma apply_live : forall (m : jsmap K E) o i k, key_at (apply_mop keq m o) i = Some k ->
  key_at m i = Some k \/ (i = List.length m /\ forall j, key_at m j <> Some k).
Proof.
  intros m [k' e|k'] i k H; cbn [apply_mop] in H.
  - destruct (set_slot m k' e i) as [<-|(Hl & Hk & Hn)]; [now left | right].
    rewrite Hk in H. injection H as <-. now split.
  - left. destruct (del_slot m k' i) as [<-|(k0 & _ & _ & E1)]; [exact H | congruence].
Qed.

Definition nodup (m : jsmap K E) : Prop :=
  forall i j k, key_at m i = Some k -> key_at m j = Some k -> i = j.

Lemma nodup_nil : nodup [].
Proof. intros i j k H. rewrite key_at_nil in H. discriminate. Qed.

Lemma nodup_apply : forall (m : jsmap K E) o, nodup m -> nodup (apply_mop keq m o).
Proof.
  intros m o N i j k Hi Hj.
  destruct (apply_live m o i k Hi) as [Hi'|[-> Hn]], (apply_live m o j k Hj) as [Hj'|[-> Hn']].
  - exact (N i j k Hi' Hj').
  - destruct (Hn' i Hi').
  - destruct (Hn j Hj').
  - reflexivity.
Qed.

Lemma nodup_fold : forall ops (m : jsmap K E), nodup m -> nodup (fold_left (apply_mop keq) ops m).
Proof. intro ops. apply fold_left_inv. intros m o. apply nodup_apply. Qed.

Lemma get_live : forall (m : jsmap K E) k, m_get keq m k <> None <-> exists i, key_at m i = Some k.
Proof.
  induction m as [|[[k0 e0]|] r IH]; intros k; cbn [m_get].
  - split; [congruence | intros [i H]; now rewrite key_at_nil in H].
  - destruct (keq k0 k) eqn:E1.
    + apply keq_spec in E1. subst k0. split; [exists 0; reflexivity | discriminate].
    + rewrite IH. split; intros [i H]; [exists (S i); exact H|]. destruct i as [|j]; [|exists j; exact H].
      rewrite key_at_0 in H. injection H as ->. rewrite keq_refl in E1. discriminate.
  - rewrite IH. split; intros [i H]; [exists (S i); exact H|]. destruct i as [|j]; [discriminate H | exists j; exact H].
Qed.

Variable k : K.

Definition count_k (ev : list (event K E)) : nat :=
  List.length (filter (fun e => match e with EVisit k1 _ => keq k1 k | _ => false end) ev).

Lemma count_muts : forall ops ev, count_k (map (@EMut K E) ops ++ ev) = count_k ev.
Proof. induction ops as [|o ops IH]; intros ev; cbn; [reflexivity | apply IH]. Qed.

Lemma count_visit : forall k1 e ev, count_k (EVisit k1 e :: ev) = (if keq k1 k then 1 else 0) + count_k ev.
Proof. intros k1 e ev. unfold count_k. cbn [filter]. now destruct (keq k1 k). Qed.

(* what one run of the body (never deleting k) keeps: k's slot and distinct keys; and no slot up to k's
   comes back to life (a new slot is appended behind all others, so behind k's) *)
Lemma body_keeps : forall i0 ops (m : jsmap K E),
  key_at m i0 = Some k -> nodup m ->
  (forall k', In (MDel k') ops -> keq k' k = false) ->
  let mm := fold_left (apply_mop keq) ops m in
  key_at mm i0 = Some k /\ nodup mm /\ forall i, i <= i0 -> key_at mm i <> None -> key_at m i <> None.
Proof.
  intros i0. induction ops as [|o ops IH]; intros m Hk N Hd; cbn [fold_left].
  - split; [exact Hk|]. split; [exact N|]. auto.
  - assert (Hk1 : key_at (apply_mop keq m o) i0 = Some k).
    { apply apply_keeps; [exact Hk|]. intros k' ->. rewrite keq_sym. apply Hd. now left. }
    destruct (IH _ Hk1 (nodup_apply m o N) (fun k' H => Hd k' (or_intror H))) as (A & B & C).
    split; [exact A|]. split; [exact B|]. intros i Hi Hl. apply C in Hl; [|exact Hi].
    destruct (key_at (apply_mop keq m o) i) as [kk|] eqn:Hkk; [|now destruct Hl]. apply key_at_lt in Hk.
    destruct (apply_live m o i kk Hkk) as [E1|[-> _]]; [|lia]. rewrite E1. discriminate.
Qed.

(* The budget covers the live slots from pos up to k's slot i0 (L holds them: they are visited before it, and
   new slots come behind it); then slot i0 is visited once if the iterator has not passed it, and never otherwise. *)
Lemma once_loop : forall i0 fuel m pos s ev m' s',
  range_loop keq body fuel m pos s = (ev, m', s') ->
  key_at m i0 = Some k -> nodup m ->
  (exists L, List.length L <= fuel /\ forall i, pos <= i <= i0 -> key_at m i <> None -> In i L) ->
  (forall k', In (EMut (MDel k')) ev -> keq k' k = false) ->
  count_k ev = if pos <=? i0 then 1 else 0.
Proof.
  intros i0. induction fuel as [|f IH]; intros m pos s ev m' s' H Hk N (L & HL & Hc) Hd; cbn [range_loop] in H.
  - injection H as <- <- <-. destruct (Nat.leb_spec pos i0) as [Hp|]; [|reflexivity].
    destruct L; [|cbn in HL; lia]. destruct (Hc i0 ltac:(lia)). congruence.
  - pose proof (it_next_spec m pos) as Hnext. destruct (it_next m pos) as [[k1 p']|].
    + destruct Hnext as (p & -> & Hp & Hk1 & Hdead).
      destruct (m_get keq m k1) as [e1|] eqn:G; [|destruct (proj2 (get_live m k1) (ex_intro _ p Hk1) G)].
      destruct (body s k1 e1) as [s1 ops] eqn:Eb.
      destruct (range_loop keq body f (fold_left (apply_mop keq) ops m) (S p) s1) as [[ev1 m1] s2] eqn:R.
      injection H as <- <- <-.
      assert (Hd_ops : forall k', In (MDel k') ops -> keq k' k = false).
      { intros k' Hin. apply Hd. right. apply in_or_app. left. now apply in_map. }
      assert (Hd1 : forall k', In (EMut (MDel k')) ev1 -> keq k' k = false).
      { intros k' Hin. apply Hd. right. apply in_or_app. now right. }
      destruct (body_keeps i0 ops m Hk N Hd_ops) as (Hk' & N' & Hle).
      set (mm := fold_left (apply_mop keq) ops m) in *.
      (* slot p has been visited: it leaves the list *)
      assert (Hc' : exists L', List.length L' <= f /\ forall i, S p <= i <= i0 -> key_at mm i <> None -> In i L').
      { destruct (Nat.le_gt_cases p i0) as [Hp0|Hp0]; [exists (remove Nat.eq_dec p L) | exists []]; split.
        - pose proof (remove_length_lt Nat.eq_dec L p (Hc p ltac:(lia) ltac:(congruence))). lia.
        - intros i Hi Hl. apply in_in_remove; [lia|]. apply Hc; [lia|]. apply Hle; [lia | exact Hl].
        - apply Nat.le_0_l.
        - (* the iterator is past slot i0 *) intros i Hi. lia. }
      rewrite count_visit, count_muts, (IH mm (S p) s1 ev1 m1 s2 R Hk' N' Hc' Hd1).
      destruct (keq k1 k) eqn:Ek.
      * (* the visit of k: p is its slot *)
        apply keq_spec in Ek. subst k1. assert (p = i0) by (eapply N; eauto). subst p.
        destruct (Nat.leb_spec pos i0); [|lia]. destruct (Nat.leb_spec (S i0) i0); [lia | reflexivity].
      * (* another key: were the iterator now past i0, slot i0 would be among the dead ones it skipped *)
        assert (p <> i0) by (intros ->; rewrite Hk in Hk1; injection Hk1 as ->; rewrite keq_refl in Ek; discriminate).
        destruct (Nat.leb_spec pos i0); destruct (Nat.leb_spec (S p) i0); try lia.
        exfalso. assert (Hx : key_at m i0 = None) by (apply Hdead; lia). congruence.
    + (* no live slot from pos on *) eapply IH; eauto. exists []. split; [cbn; lia|]. intros i Hi Hl. destruct Hl. apply Hnext. lia.
Qed.

Theorem range_visits_once : forall m s ev m' s',
  nodup m -> range_over keq body m s = (ev, m', s') ->
  m_get keq m k <> None ->
  (forall k', In (EMut (MDel k')) ev -> keq k' k = false) ->
  count_k ev = 1.
Proof.
  intros m s ev m' s' N H G Hd. destruct (proj1 (get_live m k) G) as [i0 Hi0].
  unfold range_over in H.
  destruct (live_slots m) as (L & HL & Hin).
  rewrite (once_loop i0 _ _ _ _ _ _ _ H Hi0 N); [reflexivity| |exact Hd].
  exists L. split; [rewrite HL; apply le_n | intros i _; apply Hin].
Qed.

End Once.
