(* C16 - the newVariable model (Model/C16_Alloc.v): one allocation keeps the stack of frames well formed
   ([wf_stack], [alloc_step]) and returns a name that no frame has seen; [run_inv] carries an invariant of
   the single operations along every history. *)
From Coq Require Import List NArith Arith Bool Lia ZifyN ZifyNat ZifyBool DecimalN.
From Verif Require Import Base.Lists Model.C16_Alloc.
Import ListNotations.
Local Open Scope N_scope.

Lemma name_eqb_true : forall a b, name_eqb a b = true <-> a = b.
Proof. exact (list_eqb_eq N.eqb N.eqb_eq). Qed.

Lemma name_eqb_refl : forall a, name_eqb a a = true.
Proof. intros. apply name_eqb_true. reflexivity. Qed.

Lemma name_eqb_false : forall a b, name_eqb a b = false <-> a <> b.
Proof. intros a b. rewrite <- name_eqb_true. symmetry. apply not_true_iff_false. Qed.

Lemma get_set_same : forall m k v, get (set m k v) k = v.
Proof.
  induction m as [|[k' v'] m IH]; intros k v; cbn [set get].
  - rewrite name_eqb_refl. reflexivity.
  - destruct (name_eqb k k') eqn:E; cbn [get]; rewrite E; [reflexivity | apply IH].
Qed.

Lemma get_set_other : forall m k v k', k' <> k -> get (set m k v) k' = get m k'.
Proof.
  induction m as [|[k0 v0] m IH]; intros k v k' Hne; cbn [set get].
  - apply name_eqb_false in Hne. rewrite Hne. reflexivity.
  - destruct (name_eqb k k0) eqn:E; cbn [get].
    + apply name_eqb_true in E. subst k0. apply name_eqb_false in Hne. rewrite Hne. reflexivity.
    + destruct (name_eqb k' k0); [reflexivity | apply IH; assumption].
Qed.

Lemma get_set : forall m k v k', get (set m k v) k' = if name_eqb k' k then v else get m k'.
Proof.
  intros m k v k'. destruct (name_eqb k' k) eqn:E.
  - apply name_eqb_true in E. subst k'. apply get_set_same.
  - apply get_set_other, name_eqb_false, E.
Qed.

Lemma get_set_le : forall m nm v k, get m nm <= v -> get m k <= get (set m nm v) k.
Proof.
  intros m nm v k H. rewrite get_set. destruct (name_eqb k nm) eqn:E; [apply name_eqb_true in E; subst k|]; lia.
Qed.

Definition is_dig (c : N) : bool := (48 <=? c) && (c <=? 57).

Lemma uint_bytes_digits : forall u, Forall (fun c => is_dig c = true) (uint_bytes u).
Proof. induction u; cbn [uint_bytes]; constructor; auto. Qed.

Lemma uint_bytes_inj : forall u u', uint_bytes u = uint_bytes u' -> u = u'.
Proof.
  induction u; destruct u'; cbn [uint_bytes]; intros H; try discriminate; try reflexivity;
    inversion H; f_equal; auto.
Qed.

Lemma dec_inj : forall n m, dec n = dec m -> n = m.
Proof.
  intros n m H. apply uint_bytes_inj in H.
  rewrite <- (DecimalN.Unsigned.of_to n), <- (DecimalN.Unsigned.of_to m), H. reflexivity.
Qed.

Fixpoint drop_digits (l : list N) : list N :=
  match l with
  | c :: r => if is_dig c then drop_digits r else l
  | [] => []
  end.

(* the base does not end in a dollar sign followed by (zero or more) digits *)
Definition cleanb (b : name) : bool :=
  match drop_digits (rev b) with
  | c :: _ => negb (c =? 36)
  | [] => true
  end.

Lemma drop_digits_app : forall d r, Forall (fun c => is_dig c = true) d -> drop_digits (d ++ 36 :: r) = 36 :: r.
Proof.
  induction d as [|c d IH]; intros r H; cbn [app drop_digits].
  - reflexivity.
  - inversion H as [|c0 d0 Hc Hd]; subst. rewrite Hc. apply IH. exact Hd.
Qed.

Lemma drop_digits_suffix : forall b n, drop_digits (rev (b ++ 36 :: dec n)) = 36 :: rev b.
Proof.
  intros b n. rewrite rev_app_distr. cbn [rev]. rewrite <- app_assoc. apply drop_digits_app, Forall_rev, uint_bytes_digits.
Qed.

Lemma clean_no_suffix : forall b p n, cleanb b = true -> b <> p ++ 36 :: dec n.
Proof.
  intros b p n Hc E. subst b. unfold cleanb in Hc. rewrite drop_digits_suffix in Hc. discriminate Hc.
Qed.

Lemma fmt_name_inj : forall b n b' n',
  cleanb b = true -> cleanb b' = true -> fmt_name b n = fmt_name b' n' -> b = b' /\ n = n'.
Proof.
  intros b n b' n' Hb Hb' E. unfold fmt_name in E.
  destruct (n =? 0) eqn:En; destruct (n' =? 0) eqn:En'.
  - apply N.eqb_eq in En, En'. subst. auto.
  - exfalso. eapply clean_no_suffix; [exact Hb | exact E].
  - exfalso. eapply clean_no_suffix; [exact Hb' | symmetry; exact E].
  - assert (Eb : 36 :: rev b = 36 :: rev b') by (rewrite <- (drop_digits_suffix b n), <- (drop_digits_suffix b' n'), E; reflexivity).
    inversion Eb as [Er]. apply (f_equal (@rev N)) in Er. rewrite !rev_involutive in Er. subst b'.
    apply app_inv_head in E. inversion E as [Ed]. apply dec_inj in Ed. auto.
Qed.

(* the loop only prepends: a short name ends in the letter written first, and [cleanb] looks at the end only *)
Lemma short_name_loop_last : forall fuel offset j acc,
  exists p, short_name_loop fuel offset j acc = p ++ (offset + j mod 26) :: acc.
Proof.
  induction fuel as [|f IH]; intros offset j acc; cbn [short_name_loop].
  - exists []. destruct (j <? 26); reflexivity.
  - destruct (j <? 26); [exists []; reflexivity|].
    destruct (IH offset (j / 26 - 1) ((offset + j mod 26) :: acc)) as [p ->].
    exists (p ++ [offset + (j / 26 - 1) mod 26]). rewrite <- app_assoc. reflexivity.
Qed.

Lemma short_name_clean : forall offset i, (offset = 65 \/ offset = 97) -> cleanb (short_name offset i) = true.
Proof.
  intros offset i Ho. unfold cleanb, short_name. destruct (short_name_loop_last 64 offset i []) as [p ->].
  rewrite rev_app_distr. cbn [rev app drop_digits]. pose proof (N.mod_upper_bound i 26 ltac:(lia)).
  replace (is_dig (offset + i mod 26)) with false by (unfold is_dig; lia). lia.
Qed.

Lemma find_free_spec : forall fuel m offset i nm,
  (offset = 65 \/ offset = 97) -> find_free fuel m offset i = Some nm -> cleanb nm = true /\ get m nm = 0.
Proof.
  (* the count is tested before the fuel: a hit looks the same at every fuel *)
  induction fuel as [|f IH]; intros m offset i nm Ho H; cbn [find_free] in H;
    (destruct (get m (short_name offset i) =? 0) eqn:E;
       [inversion H; subst; split; [apply short_name_clean; assumption | apply N.eqb_eq; assumption] |]).
  - discriminate.
  - eapply IH; eassumption.
Qed.

(* The invariant.  In every frame the count of a base is above every suffix under which that base is
   visible there, so [fmt_name nm (get (fvars c) nm)] is new in [c]; counts only grow towards the
   innermost frame ([mono]), so the same name is new in the enclosing frames too, which is what a
   package-level allocation (it bumps every frame from the innermost count) needs. *)
Definition wf_frame (f : frame) : Prop :=
  forall v, In v (fseen f) -> exists b n, v = fmt_name b n /\ cleanb b = true /\ n < get (fvars f) b.

Definition mono (c p : frame) : Prop := forall k, get (fvars p) k <= get (fvars c) k.

Inductive wf_stack : list frame -> Prop :=
| wfs_nil : wf_stack []
| wfs_cons : forall c rest, wf_frame c -> NoDup (fseen c) -> Forall (mono c) rest -> wf_stack rest -> wf_stack (c :: rest).

Definition op_clean (o : op) : Prop :=
  match o with
  | OEnter f => cleanb f = true
  | OLeave => True
  | OAlloc b _ => cleanb b = true
  | OReuse _ => True
  end.

(* histories in which no cached pointer name is re-used by a second generic instance *)
Definition op_no_reuse (o : op) : Prop :=
  match o with OReuse _ => False | _ => True end.

Lemma not_seen : forall f nm,
  wf_frame f -> cleanb nm = true -> forall n, get (fvars f) nm <= n -> ~ In (fmt_name nm n) (fseen f).
Proof.
  intros f nm Hwf Hc n Hle Hin. destruct (Hwf _ Hin) as (b & n' & E & Hb & Hlt).
  apply fmt_name_inj in E; auto. destruct E; subst. lia.
Qed.

(* the two updates of [alloc] (package-level [bump], local) change a frame in the same way as far as
   the invariant can see: the count of [nm] goes to [n + 1] and [fmt_name nm n] becomes visible *)
Lemma wf_frame_bump : forall f f' nm n,
  wf_frame f -> cleanb nm = true -> get (fvars f) nm <= n ->
  fvars f' = set (fvars f) nm (n + 1) -> fseen f' = fmt_name nm n :: fseen f -> wf_frame f'.
Proof.
  intros f f' nm n Hwf Hc Hle Ev Es v' Hin. rewrite Es in Hin. rewrite Ev. destruct Hin as [E | Hin].
  - exists nm, n. rewrite get_set_same. repeat split; auto. lia.
  - destruct (Hwf _ Hin) as (b & n' & E & Hb & Hlt). exists b, n'. repeat split; auto.
    pose proof (get_set_le (fvars f) nm (n + 1) b). lia.
Qed.

Lemma mono_bump_both : forall c p nm n v v',
  mono c p -> mono (bump nm n v c) (bump nm n v' p).
Proof.
  intros c p nm n v v' H k. cbn [bump fvars]. rewrite !get_set. destruct (name_eqb k nm); [lia | apply H].
Qed.

Lemma wf_stack_frames : forall st, wf_stack st -> Forall (fun f => wf_frame f /\ NoDup (fseen f)) st.
Proof. induction 1; constructor; auto. Qed.

Lemma wf_stack_bump : forall rest nm n,
  wf_stack rest -> cleanb nm = true -> Forall (fun p => get (fvars p) nm <= n) rest ->
  wf_stack (map (bump nm (n + 1) (fmt_name nm n)) rest).
Proof.
  induction rest as [|p rest IH]; intros nm n Hwf Hc Hle; cbn [map]; [constructor|].
  inversion Hwf; subst. inversion Hle; subst. constructor.
  - apply (wf_frame_bump p _ nm n); auto.
  - cbn [bump fseen]. constructor; [|assumption]. apply not_seen; auto.
  - rewrite Forall_map. rewrite Forall_forall in *. intros q Hq. apply mono_bump_both. auto.
  - apply IH; auto.
Qed.

Lemma alloc_spec : forall minify base pkg c parents v st',
  alloc minify base pkg (c :: parents) = Some (v, st') ->
  exists nm, (if minify then cleanb nm = true /\ get (fvars c) nm = 0 else nm = base) /\
    let n := get (fvars c) nm in
    v = fmt_name nm n /\
    st' = if pkg then map (bump nm (n + 1) v) (c :: parents)
          else {| fvars := set (fvars c) nm (n + 1); flocals := flocals c ++ [v]; fseen := v :: fseen c |} :: parents.
Proof.
  intros minify base pkg c parents v st' H. cbn [alloc] in H.
  destruct (is_nil_name base); [discriminate|].
  destruct (if minify then find_free _ _ _ 0 else Some base) as [nm|] eqn:Ech; [|discriminate].
  exists nm. split.
  - destruct minify; [apply find_free_spec in Ech; [exact Ech | destruct pkg; auto] | inversion Ech; reflexivity].
  - destruct pkg; inversion H; split; reflexivity.
Qed.

Lemma alloc_step : forall minify base pkg c parents v st',
  wf_stack (c :: parents) -> (minify = false -> cleanb base = true) ->
  alloc minify base pkg (c :: parents) = Some (v, st') ->
  wf_stack st' /\ Forall (fun f => ~ In v (fseen f)) (c :: parents).
Proof.
  intros minify base pkg c parents v st' Hwf Hclean H.
  destruct (alloc_spec _ _ _ _ _ _ _ H) as (nm & Hnm & Ev & Est).
  assert (Hc : cleanb nm = true) by (destruct minify; [apply Hnm | rewrite Hnm; auto]).
  set (n := get (fvars c) nm) in *.
  inversion Hwf as [|c0 r0 Hwfc Hnd Hmono Hwfr]; subst c0 r0. rewrite Forall_forall in Hmono.
  (* counts only grow towards the innermost frame: no frame has a count of nm above n, so none has seen nm with suffix n *)
  assert (Hle : Forall (fun p => get (fvars p) nm <= n) (c :: parents)).
  { constructor; [apply N.le_refl|]. apply Forall_forall. intros p Hp. apply Hmono. assumption. }
  assert (Hfresh : Forall (fun f => ~ In v (fseen f)) (c :: parents)).
  { pose proof (wf_stack_frames _ Hwf) as Hfr. rewrite Forall_forall in *. intros p Hp. subst v. apply not_seen; [apply Hfr | |]; auto. }
  split; [|exact Hfresh]. inversion Hfresh as [|c0 r0 Hfc Hfp]; subst c0 r0. subst st'. destruct pkg.
  - (* package level: every frame is bumped *) subst v. apply wf_stack_bump; assumption.
  - (* local: the innermost frame only *) constructor; cbn [fvars fseen].
    + apply (wf_frame_bump c _ nm n); auto; [apply N.le_refl | rewrite Ev; reflexivity].
    + constructor; assumption.
    + apply Forall_forall. intros q Hq k. cbn [fvars].
      pose proof (Hmono q Hq k). pose proof (get_set_le (fvars c) nm (n + 1) k). lia.
    + assumption.
Qed.

Lemma wf_stack_push : forall c rest,
  wf_stack (c :: rest) -> wf_stack ({| fvars := fvars c; flocals := []; fseen := fseen c |} :: c :: rest).
Proof.
  intros c rest Hwf. inversion Hwf; subst. constructor; auto.
  constructor; [intros k; cbn; lia | assumption].
Qed.

(* Induction over a history, once: [Inv] holds of the stack throughout and [Q] of every returned name,
   when each operation whose argument satisfies [P] keeps [Inv] and returns a [Q] name.  Entering a
   function is pushing a copy of the innermost frame and allocating at package level in it. *)
Lemma run_inv : forall (Inv : list frame -> Prop) (Q : name -> Prop) (P : op -> Prop) minify,
  (forall b pkg st v st', P (OAlloc b pkg) -> Inv st -> alloc minify b pkg st = Some (v, st') -> Inv st' /\ Q v) ->
  (forall f, P (OEnter f) -> P (OAlloc f true)) ->
  (forall c r, Inv (c :: r) -> Inv ({| fvars := fvars c; flocals := []; fseen := fseen c |} :: c :: r)) ->
  (forall c r, Inv (c :: r) -> Inv r) ->
  (forall v c r, P (OReuse v) -> Inv (c :: r) ->
     Inv ({| fvars := fvars c; flocals := flocals c ++ [v]; fseen := v :: fseen c |} :: r) /\ Q v) ->
  forall ops st outs fin, Forall P ops -> Inv st -> run minify ops st = Some (outs, fin) ->
  Inv fin /\ forall v, In (ON v) outs -> Q v.
Proof.
  intros Inv Q P minify Halloc Henter Hpush Hpop Hreuse.
  induction ops as [|o ops IH]; intros st outs fin HP HI H; cbn [run] in H.
  - inversion H; subst. split; [assumption | intros v []].
  - inversion HP as [|o0 ops0 Po HP']; subst o0 ops0.
    (* every operation emits one output [o1] and continues from a stack [st1] *)
    assert (Hcont : forall o1 st1, Inv st1 -> match o1 with ON v => Q v | OL _ => True end ->
              match run minify ops st1 with Some (os, fin) => Some (o1 :: os, fin) | None => None end = Some (outs, fin) ->
              Inv fin /\ forall v, In (ON v) outs -> Q v).
    { intros o1 st1 HI1 HQ1 H1. destruct (run minify ops st1) as [[os fin']|] eqn:R; [|discriminate].
      inversion H1; subst. destruct (IH _ _ _ HP' HI1 R) as [HIf HQ]. split; [assumption|].
      intros v [E | Hin]; [subst o1; exact HQ1 | apply HQ, Hin]. }
    destruct o as [f | | b pkg | v1].
    + destruct st as [|c r]; [discriminate|]. cbn [enter] in H.
      destruct (alloc minify f true _) as [[v st']|] eqn:E; [|discriminate].
      destruct (Halloc _ _ _ _ _ (Henter _ Po) (Hpush _ _ HI) E) as [HI' Hv]. exact (Hcont (ON v) _ HI' Hv H).
    + destruct st as [|c [|p r]]; try discriminate. exact (Hcont (OL _) _ (Hpop _ _ HI) I H).
    + destruct (alloc minify b pkg st) as [[v st']|] eqn:E; [|discriminate].
      destruct (Halloc _ _ _ _ _ Po HI E) as [HI' Hv]. exact (Hcont (ON v) _ HI' Hv H).
    + destruct st as [|c r]; [discriminate|]. destruct (Hreuse _ _ _ Po HI) as [HI' Hv].
      destruct (existsb (name_eqb v1) (flocals c)); [exact (Hcont (ON v1) _ HI Hv H) | exact (Hcont (ON v1) _ HI' Hv H)].
Qed.

Lemma run_wf : forall minify ops st outs fin,
  wf_stack st -> (minify = false -> Forall op_clean ops) -> Forall op_no_reuse ops ->
  run minify ops st = Some (outs, fin) -> wf_stack fin.
Proof.
  intros minify ops st outs fin Hwf Hc Hnr H.
  apply (run_inv wf_stack (fun _ => True) (fun o => (minify = false -> op_clean o) /\ op_no_reuse o) minify) in H;
    [tauto | | | | | | | assumption].
  - (* alloc *) intros b pkg [|c ps] v st' [Hb _] Hwf0 E; [discriminate|]. split; [|exact I]. apply (alloc_step _ _ _ _ _ _ _ Hwf0 Hb E).
  - (* enter *) intros f Hf. exact Hf.
  - (* push *) apply wf_stack_push.
  - (* pop *) intros c r Hw. inversion Hw; assumption.
  - (* reuse: excluded *) intros v c r [_ []].
  - rewrite Forall_forall in *. intros o Ho. split; auto.
Qed.

Lemma root_wf : forall kws, wf_stack [root_frame kws].
Proof.
  intros. constructor; try constructor. intros v Hin. cbn in Hin. contradiction.
Qed.

Definition seeded (kws : list name) (st : list frame) : Prop :=
  Forall (fun f => forall k, In k kws -> 1 <= get (fvars f) k) st.

Lemma fold_seed : forall kws m k,
  (In k kws \/ 1 <= get m k) -> 1 <= get (fold_left (fun m k => set m k 1) kws m) k.
Proof.
  induction kws as [|a kws IH]; intros m k H; cbn [fold_left].
  - destruct H as [[]|H]. assumption.
  - apply IH. rewrite get_set. destruct (name_eqb k a) eqn:E; [right; lia|].
    destruct H as [[H|H]|H]; [subst a; rewrite name_eqb_refl in E; discriminate | left; assumption | right; assumption].
Qed.

Lemma root_seeded : forall kws, seeded kws [root_frame kws].
Proof.
  intros. constructor; [|constructor]. intros k Hk. cbn [root_frame fvars]. apply fold_seed. left. assumption.
Qed.

Lemma set_keeps_positive : forall m nm n k, 1 <= get m k -> 1 <= get (set m nm (n + 1)) k.
Proof. intros. rewrite get_set. destruct (name_eqb k nm); lia. Qed.

Definition no_dollar (k : name) : bool := forallb (fun c => negb (c =? 36)) k.

Lemma fmt_has_dollar : forall nm n, n <> 0 -> no_dollar (fmt_name nm n) = false.
Proof.
  intros nm n Hn. unfold fmt_name. apply N.eqb_neq in Hn. rewrite Hn. unfold no_dollar.
  rewrite forallb_app. cbn [forallb]. rewrite N.eqb_refl. cbn. apply andb_false_r.
Qed.

Lemma fmt_not_in : forall bad base n,
  forallb no_dollar bad = true -> (n = 0 -> ~ In base bad) -> ~ In (fmt_name base n) bad.
Proof.
  intros bad base n Hnd Hb Hin. destruct (N.eq_dec n 0) as [E|E].
  - subst. apply (Hb eq_refl). exact Hin.
  - rewrite forallb_forall in Hnd. specialize (Hnd _ Hin). rewrite fmt_has_dollar in Hnd; [discriminate | assumption].
Qed.

Lemma alloc_seeded : forall kws minify base pkg st v st',
  seeded kws st -> forallb no_dollar kws = true ->
  alloc minify base pkg st = Some (v, st') ->
  seeded kws st' /\ ~ In v kws.
Proof.
  intros kws minify base pkg [|c parents] v st' Hs Hnd H; [discriminate|].
  destruct (alloc_spec _ _ _ _ _ _ _ H) as (nm & _ & Ev & Est). split.
  - subst st'. unfold seeded in *. destruct pkg.
    + rewrite Forall_map. rewrite Forall_forall in *. intros q Hq k Hk. apply set_keeps_positive; auto.
    + inversion Hs as [|c0 r0 Hsc Hsr]; subst c0 r0. constructor; [|assumption].
      intros k Hk. apply set_keeps_positive; auto.
  (* a keyword has count at least 1: the name is not a keyword without suffix *)
  - subst v. apply fmt_not_in; [assumption|]. intros E0 Hin.
    inversion Hs as [|c0 r0 Hsc Hsr]; subst c0 r0. specialize (Hsc _ Hin). lia.
Qed.

Definition op_reuse_not_in (bad : list name) (o : op) : Prop :=
  match o with OReuse v => ~ In v bad | _ => True end.

Lemma run_not_reserved : forall kws minify ops st outs fin,
  seeded kws st -> forallb no_dollar kws = true -> Forall (op_reuse_not_in kws) ops ->
  run minify ops st = Some (outs, fin) ->
  forall v, In (ON v) outs -> ~ In v kws.
Proof.
  intros kws minify ops st outs fin Hs Hnd Hru H.
  apply (run_inv (seeded kws) (fun v => ~ In v kws) (op_reuse_not_in kws) minify) in H; [tauto | | | | | | assumption | assumption].
  - (* alloc *) intros b pkg st0 v st' _ Hs0 E. apply (alloc_seeded _ _ _ _ _ _ _ Hs0 Hnd E).
  - (* enter *) intros f _. exact I.
  - (* push *) intros c r Hs0. inversion Hs0; subst. constructor; assumption.
  - (* pop *) intros c r Hs0. inversion Hs0; assumption.
  - (* reuse *) intros v c r Hv Hs0. split; [|exact Hv]. inversion Hs0; subst. constructor; assumption.
Qed.

Lemma alloc_not_reserved : forall kws reserved minify ops outs fin,
  forallb no_dollar kws = true ->
  forallb (fun k => existsb (name_eqb k) kws) reserved = true ->
  Forall (op_reuse_not_in kws) ops ->
  run_root minify kws ops = Some (outs, fin) ->
  forall v, In (ON v) outs -> ~ In v reserved.
Proof.
  intros kws reserved minify ops outs fin Hnd Hsub Hru Hrun v Hin Hres.
  rewrite forallb_forall in Hsub. specialize (Hsub _ Hres). apply (existsb_eqb_In name_eqb name_eqb_true) in Hsub.
  eapply run_not_reserved; [apply root_seeded | exact Hnd | exact Hru | exact Hrun | exact Hin | exact Hsub].
Qed.

Definition op_base_not_in (bad : list name) (o : op) : Prop :=
  match o with
  | OEnter f => ~ In f bad
  | OLeave => True
  | OAlloc b _ => ~ In b bad
  | OReuse v => ~ In v bad
  end.

(* without minification a returned name is the requested one, possibly with a $n suffix: it can
   only be one of [bad] if the Go identifier itself was *)
Lemma run_nonminify_form : forall bad ops st outs fin,
  forallb no_dollar bad = true -> Forall (op_base_not_in bad) ops ->
  run false ops st = Some (outs, fin) ->
  forall v, In (ON v) outs -> ~ In v bad.
Proof.
  intros bad ops st outs fin Hnd Hops H.
  apply (run_inv (fun _ => True) (fun v => ~ In v bad) (op_base_not_in bad) false) in H; [tauto | | | | | | assumption | exact I].
  - (* alloc *) intros b pkg [|c ps] v st' Hb _ E; [discriminate|]. split; [exact I|].
    destruct (alloc_spec _ _ _ _ _ _ _ E) as (nm & -> & -> & _). apply fmt_not_in; auto.
  - (* enter *) intros f Hf. exact Hf.
  - (* push *) auto.
  - (* pop *) auto.
  - (* reuse *) intros v c r Hv _. split; [exact I | exact Hv].
Qed.

(* To exhibit a run whose outputs have a property it is enough to evaluate the property on the
   result of [run]: the final stack is neither written down nor normalised. *)
Lemma run_outs_witness : forall (r : option (list out * list frame)) (P : list out -> Prop),
  match r with Some (outs, _) => P outs | None => False end ->
  exists outs fin, r = Some (outs, fin) /\ P outs.
Proof. intros [[outs fin]|] P H; [exists outs, fin; auto | contradiction]. Qed.
