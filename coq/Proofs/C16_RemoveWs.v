(* C16 - lemmas about removeWhitespace (Model/C16_RemoveWs.v) and the lexical structure
   (Model/C16_Lex.v).

   [scan] cuts a blob into elements and is sound ([scan_sound]: rendering the
   elements gives the blob back, and the elements are canonical).  On the rendering of canonical
   elements both loops make the same tests and take the elements off one by one: [scan] returns them
   and [remove_ws] is [strip] ([loops_render]).  [strip] only deletes whitespace and comments; under
   the side condition [okf] it never fails, keeps the list canonical and keeps the token stream
   ([strip_ok]). *)
From Coq Require Import List NArith ZArith Arith Bool Lia ZifyN ZifyNat ZifyBool.
From Verif Require Import Base.Lists Model.C16_RemoveWs Model.C16_Lex.
Import ListNotations.
Local Open Scope N_scope.
Ltac Zify.zify_post_hook ::= Z.div_mod_to_equations.

Fixpoint str_ok (s : list N) : bool :=
  match s with
  | [] => true
  | c :: r =>
      if c =? 34 then false
      else if c =? 92 then match r with [] => false | _ :: r' => str_ok r' end
      else str_ok r
  end.

(* [n] bounds the length of [s]: after a backslash the recursion is two bytes down *)
Lemma str_ok_split : forall n s, (length s <= n)%nat -> str_ok s = true ->
  forall t, rw_string (s ++ 34 :: t) = Some (s, 34 :: t).
Proof.
  induction n as [|n IH]; intros s Hl Hs t.
  - destruct s; [reflexivity | cbn in Hl; lia].
  - destruct s as [|c r]; [reflexivity|].
    cbn [str_ok] in Hs. cbn [app rw_string].
    destruct (c =? 34); [discriminate|].
    destruct (c =? 92).
    + destruct r as [|d r']; [discriminate|]. cbn [app].
      rewrite (IH r'); [reflexivity | cbn in Hl; lia | assumption].
    + rewrite (IH r); [reflexivity | cbn in Hl; lia | assumption].
Qed.

Lemma rw_string_sound : forall n b s t, (length b <= n)%nat -> rw_string b = Some (s, t) ->
  b = s ++ t /\ str_ok s = true /\ hd_error t = Some 34.
Proof.
  induction n as [|n IH]; intros b s t Hl H.
  - destruct b; [discriminate | cbn in Hl; lia].
  - destruct b as [|c r]; [discriminate|]. cbn [rw_string] in H.
    destruct (c =? 34) eqn:E34.
    + inversion H; subst. apply N.eqb_eq in E34. subst. auto.
    + destruct (c =? 92) eqn:E92.
      * destruct r as [|d r']; [discriminate|].
        destruct (rw_string r') as [[s0 t0]|] eqn:R; [|discriminate]. inversion H; subst.
        apply IH in R; [|cbn in Hl; lia]. destruct R as (Eb & Hs & Ht). subst r'.
        repeat split; auto. cbn [str_ok]. rewrite E34, E92. assumption.
      * destruct (rw_string r) as [[s0 t0]|] eqn:R; [|discriminate]. inversion H; subst.
        apply IH in R; [|cbn in Hl; lia]. destruct R as (Eb & Hs & Ht). subst r.
        repeat split; auto. cbn [str_ok]. rewrite E34, E92. assumption.
Qed.

Definition com_ok (s : list N) : Prop := rw_index_close (s ++ [42; 47]) = Some (length s).

Lemma index_close_cons2 : forall c d r, rw_index_close (c :: d :: r) =
  if (c =? 42) && (d =? 47) then Some O
  else match rw_index_close (d :: r) with Some i => Some (S i) | None => None end.
Proof. reflexivity. Qed.

(* the search does not look beyond the first closer *)
Lemma index_close_local : forall s t, rw_index_close (s ++ 42 :: 47 :: t) = rw_index_close (s ++ [42; 47]).
Proof.
  induction s as [|c [|d s'] IH]; intros t; [reflexivity | |].
  - cbn [app]. rewrite !index_close_cons2. change (42 =? 47) with false. rewrite andb_false_r. reflexivity.
  - cbn [app] in IH |- *. rewrite !index_close_cons2, IH. reflexivity.
Qed.

Lemma index_close_split : forall s t, com_ok s -> rw_index_close (s ++ 42 :: 47 :: t) = Some (length s).
Proof. intros s t H. rewrite index_close_local. exact H. Qed.

Lemma index_close_sound : forall b i, rw_index_close b = Some i ->
  exists s t, b = s ++ 42 :: 47 :: t /\ length s = i /\ com_ok s.
Proof.
  assert (H : forall b i, rw_index_close b = Some i -> exists s t, b = s ++ 42 :: 47 :: t /\ length s = i).
  { induction b as [|c r IH]; intros i H; [discriminate|].
    destruct r as [|d r0]; [discriminate|]. rewrite index_close_cons2 in H.
    destruct ((c =? 42) && (d =? 47)) eqn:E.
    - inversion H; subst. apply andb_true_iff in E. destruct E as [E1 E2].
      apply N.eqb_eq in E1, E2. subst. exists [], r0. auto.
    - destruct (rw_index_close (d :: r0)) as [i'|]; [|discriminate]. inversion H; subst i.
      destruct (IH i' eq_refl) as (s & t & -> & El). exists (c :: s), t. cbn [length]. auto. }
  intros b i Hi. destruct (H b i Hi) as (s & t & -> & <-). exists s, t. repeat split.
  unfold com_ok. rewrite <- (index_close_local s t). exact Hi.
Qed.

(* cutting at the index that [rw_index_close] finds gives the comment body and what follows the closer *)
Lemma com_cut : forall s t,
  firstn (length s) (s ++ 42 :: 47 :: t) = s /\ skipn (length s + 2) (s ++ 42 :: 47 :: t) = t.
Proof. intros s t. split; [apply firstn_app_exact | exact (skipn_app_plus s _ 2)]. Qed.

Definition starts_star (es : list elem) : bool :=
  match es with Ch c :: _ => c =? 42 | _ => false end.

Definition elem_okP (e : elem) : Prop :=
  match e with
  | Ch c => ch_ok c = true
  | Ws c => rw_is_ws c = true
  | Str s => str_ok s = true
  | Com s => com_ok s
  | Hint p => N.of_nat (length p) <= 65535
  end.

Definition slash_star (e : elem) (r : list elem) : bool :=
  match e with Ch c => (c =? 47) && starts_star r | _ => false end.

Inductive canon : list elem -> Prop :=
| canon_nil : canon []
| canon_cons : forall e r, elem_okP e -> slash_star e r = false -> canon r -> canon (e :: r).

Lemma first_byte_render : forall es, hd_error (render es) = first_byte es.
Proof. destruct es as [|[c|c|s|s|p] r]; reflexivity. Qed.

Lemma render_cons : forall e r, render (e :: r) = render_elem e ++ render r.
Proof. reflexivity. Qed.

Lemma ch_ok_facts : forall c, ch_ok c = true ->
  (c =? 8) = false /\ rw_is_ws c = false /\ (c =? 34) = false.
Proof.
  intros c H. unfold ch_ok in H. unfold rw_is_ws.
  repeat (apply andb_true_iff in H; destruct H as [H ?]).
  repeat split; lia.
Qed.

Lemma ws_facts : forall c, rw_is_ws c = true ->
  (c =? 8) = false /\ rw_needs_space c = false /\ c <> 45 /\ (c =? 42) = false.
Proof.
  intros c H. unfold rw_is_ws in H. unfold rw_needs_space.
  repeat (apply orb_true_iff in H; destruct H as [H|H]); apply N.eqb_eq in H; subst; repeat split; try reflexivity; discriminate.
Qed.

Lemma hint_head : forall p, N.of_nat (length p) <= 65535 -> exists hi lo,
  hint_bytes p = 8 :: hi :: lo :: p /\ N.to_nat (hi * 256 + lo) = length p /\ (hi <? 256) && (lo <? 256) = true.
Proof.
  intros p H. exists (N.of_nat (length p) / 256), (N.of_nat (length p) mod 256). repeat split; lia.
Qed.

Lemma render_elem_nonempty : forall e, (1 <= length (render_elem e))%nat.
Proof. destruct e; cbn [render_elem hint_bytes length]; lia. Qed.

Lemma no_comment_opener : forall c r, canon (Ch c :: r) ->
  (c =? 47) && match render r with d :: _ => d =? 42 | [] => false end = false.
Proof.
  intros c r Hc. inversion Hc as [|e0 r0 _ Hss Hr]; subst e0 r0. cbn [slash_star] in Hss.
  destruct (c =? 47); [|reflexivity]. cbn [andb] in Hss |- *.
  destruct r as [|[d|d|s|s|p] r']; try reflexivity.
  - exact Hss.
  - inversion Hr as [|e0 r0 Hd _ _]; subst e0 r0. apply (ws_facts _ Hd).
Qed.

Lemma scan_sound : forall fuel b es, scan_loop fuel b = Some es -> render es = b /\ canon es.
Proof.
  induction fuel as [|fuel IH]; intros b es H.
  - destruct b; [inversion H; subst; split; [reflexivity | constructor] | discriminate].
  - destruct b as [|c r]; [inversion H; subst; split; [reflexivity | constructor]|].
    cbn [scan_loop] in H.
    (* every branch ends by putting one element [e] before the scan of the rest [t] *)
    assert (Hcons : forall e t, elem_okP e -> c :: r = render_elem e ++ t ->
              (forall es', render es' = t -> slash_star e es' = false) ->
              match scan_loop fuel t with Some es0 => Some (e :: es0) | None => None end = Some es ->
              render es = c :: r /\ canon es).
    { intros e t He Eb Hs R. destruct (scan_loop fuel t) as [es'|] eqn:R'; [|discriminate]. inversion R; subst es.
      apply IH in R'. destruct R' as [Er Hc]. split; [rewrite Eb, <- Er; reflexivity | constructor; auto]. }
    destruct (c =? 8) eqn:E8.
    { apply N.eqb_eq in E8. subst c.
      destruct r as [|hi [|lo rest]]; try discriminate.
      destruct (Nat.ltb (length rest) (N.to_nat (hi * 256 + lo))) eqn:El; [discriminate|].
      destruct ((hi <? 256) && (lo <? 256)) eqn:Eb; cbn [negb] in H; [|discriminate].
      apply Nat.ltb_ge in El. apply andb_true_iff in Eb. destruct Eb as [Eh Elo].
      assert (A1 : (hi * 256 + lo) / 256 = hi) by lia. assert (A2 : (hi * 256 + lo) mod 256 = lo) by lia.
      assert (Hlen : length (firstn (N.to_nat (hi * 256 + lo)) rest) = N.to_nat (hi * 256 + lo)) by (apply firstn_length_le; assumption).
      apply (Hcons (Hint (firstn (N.to_nat (hi * 256 + lo)) rest)) (skipn (N.to_nat (hi * 256 + lo)) rest)); [| | reflexivity | exact H].
      - cbn [elem_okP]. lia.
      - cbn [render_elem]. unfold hint_bytes. rewrite Hlen, N2Nat.id, A1, A2. cbn [app]. rewrite firstn_skipn. reflexivity. }
    destruct (rw_is_ws c) eqn:Ews.
    { exact (Hcons (Ws c) r Ews eq_refl (fun _ _ => eq_refl) H). }
    destruct (c =? 34) eqn:E34.
    { apply N.eqb_eq in E34. subst c.
      destruct (rw_string r) as [[s [|q t]]|] eqn:Rs; try discriminate.
      apply (rw_string_sound (length r)) in Rs; [|lia]. destruct Rs as (Eb & Hs & Hq).
      cbn in Hq. inversion Hq; subst q.
      apply (Hcons (Str s) t Hs); [| reflexivity | exact H]. cbn [render_elem app]. rewrite Eb, <- app_assoc. reflexivity. }
    destruct ((c =? 47) && match r with d :: _ => d =? 42 | [] => false end) eqn:Ecom.
    { apply andb_true_iff in Ecom. destruct Ecom as [E47 E42]. apply N.eqb_eq in E47. subst c.
      destruct r as [|d r2]; [discriminate|]. apply N.eqb_eq in E42. subst d. cbn [tl] in H.
      destruct (rw_index_close r2) as [i|] eqn:Ri; [|discriminate].
      apply index_close_sound in Ri. destruct Ri as (s & t & Eb & El & Hs). subst r2 i.
      destruct (com_cut s t) as [Efirst Eskip]. rewrite Efirst, Eskip in H.
      apply (Hcons (Com s) t Hs); [| reflexivity | exact H]. cbn [render_elem app]. rewrite <- app_assoc. reflexivity. }
    destruct (ch_ok c) eqn:Eok; [|discriminate].
    apply (Hcons (Ch c) r Eok eq_refl); [|exact H].
    (* a slash: the comment test above has failed, so the rest does not start with a star *)
    intros es' Er. cbn [slash_star]. destruct (c =? 47); [|reflexivity]. cbn [andb] in Ecom |- *.
    destruct es' as [|[c2|c2|s2|s2|p2] r2]; try reflexivity.
    rewrite <- Er in Ecom. exact Ecom.
Qed.

(* [scan_loop] and [rw_loop] make the same tests on the front of a rendering, so one case analysis serves both;
   [previous] stands outside the conjunction so that one rewrite reaches both halves. *)
Lemma loops_render : forall es fuel previous, canon es -> (length (render es) <= fuel)%nat ->
  scan_loop fuel (render es) = Some es /\
  rw_loop fuel previous (render es) = option_map render (strip previous es).
Proof.
  induction es as [|e r IH]; intros fuel previous Hc Hf.
  - destruct fuel; split; reflexivity.
  - inversion Hc as [|e0 r0 He Hss Hr]; subst e0 r0.
    rewrite render_cons in Hf |- *. rewrite app_length in Hf. pose proof (render_elem_nonempty e) as Hne.
    destruct fuel as [|fuel]; [lia|].
    assert (IHs := proj1 (IH fuel 0 Hr ltac:(lia))).
    assert (IHr := fun p => proj2 (IH fuel p Hr ltac:(lia))). clear IH Hf Hne.
    destruct e as [c|c|s|s|p]; cbn [render_elem elem_okP] in He |- *.
    + (* Ch *)
      destruct (ch_ok_facts _ He) as (E8 & Ews & E34). pose proof (no_comment_opener c r Hc) as Hno.
      cbn [app scan_loop rw_loop strip]. rewrite E8, Ews, E34, Hno, He, IHs, IHr. split; [reflexivity|].
      revert Hno. destruct (c =? 47); cbn [andb]; [|intros _; destruct (strip c r); reflexivity].
      destruct r as [|e1 r1]; [reflexivity|]. cbn [is_nil].
      destruct (render (e1 :: r1)) as [|d r2] eqn:Er; [destruct e1; discriminate Er|].
      intros ->. destruct (strip c (e1 :: r1)); reflexivity.
    + (* Ws *)
      destruct (ws_facts _ He) as (E8 & _).
      cbn [app scan_loop rw_loop strip]. rewrite E8, He, IHs, first_byte_render, !IHr. split; [reflexivity|].
      destruct (rw_ws_removed previous (first_byte r)) as [[|]|]; [| destruct (strip c r) |]; reflexivity.
    + (* Str: the head byte is a literal, the tests of the loops on it compute *)
      cbn [app scan_loop rw_loop strip N.eqb Pos.eqb rw_is_ws orb].
      rewrite <- app_assoc. cbn [app].
      rewrite (str_ok_split (length s) s (le_n _) He), IHs, IHr. split; [reflexivity|]. destruct (strip 34 r) as [o|]; [|reflexivity].
      cbn [option_map]. rewrite render_cons. cbn [render_elem app]. rewrite <- app_assoc. reflexivity.
    + (* Com *)
      cbn [app scan_loop rw_loop strip andb tl N.eqb Pos.eqb rw_is_ws orb].
      rewrite <- app_assoc. cbn [app].
      destruct (com_cut s (render r)) as [Efirst Eskip].
      rewrite (index_close_split s (render r) He), Efirst, Eskip, IHs. split; [reflexivity | apply IHr].
    + (* Hint *)
      destruct (hint_head p He) as (hi & lo & Eb & Esz & Hlt). rewrite Eb.
      cbn [app scan_loop rw_loop strip N.eqb Pos.eqb rw_is_ws orb].
      cbn [rw_hint_len]. rewrite Esz, Hlt, app_length, (proj2 (Nat.ltb_ge _ _)) by lia. cbn [negb].
      replace (length p + 3)%nat with (S (S (S (length p)))) by lia. cbn [firstn skipn].
      rewrite !firstn_app_exact, !skipn_app_exact, IHs, IHr. split; [reflexivity|]. destruct (strip previous r); [|reflexivity].
      cbn [option_map]. rewrite render_cons. cbn [render_elem]. rewrite Eb. reflexivity.
Qed.

(* how the byte [previous] of the Go loop relates to the state of the side condition *)
Definition st_prev (st : lstate) (previous : N) : Prop :=
  match st with
  | Clean => rw_needs_space previous = false /\ previous <> 45
  | Adj x | Gap x => previous = x
  end.

Lemma clean_removed : forall previous nb,
  rw_needs_space previous = false -> previous <> 45 -> rw_ws_removed previous nb = Some true.
Proof.
  intros previous nb H1 H2. unfold rw_ws_removed. rewrite H1.
  apply N.eqb_neq in H2. rewrite H2. reflexivity.
Qed.

(* the token stream is kept: statement per state *)
Definition toks_rel (st : lstate) (es' es : list elem) : Prop :=
  match st with
  | Clean => toks [] es' = toks [] es
  | Adj x => forall run, toks (x :: run) es' = toks (x :: run) es
  | Gap x => forall run, toks (x :: run) es' = TRun (rev (x :: run)) :: toks [] es
  end.

(* when the stripped list starts with a star, either the input did, or the star has come to stand
   next to the last character x through deleted material, and then [okf] has checked that x and the
   star do not glue: in particular x is not a slash *)
Definition star_rel (st : lstate) (es' es : list elem) : Prop :=
  starts_star es' = true ->
  match st with
  | Clean => True
  | Adj x => starts_star es = true \/ glue x 42 = false
  | Gap x => glue x 42 = false
  end.

(* Whitespace and comments are read after [Adj x] as after [Gap x], and what is to be shown after
   [Adj x] is then weaker. *)
Lemma strip_ok : forall es st previous,
  canon es -> okf st es = true -> st_prev st previous ->
  exists es', strip previous es = Some es' /\ canon es' /\ star_rel st es' es /\ toks_rel st es' es.
Proof.
  induction es as [|e r IH]; intros st previous Hc Hok Hp.
  - exists []. split; [reflexivity|]. split; [constructor|]. split; [intros E; discriminate E|].
    destruct st; cbn [toks_rel toks flush]; auto.
  - inversion Hc as [|e0 r0 He Hss Hr]; subst e0 r0.
    destruct e as [c|w|s|s|p]; cbn [okf strip] in Hok |- *.
    + (* Ch *)
      apply andb_true_iff in Hok. destruct Hok as [Hok Hokr].
      apply andb_true_iff in Hok. destruct Hok as [Hnil Hgap].
      apply negb_true_iff in Hnil. rewrite Hnil.
      destruct (IH (Adj c) c Hr Hokr eq_refl) as (o & Es & Hco & Hso & Hto). cbn [toks_rel] in Hto.
      rewrite Es. exists (Ch c :: o). split; [reflexivity|]. split; [|split].
      * (* canon *) constructor; [exact He | | exact Hco]. cbn [slash_star] in Hss |- *.
        destruct (c =? 47) eqn:E47; [|reflexivity]. destruct (starts_star o) eqn:Eo; [|reflexivity].
        cbn [andb] in Hss. destruct (Hso Eo) as [Hr0 | Hg]; [congruence|].
        apply N.eqb_eq in E47. subst c. (* glue 47 42 computes to true *) discriminate Hg.
      * (* star_rel *) intros E. cbn [starts_star] in E. destruct st as [|x|x]; [exact I | left; exact E |].
        apply N.eqb_eq in E. subst c. apply negb_true_iff. exact Hgap.
      * (* toks_rel *) destruct st as [|x|x]; cbn [toks_rel toks].
        -- apply Hto.
        -- intros run. destruct (glue x c); [apply Hto | f_equal; apply Hto].
        -- intros run. apply negb_true_iff in Hgap. rewrite Hgap. f_equal. apply Hto.
    + (* Ws *)
      cbn [elem_okP] in He. destruct (ws_facts _ He) as (_ & Hns & H45 & _).
      assert (HGap : forall x, okf (Gap x) (Ws w :: r) = true ->
                exists es', strip x (Ws w :: r) = Some es' /\ canon es' /\
                            star_rel (Gap x) es' (Ws w :: r) /\ toks_rel (Gap x) es' (Ws w :: r)).
      { intros x Hx. cbn [okf strip] in Hx |- *.
        destruct (rw_ws_removed x (first_byte r)) as [[|]|]; [| |discriminate].
        - exact (IH (Gap x) x Hr Hx eq_refl).
        - destruct (IH Clean w Hr Hx (conj Hns H45)) as (o & Es & Hco & _ & Hto). cbn [toks_rel] in Hto.
          rewrite Es. exists (Ws w :: o). split; [reflexivity|]. split; [constructor; [exact He | reflexivity | exact Hco]|].
          split; [intros E; discriminate E|]. intros run. cbn [toks flush app]. rewrite Hto. reflexivity. }
      destruct st as [|x|x]; cbn [st_prev] in Hp.
      * destruct Hp as [Hp1 Hp2]. rewrite (clean_removed previous (first_byte r) Hp1 Hp2).
        exact (IH Clean previous Hr Hok (conj Hp1 Hp2)).
      * subst previous. destruct (HGap x Hok) as (es' & Es & Hc' & Hs' & Ht').
        exists es'. split; [exact Es|]. split; [exact Hc'|]. split; [intros E; right; exact (Hs' E) | exact Ht'].
      * subst previous. exact (HGap x Hok).
    + (* Str *)
      destruct (IH Clean 34 Hr Hok) as (o & Es & Hco & _ & Hto); [split; [reflexivity | discriminate]|].
      cbn [toks_rel] in Hto.
      rewrite Es. exists (Str s :: o). split; [reflexivity|]. split; [constructor; [exact He | reflexivity | exact Hco]|].
      split; [intros E; discriminate E|].
      destruct st as [|x|x]; cbn [toks_rel toks flush app]; try intros run; rewrite Hto; reflexivity.
    + (* Com *)
      destruct st as [|x|x].
      * exact (IH Clean previous Hr Hok Hp).
      * destruct (IH (Gap x) previous Hr Hok Hp) as (es' & Es & Hc' & Hs' & Ht').
        exists es'. split; [exact Es|]. split; [exact Hc'|]. split; [intros E; right; exact (Hs' E) | exact Ht'].
      * exact (IH (Gap x) previous Hr Hok Hp).
    + (* Hint *)
      destruct (IH st previous Hr Hok Hp) as (o & Es & Hco & _ & Hto).
      rewrite Es. exists (Hint p :: o). split; [reflexivity|]. split; [constructor; [exact He | reflexivity | exact Hco]|].
      split; [intros E; discriminate E|]. destruct st; exact Hto.
Qed.

Lemma strip_views : forall es previous es', strip previous es = Some es' ->
  strings_of es' = strings_of es /\ hint_view es' = hint_view es /\ next_sig es' = next_sig es.
Proof.
  induction es as [|e r IH]; intros previous es' H; cbn [strip] in H.
  - inversion H; auto.
  - destruct e as [c|w|s|s|p].
    + destruct ((c =? 47) && is_nil r); [discriminate|].
      destruct (strip c r) eqn:E; [|discriminate]. inversion H; subst. cbn [strings_of hint_view next_sig].
      destruct (IH _ _ E) as (E1 & E2 & _). auto.
    + destruct (rw_ws_removed previous (first_byte r)) as [[|]|]; [| |discriminate].
      * cbn [strings_of hint_view next_sig]. eapply IH; eassumption.
      * destruct (strip w r) eqn:E; [|discriminate]. inversion H; subst. cbn [strings_of hint_view next_sig]. eapply IH; eassumption.
    + destruct (strip 34 r) eqn:E; [|discriminate]. inversion H; subst. cbn [strings_of hint_view next_sig].
      destruct (IH _ _ E) as (E1 & E2 & _). rewrite E1. auto.
    + cbn [strings_of hint_view next_sig]. eapply IH; eassumption.
    + destruct (strip previous r) eqn:E; [|discriminate]. inversion H; subst. cbn [strings_of hint_view next_sig].
      destruct (IH _ _ E) as (E1 & E2 & E3). rewrite E2, E3. auto.
Qed.

Lemma scan_iff : forall b es, scan b = Some es <-> render es = b /\ canon es.
Proof.
  intros b es. split; [apply scan_sound|]. intros [<- Hc]. apply (loops_render es _ 0 Hc). lia.
Qed.

Lemma remove_ws_is_strip : forall b es, scan b = Some es ->
  remove_ws b = option_map render (strip 0 es).
Proof.
  intros b es H. apply scan_iff in H. destruct H as [<- Hc]. unfold remove_ws.
  apply (loops_render es _ 0 Hc). lia.
Qed.

Lemma remove_ws_views : forall b es o, scan b = Some es -> remove_ws b = Some o ->
  exists es', o = render es' /\ strings_of es' = strings_of es /\ hint_view es' = hint_view es.
Proof.
  intros b es o Es Ho. rewrite (remove_ws_is_strip _ _ Es) in Ho.
  destruct (strip 0 es) as [es'|] eqn:Est; [|discriminate]. inversion Ho; subst o.
  exists es'. destruct (strip_views _ _ _ Est) as (E1 & E2 & _). auto.
Qed.

Lemma remove_ws_ok : forall b, well_lexed b = true -> exists es es',
  scan b = Some es /\ strip 0 es = Some es' /\ remove_ws b = Some (render es') /\
  scan (render es') = Some es' /\ toks [] es' = toks [] es.
Proof.
  intros b H. unfold well_lexed in H. destruct (scan b) as [es|] eqn:Es; [|discriminate].
  destruct (proj1 (scan_iff _ _) Es) as [_ Hc].
  destruct (strip_ok es Clean 0 Hc H) as (es' & Est & Hc' & _ & Ht); [split; [reflexivity | discriminate]|].
  exists es, es'. repeat split; [exact Est | | | exact Ht].
  - rewrite (remove_ws_is_strip _ _ Es), Est. reflexivity.
  - apply scan_iff. auto.
Qed.

Lemma remove_ws_tokens : forall b, well_lexed b = true ->
  exists o ts, remove_ws b = Some o /\ tokenize o = Some ts /\ tokenize b = Some ts.
Proof.
  intros b H. destruct (remove_ws_ok b H) as (es & es' & Es & _ & Ho & Es' & Ht).
  exists (render es'), (toks [] es). unfold tokenize. rewrite Es, Es', Ht. auto.
Qed.

(* the hint bytes themselves are copied verbatim: the rendering of the result contains each hint
   as magic, two length bytes, payload *)
Lemma remove_ws_hint_bytes : forall b es o, scan b = Some es -> remove_ws b = Some o ->
  exists es', o = render es' /\ map fst (hint_view es') = map fst (hint_view es).
Proof.
  intros b es o Es Ho. destruct (remove_ws_views _ _ _ Es Ho) as (es' & Eo & _ & Eh).
  exists es'. rewrite Eh. auto.
Qed.
