(* C17 — Collector.Finish with the keys visited in sorted order ([finish_sorted]) does not depend on how the
   map of per-package instance sets happens to be laid out.  The model keeps the map as an association list;
   "layout" = the order of that list.  Everything below shows that propagate / run_schedule / finish_sorted
   use the list only as a finite map. *)
From Coq Require Import List NArith Bool Arith Lia Permutation FinFun.
From Verif Require Import Model.C17_Order Proofs.C17_Order.
Import ListNotations.

Lemma pis_get_set : forall m p q s, pis_get p (pis_set q s m) = if N.eqb p q then Some s else pis_get p m.
Proof.
  induction m as [|[r t] m IH]; intros p q s; cbn.
  - reflexivity.
  - destruct (N.eqb_spec q r); cbn.
    + subst. destruct (N.eqb_spec p r); reflexivity.
    + destruct (N.eqb_spec p r).
      * subst. destruct (N.eqb_spec r q); [subst; contradiction|reflexivity].
      * apply IH.
Qed.

Lemma pis_keys_set : forall m p s, pis_keys (pis_set p s m) = oset_add (pis_keys m) p.
Proof.
  unfold pis_keys, oset_add. induction m as [|[q t] m IH]; intros p s; cbn.
  - reflexivity.
  - destruct (N.eqb_spec p q); cbn.
    + reflexivity.
    + rewrite IH. destruct (n_mem p (map fst m)); reflexivity.
Qed.

Lemma pis_get_Some_In : forall m p s, NoDup (pis_keys m) -> (pis_get p m = Some s <-> In (p, s) m).
Proof.
  unfold pis_keys. induction m as [|[q t] m IH]; intros p s ND; cbn.
  - split; [discriminate|contradiction].
  - cbn in ND. inversion ND as [|? ? Hn ND']; subst. destruct (N.eqb_spec p q).
    + subst. split.
      * intro H; inversion H; left; reflexivity.
      * intros [H|H]; [inversion H; reflexivity|]. exfalso. apply Hn.
        change q with (fst (q, s)). apply in_map. exact H.
    + rewrite IH by assumption. split; [intro; right; assumption|].
      intros [H|H]; [inversion H; congruence|assumption].
Qed.

Definition same_map (m m' : pis) : Prop :=
  (forall p, pis_get p m = pis_get p m') /\ NoDup (pis_keys m) /\ NoDup (pis_keys m').

Lemma same_map_perm : forall m m', same_map m m' -> Permutation m m'.
Proof.
  intros m m' [E [N1 N2]]. apply NoDup_Permutation; try (eapply NoDup_map_inv; eassumption).
  intros [p s]. rewrite <- !pis_get_Some_In, E by assumption. tauto.
Qed.

Lemma perm_same_map : forall m m', NoDup (pis_keys m) -> Permutation m m' -> same_map m m'.
Proof.
  intros m m' ND P.
  assert (ND' : NoDup (pis_keys m')) by (eapply Permutation_NoDup; [apply Permutation_map; exact P|exact ND]).
  split; [|split; assumption].
  assert (H : forall p s, pis_get p m = Some s <-> pis_get p m' = Some s).
  { intros p s. rewrite !pis_get_Some_In by assumption. split; apply Permutation_in; [|symmetry]; exact P. }
  intro p. destruct (pis_get p m) as [s|] eqn:G.
  - symmetry. apply H. exact G.
  - destruct (pis_get p m') as [s'|] eqn:G'; [|reflexivity]. apply H in G'. congruence.
Qed.

Lemma same_map_set : forall m m' q s, same_map m m' -> same_map (pis_set q s m) (pis_set q s m').
Proof.
  intros m m' q s [E [N1 N2]]. split; [|rewrite !pis_keys_set; split; apply oset_add_NoDup; assumption].
  intro p. rewrite !pis_get_set. destruct (N.eqb p q); [reflexivity|apply E].
Qed.

Lemma same_map_add : forall m m' i, same_map m m' -> same_map (pis_add m i) (pis_add m' i).
Proof. intros m m' i H. unfold pis_add. rewrite (proj1 H (fst i)). apply same_map_set. exact H. Qed.

Lemma fold_left_rel : forall {A B} (R : A -> A -> Prop) (f : A -> B -> A),
  (forall a a' b, R a a' -> R (f a b) (f a' b)) ->
  forall l a a', R a a' -> R (fold_left f l a) (fold_left f l a').
Proof. intros A B R f Hf. induction l as [|b l IH]; intros a a' H; cbn; [exact H|]. apply IH, Hf, H. Qed.

Lemma same_map_propagate : forall t p fuel m m', same_map m m' -> same_map (propagate fuel t p m) (propagate fuel t p m').
Proof.
  intros t p. induction fuel as [|f IH]; intros m m' H; cbn; [exact H|].
  rewrite <- (proj1 H p). destruct (pis_get p m) as [s|]; [|exact H].
  destruct (nth_error (vals s) (unproc s)) as [i|]; [|exact H].
  apply IH, fold_left_rel; [exact same_map_add|]. apply same_map_set. exact H.
Qed.

Lemma same_map_run_schedule : forall fuel t sched m m',
  same_map m m' -> same_map (run_schedule fuel t sched m) (run_schedule fuel t sched m').
Proof. intros fuel t. apply fold_left_rel. intros m m' p. apply same_map_propagate. Qed.

Lemma NoDup_keys_seed : forall seeds, NoDup (pis_keys (seed seeds)).
Proof.
  (* [same_map m m] is [NoDup (pis_keys m)], and [pis_add] keeps [same_map] *)
  intro seeds. apply (fold_left_rel same_map pis_add same_map_add seeds [] []).
  split; [reflexivity|split; constructor].
Qed.

Lemma same_map_finish_sorted : forall fuel path_of t, (forall a b : N, path_of a = path_of b -> a = b) ->
  forall rounds m m', same_map m m' ->
  same_map (finish_sorted rounds fuel path_of t m) (finish_sorted rounds fuel path_of t m').
Proof.
  intros fuel path_of t Inj. induction rounds as [|r IH]; intros m m' H; cbn; [exact H|].
  pose proof (same_map_perm m m' H) as P.
  (* both tests and both key lists range over permutations of one list *)
  assert (Ex : all_exhausted m = all_exhausted m').
  { unfold all_exhausted. apply eq_true_iff_eq. rewrite !forallb_forall.
    split; intros F e He; apply F; eapply Permutation_in; try eassumption. symmetry. exact P. }
  rewrite Ex. destruct (all_exhausted m'); [exact H|].
  rewrite (sort_keys_canonical path_of (pis_keys m) (pis_keys m')).
  - apply IH, same_map_run_schedule, H.
  - apply Permutation_map. exact P.
  - apply Injective_map_NoDup; [exact Inj|apply H].
Qed.

Lemma observe_same_map : forall pkgs m m', same_map m m' -> observe pkgs m = observe pkgs m'.
Proof. intros pkgs m m' [E _]. unfold observe. apply map_ext. intro p. rewrite (E p). reflexivity. Qed.

Lemma finish_sorted_layout_independent : forall rounds fuel path_of t m m' pkgs,
  (forall a b : N, path_of a = path_of b -> a = b) ->
  NoDup (pis_keys m) -> Permutation m m' ->
  observe pkgs (finish_sorted rounds fuel path_of t m) = observe pkgs (finish_sorted rounds fuel path_of t m').
Proof.
  intros rounds fuel path_of t m m' pkgs Inj ND P.
  apply observe_same_map, same_map_finish_sorted, perm_same_map; assumption.
Qed.
