(* C17 — the ordering model (Model/C17_Order.v): the sort sites are instances of Base/Sorting.v (a sorted
   permutation is unique when the key identifies the element), the ordered sets of Base/Lists.v; the witness
   against the historic Collector.Finish loop. *)
From Coq Require Import List NArith Bool Arith Lia Permutation Sorted.
From Verif Require Import Base.Lists Base.Sorting Model.C17_Order.
Import ListNotations.

(* [str_ltb] is [lex_ltb N.ltb], the same text *)
Lemma str_ltb_order : strict_total str_ltb.
Proof. exact (lex_strict_total N.ltb N_ltb_order). Qed.

Lemma str_ltb_irrefl : forall a, str_ltb a a = false.
Proof. exact (strict_total_irrefl _ str_ltb_order). Qed.

Lemma str_gtb_order : strict_total (fun a b => str_ltb b a).
Proof. exact (strict_total_flip _ str_ltb_order). Qed.

Lemma str_eqb_eq : forall a b, str_eqb a b = true <-> a = b.
Proof. exact (list_eqb_eq N.eqb N.eqb_eq). Qed.

Lemma str_mem_In : forall x l, str_mem x l = true <-> In x l.
Proof.
  induction l as [|y l IH]; cbn; [split; [discriminate|contradiction]|].
  rewrite orb_true_iff, IH, str_eqb_eq. split; intros [H|H]; auto.
Qed.

(* Go's insertion sort keeps the sorted prefix; the model keeps it reversed, so [ins_rev] is the
   insertion of Base/Sorting.v for the opposite order, and [isort] its fold over the reversed input *)
Section Isort.
  Context {A K : Type} (lt : K -> K -> bool) (key : A -> K).
  Hypothesis lt_ok : strict_total lt.
  Local Notation less := (fun a b => lt (key a) (key b)).

  Lemma isort_fold : forall l, isort less l = rev (fold_right (ins_rev less) [] (rev l)).
  Proof. intro l. unfold isort, isort_rev. rewrite fold_left_rev_right. reflexivity. Qed.

  Lemma isort_perm : forall l, Permutation (isort less l) l.
  Proof.
    intro l. rewrite isort_fold. rewrite <- (rev_involutive l) at 2. apply Permutation_rev'.
    exact (fold_ins_perm (fun a b => lt b a) key (ins_rev less) (fun _ => eq_refl) (fun _ _ _ => eq_refl) (rev l)).
  Qed.

  Lemma isort_sorted : forall l, StronglySorted (fun a b => lt (key b) (key a) = false) (isort less l).
  Proof.
    intro l. rewrite isort_fold. apply (StronglySorted_rev (fun a b => lt (key a) (key b) = false)).
    exact (fold_ins_sorted _ key (strict_total_flip _ lt_ok) (ins_rev less) (fun _ => eq_refl) (fun _ _ _ => eq_refl) (rev l)).
  Qed.

  Theorem isort_canonical : forall l l',
    Permutation l l' -> (forall a b, In a l -> In b l -> key a = key b -> a = b) -> isort less l = isort less l'.
  Proof. exact (sort_canonical lt key lt_ok (isort less) isort_sorted isort_perm). Qed.

  Corollary isort_distinct_keys : forall l l',
    Permutation l l' -> NoDup (map key l) -> isort less l = isort less l'.
  Proof. intros l l' P ND. apply isort_canonical; [exact P|exact (NoDup_map_inj key l ND)]. Qed.

  Theorem sorted_perm_unique : forall l r,
    Permutation r l -> StronglySorted (fun a b => lt (key b) (key a) = false) r -> NoDup (map key l) ->
    r = isort less l.
  Proof.
    intros l r P S ND.
    exact (sorted_perm_is_sort lt key lt_ok (isort less) isort_sorted isort_perm l r P S (NoDup_map_inj key l ND)).
  Qed.
End Isort.

Lemma sort_strings_canonical : forall l l' : list str,
  Permutation l l' -> sort_strings l = sort_strings l'.
Proof. intros l l' P. apply (isort_canonical str_ltb id str_ltb_order); [exact P|]. intros a b _ _ E. exact E. Qed.

Lemma sort_strings_sorted : forall l, StronglySorted (fun a b => str_ltb b a = false) (sort_strings l).
Proof. exact (isort_sorted str_ltb id str_ltb_order). Qed.

Lemma sort_strings_perm : forall l, Permutation (sort_strings l) l.
Proof. exact (isort_perm str_ltb id). Qed.

Lemma dedup_names_In : forall l seen x, In x (dedup_names seen l) <-> In x l /\ ~ In x seen.
Proof.
  induction l as [|p l IH]; intros seen x; cbn; [tauto|].
  destruct (str_mem p seen) eqn:Hm.
  - apply str_mem_In in Hm. rewrite IH. intuition (subst; contradiction).
  - assert (Hn : ~ In p seen) by (rewrite <- str_mem_In, Hm; discriminate).
    cbn [In]. rewrite IH. cbn [In].
    destruct (list_eq_dec N.eq_dec p x) as [->|Hne]; tauto.
Qed.

Lemma dedup_names_NoDup : forall l seen, NoDup (dedup_names seen l).
Proof.
  induction l as [|p l IH]; intro seen; cbn; [constructor|].
  destruct (str_mem p seen); [apply IH|]. constructor; [|apply IH].
  rewrite dedup_names_In. intros [_ H]. apply H. left. reflexivity.
Qed.

Local Opaque has_suffix_test.

Lemma unres_collect_dedup : forall l seen,
  unres_collect seen l = filter (fun p => negb (has_suffix_test p)) (dedup_names seen l).
Proof.
  induction l as [|p l IH]; intro seen; cbn; [reflexivity|].
  destruct (str_mem p seen); [apply IH|]. cbn. rewrite IH. destruct (has_suffix_test p); reflexivity.
Qed.

Lemma unres_collect_In : forall l seen x,
  In x (unres_collect seen l) <-> (In x l /\ ~ In x seen /\ has_suffix_test x = false).
Proof. intros. rewrite unres_collect_dedup, filter_In, dedup_names_In, negb_true_iff. tauto. Qed.

Lemma unres_collect_NoDup : forall l seen, NoDup (unres_collect seen l).
Proof. intros. rewrite unres_collect_dedup. apply NoDup_filter, dedup_names_NoDup. Qed.

Lemma unresolved_imports_same_sets : forall skip skip' files files',
  (forall x, In x (map unquote_path (concat files)) <-> In x (map unquote_path (concat files'))) ->
  (forall x, In x skip <-> In x skip') ->
  unresolved_imports skip files = unresolved_imports skip' files'.
Proof.
  intros skip skip' files files' Hp Hs. unfold unresolved_imports.
  apply sort_strings_canonical, NoDup_Permutation; try apply unres_collect_NoDup.
  intro x. rewrite !unres_collect_In, Hs, Hp. reflexivity.
Qed.

Lemma unresolved_imports_order_independent : forall skip skip' files files',
  Permutation (concat files) (concat files') ->
  (forall x, In x skip <-> In x skip') ->
  unresolved_imports skip files = unresolved_imports skip' files'.
Proof.
  intros skip skip' files files' P. apply unresolved_imports_same_sets.
  intro x. split; apply Permutation_in; [|symmetry]; apply Permutation_map; exact P.
Qed.

Lemma Permutation_concat : forall {A} (l l' : list (list A)), Permutation l l' -> Permutation (concat l) (concat l').
Proof.
  intros A l l' P. rewrite <- (map_id l), <- (map_id l'), <- !flat_map_concat_map. now apply Permutation_flat_map.
Qed.

Lemma unresolved_imports_file_order_independent : forall skip files files',
  Permutation files files' -> unresolved_imports skip files = unresolved_imports skip files'.
Proof.
  intros. apply unresolved_imports_order_independent; [apply Permutation_concat; assumption|tauto].
Qed.

Lemma n_mem_In : forall x l, n_mem x l = true <-> In x l.
Proof.
  induction l as [|y l IH]; cbn; [split; [discriminate|contradiction]|].
  rewrite orb_true_iff, IH, N.eqb_eq. split; intros [H|H]; auto.
Qed.

(* [oset_add], [oset_add_all] are [oadd n_mem], [oadd_all n_mem] and [index_of] is the one of Base/Lists.v over [N.eqb], the same text *)
Lemma oset_add_present : forall s x, In x s -> oset_add s x = s.
Proof. exact (oadd_present n_mem n_mem_In). Qed.

Lemma oset_add_NoDup : forall s x, NoDup s -> NoDup (oset_add s x).
Proof. exact (oadd_NoDup n_mem n_mem_In). Qed.

(* values = the first occurrences of the elements in the order they were offered *)
Fixpoint first_occ (seen : list N) (xs : list N) : list N :=
  match xs with
  | [] => []
  | x :: r => if n_mem x seen then first_occ seen r else x :: first_occ (seen ++ [x]) r
  end.

Lemma oset_add_all_first_occ : forall xs s, oset_add_all s xs = s ++ first_occ s xs.
Proof.
  induction xs as [|x xs IH]; intro s.
  - cbn. rewrite app_nil_r. reflexivity.
  - change (oset_add_all s (x :: xs)) with (oset_add_all (oset_add s x) xs).
    rewrite IH. cbn [first_occ]. unfold oset_add. destruct (n_mem x s) eqn:H.
    + reflexivity.
    + rewrite <- app_assoc. reflexivity.
Qed.

(* a second traversal offering the same elements (in any order, any number of times) changes nothing *)
Lemma oset_add_all_absorbs : forall xs s, (forall x, In x xs -> In x s) -> oset_add_all s xs = s.
Proof.
  induction xs as [|x xs IH]; intros s H; cbn; [reflexivity|].
  rewrite oset_add_present by (apply H; left; reflexivity).
  apply IH. intros y Hy. apply H. right. exact Hy.
Qed.

Lemma sort_keys_canonical : forall path_of ks ks',
  Permutation ks ks' -> NoDup (map path_of ks) -> sort_keys path_of ks = sort_keys path_of ks'.
Proof. intro path_of. exact (isort_distinct_keys str_ltb path_of str_ltb_order). Qed.

(* the minimal witness of the defect: packages a(0) and b(1) instantiate c.G (package 2) inside generic code.
   instances: 10 = a.A<[]int>, 11 = b.B<map[int]int>, 20 = c.G<[]int>, 21 = c.G<map[int]int> *)
Definition w_scan : scan_table := [(10, [(2, 20)]); (11, [(2, 21)])]%N.
Definition w_seeds : list inst := [(0, 10); (1, 11)]%N.

(* the historic loop: visiting a and b in the other order swaps the ids of the two instances of c.G *)
Lemma instance_ids_schedule_independent_refuted :
  ~ (forall fuel (t : scan_table) (seeds : list inst) (s1 s2 : list N) (pkgs : list N),
       Permutation s1 s2 ->
       all_exhausted (run_schedule fuel t s1 (seed seeds)) = true ->
       all_exhausted (run_schedule fuel t s2 (seed seeds)) = true ->
       observe pkgs (run_schedule fuel t s1 (seed seeds)) = observe pkgs (run_schedule fuel t s2 (seed seeds))).
Proof.
  intro H. specialize (H 10%nat w_scan w_seeds [0; 1; 2]%N [1; 0; 2]%N [2%N] (perm_swap _ _ _)).
  vm_compute in H. discriminate (H eq_refl eq_refl).
Qed.
