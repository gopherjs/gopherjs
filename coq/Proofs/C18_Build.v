(* C18 — file selection by build constraints (Model/C18_Build.v): the tag environment of
   NewBuildContext, computed from the regenerated tables (Gen/C18_BuildEnv.v, [sat_char]), is the
   documented tag list; constraints are read as propositions over a valuation of the tags ([holds]);
   go/build's switch on one directory entry is [cls_core], shared with the text-level model. *)
From Coq Require Import List String Ascii Bool Arith Lia.
From Coq Require DecimalString DecimalNat.
From Verif Require Import Base.Lists Gen.C18_BuildEnv Model.C18_Build Proofs.C18_Strings.
Import ListNotations.
Local Open Scope string_scope.

Lemma mem_In : forall x l, mem x l = true <-> In x l.
Proof. exact (existsb_eqb_In String.eqb String.eqb_eq). Qed.

Lemma mem_false : forall x l, mem x l = false <-> ~ In x l.
Proof. exact (existsb_eqb_not_In String.eqb String.eqb_eq). Qed.

Lemma mem_app : forall x a b, mem x (a ++ b)%list = mem x a || mem x b.
Proof. intros. unfold mem. apply existsb_app. Qed.

Lemma go_tag_shape : forall k, exists r, go_tag k = String "g" (String "o" (String "1" (String "." r))).
Proof. intros k. unfold go_tag. eexists. reflexivity. Qed.

Lemma go_tag_inj : forall a b, go_tag a = go_tag b -> a = b.
Proof.
  intros a b H. unfold go_tag in H. cbn in H. injection H as H.
  assert (Hu : Nat.to_uint a = Nat.to_uint b).
  { assert (Some (Nat.to_uint a) = Some (Nat.to_uint b)) as E.
    { rewrite <- (DecimalString.NilEmpty.usu (Nat.to_uint a)), <- (DecimalString.NilEmpty.usu (Nat.to_uint b)), H. reflexivity. }
    congruence. }
  rewrite <- (DecimalNat.Unsigned.of_to a), <- (DecimalNat.Unsigned.of_to b), Hu. reflexivity.
Qed.

Lemma In_release : forall t n, In t (map go_tag (seq 1 n)) <-> exists k, 1 <= k <= n /\ t = go_tag k.
Proof.
  intros t n. rewrite in_map_iff. split.
  - intros [k [E I]]. apply in_seq in I. exists k. split; [lia | congruence].
  - intros [k [I E]]. exists k. split; [congruence | apply in_seq; lia].
Qed.

Lemma firstn_map_seq : forall {A} (f : nat -> A) n m s, n <= m -> firstn n (map f (seq s m)) = map f (seq s n).
Proof.
  intros A f n. induction n as [|n IH]; intros m s H; [reflexivity|].
  destruct m as [|m]; [lia|]. cbn. f_equal. apply IH. lia.
Qed.

(* build.Default.ReleaseTags[:n] of a toolchain Go 1.m, m >= n, is go1.1 .. go1.n *)
Lemma slice_release : forall n m, n <= m ->
  slice (toolchain_release_tags m) 0 n = Some (map go_tag (seq 1 n)).
Proof.
  intros n m H. unfold slice, toolchain_release_tags.
  rewrite map_length, seq_length.
  replace (Nat.leb 0 n) with true by (symmetry; apply Nat.leb_le; lia).
  replace (Nat.leb n m) with true by (symmetry; apply Nat.leb_le; lia).
  cbn [andb skipn]. rewrite Nat.sub_0_r. f_equal. apply firstn_map_seq. exact H.
Qed.

Definition alias (t : string) : string :=
  if t =? "boringcrypto" then "goexperiment.boringcrypto" else t.

Lemma match_tag_plain : forall e t,
  e_cgo e = false -> (e_goos e =? "android") = false -> (e_goos e =? "illumos") = false ->
  (e_goos e =? "ios") = false -> mem (e_goos e) unix_os = false ->
  (match_tag e t = true <->
   t = e_goos e \/ t = e_goarch e \/ t = e_compiler e \/
   In (alias t) (e_build_tags e) \/ In (alias t) (e_tool_tags e) \/ In (alias t) (e_release_tags e)).
Proof.
  intros e t Hc Ha Hi Ho Hu. unfold match_tag. fold (alias t).
  destruct (e_cgo e); [discriminate|]. destruct (e_goos e =? "android"); [discriminate|].
  destruct (e_goos e =? "illumos"); [discriminate|]. destruct (e_goos e =? "ios"); [discriminate|].
  destruct (mem (e_goos e) unix_os); [discriminate|]. cbn [andb]. rewrite andb_false_r.
  destruct (String.eqb_spec t (e_goos e)) as [E1|N1]; [cbn [orb]; tauto|].
  destruct (String.eqb_spec t (e_goarch e)) as [E2|N2]; [cbn [orb]; tauto|].
  destruct (String.eqb_spec t (e_compiler e)) as [E3|N3]; [cbn [orb]; tauto|].
  cbn [orb]. rewrite !orb_true_iff, !mem_In. tauto.
Qed.

(* the process environment does not set GOOS / GOARCH *)
Definition default_cfg (user : list string) (m : nat) : config :=
  {| c_env_goos := ""; c_env_goarch := ""; c_user_tags := user; c_toolchain := m |}.

(* the environment a file of a user package / std package is matched against *)
Definition file_env (user : list string) (std : bool) (m : nat) : option env :=
  match go_ctx (default_cfg user m) with
  | Some e => Some (preload e std)
  | None => None
  end.

Definition sat (user : list string) (std : bool) (m : nat) (t : string) : bool :=
  match file_env user std m with
  | Some e => match_tag e t
  | None => false
  end.

(* the supported Go release as documented: N of "+go1.N.p" in compiler.Version
   (doc/compatibility.md, versioning schema) = the release named in README.md *)
Definition doc_N : nat := doc_version_minor.

Definition doc_tags (user : list string) (std : bool) (t : string) : Prop :=
  t = "js" \/ t = (if std then "wasm" else "ecmascript") \/ t = "gc" \/
  t = "gopherjs" \/ t = "netgo" \/ t = "purego" \/ t = "math_big_pure_go" \/
  (exists k, 1 <= k <= doc_N /\ t = go_tag k) \/
  In t user.

(* facts read off the regenerated tables; each is closed by computation and
   is exactly what breaks when the corresponding source line changes *)
Lemma gen_default_goos : default_goos = "js". Proof. reflexivity. Qed.
Lemma gen_default_goarch : default_goarch = "ecmascript". Proof. reflexivity. Qed.
Lemma gen_std_goos : std_goos = Some "js". Proof. reflexivity. Qed.
Lemma gen_std_goarch : std_goarch = Some "wasm". Proof. reflexivity. Qed.
Lemma gen_compiler : compiler = "gc". Proof. reflexivity. Qed.
Lemma gen_cgo : cgo_enabled = false. Proof. reflexivity. Qed.
Lemma gen_tool_tags : tool_tags = []. Proof. reflexivity. Qed.
Lemma gen_tags_used : user_tags_used = true /\ default_tags_used = true. Proof. split; reflexivity. Qed.
(* the truncation is exactly [:GoVersion] ... *)
Lemma gen_release_truncated : release_truncated = true /\ hack_truncated = true. Proof. split; reflexivity. Qed.
Lemma gen_release_slice : release_lo = 0 /\ release_hi = go_version. Proof. split; reflexivity. Qed.
(* ... go/build is told the same default (versionhack) ... *)
Lemma gen_hack_slice : hack_lo = release_lo /\ hack_hi = release_hi. Proof. split; reflexivity. Qed.
(* ... and GoVersion is the documented release (Version string and README agree) *)
Lemma gen_version_documented : go_version = doc_N /\ doc_version_minor = doc_readme_minor.
Proof. split; reflexivity. Qed.
(* the compiler cannot even be built by an older toolchain *)
Lemma gen_guard : guard_minor = go_version. Proof. reflexivity. Qed.

Lemma gen_default_build_tags : forall t,
  In t default_build_tags <-> t = "gopherjs" \/ t = "netgo" \/ t = "purego" \/ t = "math_big_pure_go".
Proof.
  intros t. unfold default_build_tags. cbn [In]. split.
  - intros H. repeat (destruct H as [H|H]; [subst; tauto|]). contradiction.
  - intros H. repeat (destruct H as [H|H]; [subst; tauto|]). subst. tauto.
Qed.

Lemma file_env_some : forall user std m, go_version <= m ->
  file_env user std m =
  Some {| e_goos := "js"; e_goarch := if std then "wasm" else "ecmascript";
          e_compiler := "gc"; e_cgo := false;
          e_build_tags := (user ++ default_build_tags)%list; e_tool_tags := [];
          e_release_tags := map go_tag (seq 1 go_version) |}.
Proof.
  intros user std m H. unfold file_env, go_ctx, default_cfg. cbn [c_toolchain c_user_tags].
  destruct gen_release_truncated as [-> _].
  destruct gen_release_slice as [-> ->]. rewrite (slice_release _ _ H).
  unfold env_goos, env_goarch. cbn [c_env_goos c_env_goarch].
  destruct gen_tags_used as [-> ->].
  rewrite gen_default_goos, gen_default_goarch, gen_compiler, gen_cgo, gen_tool_tags.
  unfold preload. rewrite gen_std_goos, gen_std_goarch.
  destruct std; reflexivity.
Qed.

Lemma sat_char : forall user std m t, go_version <= m ->
  (sat user std m t = true <->
   t = "js" \/ t = (if std then "wasm" else "ecmascript") \/ t = "gc" \/
   In (alias t) default_build_tags \/
   (exists k, 1 <= k <= go_version /\ alias t = go_tag k) \/ In (alias t) user).
Proof.
  intros user std m t H. unfold sat. rewrite (file_env_some _ _ _ H).
  (* GOOS = js is none of android, illumos, ios or a unix *)
  rewrite match_tag_plain by reflexivity.
  cbn [e_goos e_goarch e_compiler e_build_tags e_tool_tags e_release_tags].
  rewrite in_app_iff, In_release. cbn [In]. tauto.
Qed.

Lemma alias_id : forall t, t <> "boringcrypto" -> alias t = t.
Proof. intros t H. unfold alias. apply String.eqb_neq in H. rewrite H. reflexivity. Qed.

Theorem env_is_documented : forall user std m t,
  doc_N <= m -> t <> "boringcrypto" ->
  (sat user std m t = true <-> doc_tags user std t).
Proof.
  intros user std m t Hm Hb. destruct gen_version_documented as [Hv _]. rewrite <- Hv in Hm.
  rewrite (sat_char _ _ _ _ Hm), (alias_id _ Hb), gen_default_build_tags.
  unfold doc_tags. rewrite <- Hv, !or_assoc. reflexivity.
Qed.

Theorem boringcrypto_alias : forall user std m, doc_N <= m ->
  (sat user std m "boringcrypto" = true <-> In "goexperiment.boringcrypto" user).
Proof.
  intros user std m Hm. destruct gen_version_documented as [Hv _]. rewrite <- Hv in Hm.
  rewrite (sat_char _ _ _ _ Hm). change (alias "boringcrypto") with "goexperiment.boringcrypto". split.
  - intros [H|[H|[H|[H|[H|H]]]]]; try discriminate; try assumption.
    + destruct std; discriminate.
    + apply gen_default_build_tags in H. destruct H as [H|[H|[H|H]]]; discriminate.
    + destruct H as [k [_ E]]. destruct (go_tag_shape k) as [r Er]. rewrite Er in E. discriminate.
  - tauto.
Qed.

Lemma release_tag_sat : forall user std m k, doc_N <= m ->
  (sat user std m (go_tag k) = true <-> 1 <= k <= doc_N \/ In (go_tag k) user).
Proof.
  intros user std m k Hm. destruct (go_tag_shape k) as [r Er].
  rewrite (env_is_documented _ _ _ _ Hm) by (rewrite Er; discriminate). unfold doc_tags. split.
  - (* "go1." begins none of the fixed tags *)
    intros [H|[H|[H|[H|[H|[H|[H|[H|H]]]]]]]]; try (destruct std; rewrite Er in H; discriminate).
    + left. destruct H as [j [Hj E]]. apply go_tag_inj in E. subst. exact Hj.
    + right. exact H.
  - (* the last two disjuncts: a release tag, a user tag *)
    intros [H|H]; [do 7 right; left; exists k; split; [exact H | reflexivity] | do 8 right; exact H].
Qed.

Fixpoint tags_of (x : cexpr) : list string :=
  match x with
  | Tag t => [t]
  | Not a => tags_of a
  | And a b | Or a b => (tags_of a ++ tags_of b)%list
  end.

(* truth of a constraint under a valuation of the tags (the specification) *)
Fixpoint holds (P : string -> Prop) (x : cexpr) : Prop :=
  match x with
  | Tag t => P t
  | Not a => ~ holds P a
  | And a b => holds P a /\ holds P b
  | Or a b => holds P a \/ holds P b
  end.

Lemma eval_holds : forall (s : string -> bool) (P : string -> Prop) x,
  (forall t, In t (tags_of x) -> (s t = true <-> P t)) ->
  (eval s x = true <-> holds P x).
Proof.
  intros s P x. induction x as [t|a IHa|a IHa b IHb|a IHa b IHb]; intros H; cbn [eval holds tags_of] in *.
  - apply H. left. reflexivity.
  - rewrite negb_true_iff. rewrite <- (IHa H). destruct (eval s a); split; intros; congruence.
  - rewrite andb_true_iff, IHa, IHb; [tauto| |]; intros; apply H; apply in_or_app; tauto.
  - rewrite orb_true_iff, IHa, IHb; [tauto| |]; intros; apply H; apply in_or_app; tauto.
Qed.

Definition pline_tags (l : pline) : list string :=
  match l with
  | [] => ["ignore"]
  | _ => flat_map (fun opt => map snd opt) l
  end.

Definition pterm_holds (P : string -> Prop) (t : pterm) : Prop :=
  if fst t then ~ P (snd t) else P (snd t).

Definition pline_holds (P : string -> Prop) (l : pline) : Prop :=
  match l with
  | [] => P "ignore"
  | _ => Exists (fun opt => Forall (pterm_holds P) opt) l
  end.

Lemma pterm_ok_holds : forall s P (t : pterm), (s (snd t) = true <-> P (snd t)) ->
  (pterm_ok s t = true <-> pterm_holds P t).
Proof.
  intros s P [n t] H. unfold pterm_ok, pterm_holds. cbn [fst snd] in *. destruct n.
  - rewrite negb_true_iff. rewrite <- H. destruct (s t); split; intros; congruence.
  - exact H.
Qed.

Lemma pline_ok_holds : forall s P l,
  (forall t, In t (pline_tags l) -> (s t = true <-> P t)) ->
  (pline_ok s l = true <-> pline_holds P l).
Proof.
  intros s P l H. destruct l as [|o l]; [apply H; left; reflexivity|].
  unfold pline_ok, pline_holds, pline_tags in *.
  apply existsb_Exists_iff. intros opt Io. apply forallb_Forall_iff. intros t It.
  apply pterm_ok_holds, H, in_flat_map. exists opt. split; [exact Io | apply in_map; exact It].
Qed.

Definition constraint_tags (f : file) : list string :=
  match f_gobuild f with
  | Some x => tags_of x
  | None => if f_detached f then flat_map pline_tags (f_plus f) else []
  end.

Definition mentioned (f : file) : list string := (name_tags (f_name f) ++ constraint_tags f)%list.

(* the constraint of a file under a valuation: a //go:build line controls;
   otherwise every // +build line of a detached leading block must hold *)
Definition constraint_holds (P : string -> Prop) (f : file) : Prop :=
  match f_gobuild f with
  | Some x => holds P x
  | None => if f_detached f then Forall (pline_holds P) (f_plus f) else True
  end.

Lemma should_build_holds : forall e P f,
  (forall t, In t (constraint_tags f) -> (match_tag e t = true <-> P t)) ->
  (should_build e f = true <-> constraint_holds P f).
Proof.
  intros e P f. unfold should_build, constraint_holds, constraint_tags.
  destruct (f_gobuild f) as [x|]; [apply eval_holds|].
  destruct (f_detached f); [|tauto].
  intros H. apply forallb_Forall_iff. intros l Il. apply pline_ok_holds.
  intros t It. apply H, in_flat_map. exists l. tauto.
Qed.

Lemma should_build_ext : forall e e' f,
  (forall t, In t (constraint_tags f) -> match_tag e t = match_tag e' t) ->
  should_build e f = should_build e' f.
Proof.
  intros e e' f H. apply eq_true_iff_eq.
  (* both sides are the propositional reading under the valuation of e' *)
  rewrite (should_build_holds e (fun t => match_tag e' t = true) f),
          (should_build_holds e' (fun t => match_tag e' t = true) f); [reflexivity | |];
    intros t It; [reflexivity | rewrite (H t It); reflexivity].
Qed.

Definition selectable_name (name : string) : Prop :=
  hidden name = false /\ ext_of name = ".go" /\ is_test_name name = false.

(* the switch of go/build.Context.Import on one directory entry, as a function of
   what it reads of the entry and of the environment; [sb] is the result of
   shouldBuild, None for a malformed header.  Both [classify] and the text-level
   [classify_text] of Model/C18_Text.v are instances. *)
Definition cls_core (isdir hid : bool) (ext : string) (good : bool) (sb : option bool)
                    (pkg : pkgkind) (cgo test ecgo : bool) : cls :=
  if isdir then CDir
  else if hid then CHidden
  else if negb (ext =? ".go") then (if mem ext other_exts then COther else CSkipExt)
  else if negb good then CIgnored
  else match sb with
       | None => CBad
       | Some false => CIgnored
       | Some true =>
           match pkg with
           | PkgDoc => CIgnored
           | k => if cgo then (if test then CBad else if ecgo then CCgo else CIgnored)
                  else if test then (match k with PkgXTest => CXTest | _ => CTest end)
                  else CGo
           end
       end.

Lemma cls_core_go_iff : forall isdir hid ext good sb pkg cgo test ecgo,
  cls_core isdir hid ext good sb pkg cgo test ecgo = CGo <->
  isdir = false /\ (hid = false /\ ext = ".go" /\ test = false) /\
  good = true /\ sb = Some true /\ pkg <> PkgDoc /\ cgo = false.
Proof.
  intros. unfold cls_core. split.
  - destruct isdir, hid; try discriminate.
    destruct (String.eqb_spec ext ".go") as [->|_]; [|destruct (mem ext other_exts); discriminate].
    destruct good; [|discriminate]. destruct sb as [[|]|]; try discriminate.
    destruct pkg, cgo, test; try discriminate; try (destruct ecgo; discriminate);
      intros _; repeat split; congruence.
  - intros (-> & (-> & -> & ->) & -> & -> & Hp & ->). destruct pkg; [reflexivity | contradiction | reflexivity].
Qed.

Lemma classify_core : forall e f, classify e f =
  cls_core (f_isdir f) (hidden (f_name f)) (ext_of (f_name f)) (good_os_arch_file e (f_name f))
           (Some (should_build e f)) (f_pkg f) (f_cgo f) (is_test_name (f_name f)) (e_cgo e).
Proof. intros e f. unfold classify, cls_core. destruct (should_build e f), (f_pkg f); reflexivity. Qed.

Lemma classify_go_iff : forall e f,
  classify e f = CGo <->
  f_isdir f = false /\ selectable_name (f_name f) /\
  good_os_arch_file e (f_name f) = true /\ should_build e f = true /\
  f_pkg f <> PkgDoc /\ f_cgo f = false.
Proof.
  intros e f. rewrite classify_core, cls_core_go_iff. unfold selectable_name.
  intuition congruence.
Qed.

(* without cgo support a file that imports "C" lands in none of the four lists of Go files *)
Lemma cgo_never : forall e f, e_cgo e = false -> f_cgo f = true ->
  classify e f <> CGo /\ classify e f <> CCgo /\ classify e f <> CTest /\ classify e f <> CXTest.
Proof.
  intros e f He Hf. unfold classify. rewrite He, Hf.
  destruct (f_isdir f); [repeat split; discriminate|].
  destruct (hidden (f_name f)); [repeat split; discriminate|].
  destruct (negb (ext_of (f_name f) =? ".go")); [destruct (mem _ other_exts); repeat split; discriminate|].
  destruct (negb (good_os_arch_file e (f_name f))); [repeat split; discriminate|].
  destruct (negb (should_build e f)); [repeat split; discriminate|].
  destruct (f_pkg f); destruct (is_test_name (f_name f)); repeat split; discriminate.
Qed.

Lemma classify_ext : forall e e' f, e_cgo e = e_cgo e' ->
  (forall t, In t (mentioned f) -> match_tag e t = match_tag e' t) ->
  classify e f = classify e' f.
Proof.
  intros e e' f Hc H. unfold classify.
  assert (Hname : good_os_arch_file e (f_name f) = good_os_arch_file e' (f_name f)).
  { apply forallb_ext_in. intros t It. apply H, in_or_app. left. exact It. }
  assert (Hcons : should_build e f = should_build e' f).
  { apply should_build_ext. intros t It. apply H, in_or_app. right. exact It. }
  rewrite Hname, Hcons, Hc. reflexivity.
Qed.

Definition go_files (r : result) : list string :=
  match r with ROk g _ _ _ _ => g | _ => [] end.
Definition js_files (r : result) : list string :=
  match r with ROk _ _ _ _ j => j | _ => [] end.
Definition loaded (r : result) : Prop :=
  match r with ROk _ _ _ _ _ => True | _ => False end.

Lemma import_with_loaded : forall e0 std fs, loaded (import_with e0 std fs) ->
  import_with e0 std fs =
  ROk (names_of (preload e0 std) CGo fs) (names_of (preload e0 std) CTest fs) (names_of (preload e0 std) CXTest fs)
      (names_of (preload e0 std) CIgnored fs) (map f_name (filter is_incjs fs)).
Proof.
  intros e0 std fs. unfold import_with.
  destruct (existsb _ fs); [intros []|].
  destruct (names_of (preload e0 std) CGo fs ++ _)%list; [intros []|]. reflexivity.
Qed.

Lemma import_with_js : forall e0 std fs, loaded (import_with e0 std fs) ->
  js_files (import_with e0 std fs) = map f_name (filter is_incjs fs).
Proof. intros e0 std fs L. rewrite (import_with_loaded _ _ _ L). reflexivity. Qed.

Lemma cls_eqb_eq : forall a b, cls_eqb a b = true <-> a = b.
Proof.
  intros a b. split; [destruct a, b; (reflexivity || discriminate) | intros ->; destruct b; reflexivity].
Qed.

Lemma In_names_of : forall e c fs f, NoDup (map f_name fs) -> In f fs ->
  (In (f_name f) (names_of e c fs) <-> classify e f = c).
Proof.
  intros e c fs f ND If. unfold names_of. rewrite (In_map_filter f_name _ fs f ND If). apply cls_eqb_eq.
Qed.

Lemma selected_iff_env : forall e0 std fs f, NoDup (map f_name fs) -> In f fs ->
  loaded (import_with e0 std fs) ->
  (In (f_name f) (go_files (import_with e0 std fs)) <-> classify (preload e0 std) f = CGo).
Proof.
  intros e0 std fs f ND If L. rewrite (import_with_loaded _ _ _ L). cbn [go_files]. apply In_names_of; assumption.
Qed.

Theorem selected_iff : forall user std m fs f,
  doc_N <= m ->
  NoDup (map f_name fs) -> In f fs ->
  ~ In "boringcrypto" (mentioned f) ->
  forall e0, go_ctx (default_cfg user m) = Some e0 ->
  loaded (import_with e0 std fs) ->
  (In (f_name f) (go_files (import_with e0 std fs)) <->
     f_isdir f = false /\ selectable_name (f_name f) /\
     Forall (doc_tags user std) (name_tags (f_name f)) /\
     constraint_holds (doc_tags user std) f /\
     f_pkg f <> PkgDoc /\ f_cgo f = false).
Proof.
  intros user std m fs f Hm ND If Hb e0 He0 L.
  rewrite (selected_iff_env _ _ _ _ ND If L), classify_go_iff.
  assert (Hs : forall t, In t (mentioned f) -> (match_tag (preload e0 std) t = true <-> doc_tags user std t)).
  { intros t It. assert (t <> "boringcrypto") as Ht by (intros ->; contradiction).
    rewrite <- (env_is_documented user std m t Hm Ht). unfold sat, file_env. rewrite He0. tauto. }
  assert (Hname : good_os_arch_file (preload e0 std) (f_name f) = true <-> Forall (doc_tags user std) (name_tags (f_name f))).
  { apply forallb_Forall_iff. intros t It. apply Hs, in_or_app. left. exact It. }
  assert (Hcons : should_build (preload e0 std) f = true <-> constraint_holds (doc_tags user std) f).
  { apply should_build_holds. intros t It. apply Hs, in_or_app. right. exact It. }
  rewrite Hname, Hcons. tauto.
Qed.

Lemma match_tag_add_user : forall e e' t u,
  e_goos e' = e_goos e -> e_goarch e' = e_goarch e -> e_compiler e' = e_compiler e -> e_cgo e' = e_cgo e ->
  e_tool_tags e' = e_tool_tags e -> e_release_tags e' = e_release_tags e ->
  e_build_tags e' = u :: e_build_tags e ->
  alias t <> u -> match_tag e' t = match_tag e t.
Proof.
  intros e e' t u H1 H2 H3 H4 H5 H6 H7 Hn. unfold match_tag. rewrite H1, H2, H3, H4, H5, H6, H7.
  fold (alias t). cbn [mem existsb]. apply String.eqb_neq in Hn. fold (mem (alias t) (e_build_tags e)).
  unfold mem at 1. cbn [existsb]. rewrite Hn. reflexivity.
Qed.

Lemma import_with_ext : forall e e' std fs,
  (forall f, In f fs -> classify (preload e' std) f = classify (preload e std) f) ->
  import_with e' std fs = import_with e std fs.
Proof.
  intros e e' std fs C.
  assert (N : forall c, names_of (preload e' std) c fs = names_of (preload e std) c fs).
  { intros c. unfold names_of. f_equal. apply filter_ext_in. intros f If. rewrite (C f If). reflexivity. }
  unfold import_with. rewrite !N.
  rewrite (existsb_ext_in _ (fun f => cls_eqb (classify (preload e std) f) CBad) fs); [reflexivity|].
  intros f If. rewrite (C f If). reflexivity.
Qed.

Theorem user_tag_frame : forall user u m goos goarch path in_goroot fs,
  (forall f, In f fs -> ~ In u (map alias (mentioned f))) ->
  import_pkg {| c_env_goos := goos; c_env_goarch := goarch; c_user_tags := u :: user; c_toolchain := m |} path in_goroot fs =
  import_pkg {| c_env_goos := goos; c_env_goarch := goarch; c_user_tags := user; c_toolchain := m |} path in_goroot fs.
Proof.
  intros user u m goos goarch path in_goroot fs H. unfold import_pkg, go_ctx. cbn [c_toolchain c_user_tags].
  destruct (if release_truncated then slice _ release_lo release_hi else Some _) as [rel|]; [|reflexivity].
  destruct gen_tags_used as [-> _].
  set (e := {| e_goos := _; e_build_tags := (user ++ _)%list |}).
  set (e' := {| e_goos := _; e_build_tags := ((u :: user) ++ _)%list |}).
  set (std := is_std path in_goroot).
  apply import_with_ext. intros f If. apply classify_ext; [destruct std; reflexivity|].
  intros t It. apply (match_tag_add_user (preload e std) (preload e' std) t u); try (destruct std; reflexivity).
  intros E. apply (H f If). rewrite <- E. apply in_map. exact It.
Qed.

Lemma is_incjs_iff : forall f,
  is_incjs f = true <->
  has_suffix ".inc.js" (f_name f) = true /\ f_isdir f = false /\ hidden (f_name f) = false.
Proof.
  intros f. unfold is_incjs, hidden, incjs_ext, incjs_hidden. cbn [existsb].
  destruct (has_suffix ".inc.js" (f_name f)); cbn [negb orb]; [|split; [discriminate | intros (H & _); discriminate]].
  destruct (f_isdir f); [split; [discriminate | intros (_ & H & _); discriminate]|].
  rewrite orb_false_r. rewrite negb_true_iff. tauto.
Qed.

Theorem cgo_files_never_used : forall e0 std fs f,
  NoDup (map f_name fs) -> In f fs -> f_cgo f = true ->
  ~ In (f_name f) (go_files (import_with e0 std fs)).
Proof.
  intros e0 std fs f ND If Hc H.
  assert (L : loaded (import_with e0 std fs)) by (destruct (import_with e0 std fs); try contradiction; exact I).
  rewrite (selected_iff_env _ _ _ _ ND If L), classify_go_iff in H.
  destruct H as (_ & _ & _ & _ & _ & H). congruence.
Qed.

Theorem std_selected_as_js_wasm_any_env : forall e0,
  e_goos (preload e0 true) = "js" /\ e_goarch (preload e0 true) = "wasm".
Proof. intros e0. unfold preload. rewrite gen_std_goos, gen_std_goarch. split; reflexivity. Qed.

Lemma from_first_us_none : forall s, contains_char "_" s = false -> from_first_us s = None.
Proof.
  induction s as [|c s IH]; [reflexivity|]. cbn [contains_char from_first_us]. intros H.
  apply orb_false_iff in H. destruct H as [H1 H2]. rewrite Ascii.eqb_sym, H1. apply IH. exact H2.
Qed.
