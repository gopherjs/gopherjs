(* C18 — proofs about the build-constraint LANGUAGE model
   (Model/C18_Constraint.v): monotonicity of evaluation, the reading of
   // +build lines, the //go:build -> // +build conversion, and the
   print / lex / parse round trip.  The parser is tied once to the grammar as a
   relation ([gram], [parse_toks_gram]); round trip and normal form are inductions
   on derivations. *)
From Coq Require Import List String Ascii Bool Arith Lia.
From Verif Require Import Gen.C18_BuildEnv Model.C18_Build Model.C18_Constraint Model.C18_ConstraintNF Proofs.C18_Strings.
Import ListNotations.
Local Open Scope string_scope.

Theorem eval_monotone : forall (s s' : string -> bool) e,
  (forall t, In t (pos_tags e) -> s t = true -> s' t = true) ->
  (forall t, In t (neg_tags e) -> s' t = true -> s t = true) ->
  eval s e = true -> eval s' e = true.
Proof.
  intros s s' e. revert s s'.
  induction e as [t|x IH|x IHx y IHy|x IHx y IHy]; intros s s' Hp Hn; cbn [eval pos_tags neg_tags] in *.
  - apply Hp. left. reflexivity.
  - (* under a negation the two valuations change places *)
    rewrite !negb_true_iff. intros H. apply not_true_is_false. intros E.
    rewrite (IH s' s Hn Hp E) in H. discriminate.
  - rewrite !andb_true_iff. intros [H1 H2].
    split; [apply (IHx s s') | apply (IHy s s')]; auto using in_or_app.
  - rewrite !orb_true_iff. intros [H|H];
      [left; apply (IHx s s') | right; apply (IHy s s')]; auto using in_or_app.
Qed.

Lemma eval_fold_or : forall sat l x,
  eval sat (fold_left Or l x) = eval sat x || existsb (eval sat) l.
Proof.
  intros sat l. induction l as [|y l IH]; intros x; cbn [fold_left existsb].
  - rewrite orb_false_r. reflexivity.
  - rewrite IH. cbn [eval]. rewrite orb_assoc. reflexivity.
Qed.

Lemma eval_fold_and : forall sat l x,
  eval sat (fold_left And l x) = eval sat x && forallb (eval sat) l.
Proof.
  intros sat l. induction l as [|y l IH]; intros x; cbn [fold_left forallb].
  - rewrite andb_true_r. reflexivity.
  - rewrite IH. cbn [eval]. rewrite andb_assoc. reflexivity.
Qed.

Lemma plus_lit_term : forall sat l, eval sat (plus_lit l) = pterm_ok sat (plus_term l).
Proof.
  intros sat l. unfold plus_lit, plus_term.
  destruct (has_prefix "!!" l || (l =? "!")); [reflexivity|].
  destruct (strip_prefix "!" l) as [w|].
  - destruct (valid_tag w); reflexivity.
  - destruct (valid_tag l); reflexivity.
Qed.

Lemma plus_clause_ok : forall sat c,
  eval sat (plus_clause c) = forallb (pterm_ok sat) (map plus_term (split_on "," c)).
Proof.
  intros sat c. unfold plus_clause. pose proof (split_on_nonempty "," c) as N.
  destruct (split_on "," c) as [|l ls]; [contradiction|]. cbn [map fold_op forallb].
  rewrite eval_fold_and, plus_lit_term. f_equal.
  clear N. induction ls as [|a ls IH]; [reflexivity|]. cbn [map forallb]. rewrite plus_lit_term, IH. reflexivity.
Qed.

Theorem parse_plus_expr_equiv : forall sat text,
  eval sat (parse_plus_expr text) = pline_ok sat (plus_pline text).
Proof.
  intros sat text. unfold parse_plus_expr, plus_pline.
  destruct (fields text) as [|c cs]; [reflexivity|].
  cbn [map fold_op pline_ok existsb]. rewrite eval_fold_or, plus_clause_ok. f_equal.
  induction cs as [|a cs IH]; [reflexivity|]. cbn [map existsb]. rewrite plus_clause_ok, IH. reflexivity.
Qed.

Lemma eval_push_not : forall sat x neg,
  eval sat (push_not x neg) = if neg then negb (eval sat x) else eval sat x.
Proof.
  intros sat x. induction x as [t|y IH|a IHa b IHb|a IHa b IHb]; intros neg.
  - destruct neg; reflexivity.
  - cbn [push_not].
    destruct y as [t|z|a b|a b]; destruct neg; cbn [negb];
      try reflexivity; rewrite IH; cbn [eval]; try rewrite negb_involutive; reflexivity.
  - cbn [push_not]. destruct neg; cbn [eval]; rewrite IHa, IHb; [rewrite negb_andb|]; reflexivity.
  - cbn [push_not]. destruct neg; cbn [eval]; rewrite IHa, IHb; [rewrite negb_orb|]; reflexivity.
Qed.

Lemma eval_split_and : forall sat x, eval sat x = forallb (eval sat) (split_and x).
Proof.
  intros sat x. induction x as [t|y IH|a IHa b IHb|a IHa b IHb]; cbn [split_and forallb eval];
    try (rewrite andb_true_r; reflexivity).
  rewrite forallb_app, <- IHa, <- IHb. reflexivity.
Qed.

Lemma eval_split_or : forall sat x, eval sat x = existsb (eval sat) (split_or x).
Proof.
  intros sat x. induction x as [t|y IH|a IHa b IHb|a IHa b IHb]; cbn [split_or existsb eval];
    try (rewrite orb_false_r; reflexivity).
  rewrite existsb_app, <- IHa, <- IHb. reflexivity.
Qed.

Lemma split_and_nonempty : forall x, split_and x <> [].
Proof.
  induction x as [t|y IH|a IHa b IHb|a IHa b IHb]; cbn [split_and]; try discriminate.
  destruct (split_and a); [contradiction | discriminate].
Qed.

Lemma split_or_nonempty : forall x, split_or x <> [].
Proof.
  induction x as [t|y IH|a IHa b IHb|a IHa b IHb]; cbn [split_or]; try discriminate.
  destruct (split_or a); [contradiction | discriminate].
Qed.

Lemma lit_term_ok : forall sat x t, lit_term x = Some t -> eval sat x = pterm_ok sat t.
Proof.
  intros sat x t H. destruct x as [u|y|a b|a b]; try discriminate.
  - injection H as <-. reflexivity.
  - destruct y; try discriminate. injection H as <-. reflexivity.
Qed.

Lemma all_some_map : forall {A B} (f : A -> option B) l r,
  all_some (map f l) = Some r -> Forall2 (fun a b => f a = Some b) l r.
Proof.
  intros A B f l. induction l as [|a l IH]; intros r H; cbn [map all_some] in H.
  - injection H as <-. constructor.
  - destruct (f a) as [b|] eqn:E; [|discriminate].
    destruct (all_some (map f l)) as [r'|]; [|discriminate]. injection H as <-.
    constructor; [exact E | apply IH; reflexivity].
Qed.

Lemma Forall2_forallb : forall {A B} (R : A -> B -> Prop) (P : A -> bool) (Q : B -> bool) l r,
  (forall a b, R a b -> P a = Q b) -> Forall2 R l r -> forallb P l = forallb Q r.
Proof.
  intros A B R P Q l r H F. induction F as [|a b l r Hab F IH]; [reflexivity|].
  cbn [forallb]. rewrite (H a b Hab), IH. reflexivity.
Qed.

Lemma Forall2_existsb : forall {A B} (R : A -> B -> Prop) (P : A -> bool) (Q : B -> bool) l r,
  (forall a b, R a b -> P a = Q b) -> Forall2 R l r -> existsb P l = existsb Q r.
Proof.
  intros A B R P Q l r H F. induction F as [|a b l r Hab F IH]; [reflexivity|].
  cbn [existsb]. rewrite (H a b Hab), IH. reflexivity.
Qed.

(* an AND of literals *)
Lemma and_level : forall sat a ts,
  all_some (map lit_term (split_and a)) = Some ts -> eval sat a = forallb (pterm_ok sat) ts.
Proof.
  intros sat a ts H. rewrite eval_split_and. apply all_some_map in H.
  apply (Forall2_forallb _ _ _ _ _ (lit_term_ok sat) H).
Qed.

(* an OR of ANDs of literals: a non-empty line *)
Lemma or_level : forall sat o pl,
  all_some (map (fun a => all_some (map lit_term (split_and a))) (split_or o)) = Some pl ->
  pl <> [] /\ eval sat o = pline_ok sat pl.
Proof.
  intros sat o pl H. apply all_some_map in H.
  assert (N : pl <> []).
  { pose proof (split_or_nonempty o) as N. inversion H; subst; [congruence | discriminate]. }
  split; [exact N|]. rewrite eval_split_or.
  rewrite (Forall2_existsb _ _ (fun opt => forallb (pterm_ok sat) opt) _ _ (and_level sat) H).
  destruct pl; [contradiction | reflexivity].
Qed.

Lemma plus_split_sound : forall sat x split, plus_split x = Some split ->
  Forall (fun pl => pl <> []) split /\ forallb (pline_ok sat) split = eval sat x.
Proof.
  intros sat x split H. unfold plus_split in H. apply all_some_map in H.
  assert (E : eval sat x = eval sat (push_not x false)) by (rewrite eval_push_not; reflexivity).
  rewrite E, (eval_split_and sat (push_not x false)). clear E.
  induction H as [|o pl l r Hab F IH].
  - split; [constructor | reflexivity].
  - destruct IH as [IH1 IH2]. destruct (or_level sat o pl Hab) as [N Eo]. split.
    + constructor; assumption.
    + cbn [forallb]. rewrite IH2, Eo. reflexivity.
Qed.

Lemma merge_singletons : forall sat (split : list pline),
  Forall (fun pl => pl <> []) split ->
  fold_right Nat.max 0 (map (@List.length _) split) <= 1 ->
  forallb (pline_ok sat) split =
  forallb (pterm_ok sat) (List.concat (map (fun o : pline => match o with a :: _ => a | [] => [] end) split)).
Proof.
  intros sat split F. induction F as [|pl l N F IH]; intros Hm; [reflexivity|].
  cbn [map fold_right] in Hm.
  assert (H1 : List.length pl <= 1) by lia.
  assert (H2 : fold_right Nat.max 0 (map (@List.length _) l) <= 1) by lia.
  cbn [map List.concat forallb]. rewrite forallb_app, <- (IH H2).
  destruct pl as [|a [|b pl]]; [contradiction| |cbn [List.length] in H1; lia].
  cbn [pline_ok existsb]. rewrite orb_false_r. reflexivity.
Qed.

Theorem plus_build_plines_sound : forall x ls, plus_build_plines x = Some ls ->
  forall sat, forallb (pline_ok sat) ls = eval sat x.
Proof.
  intros x ls H sat. unfold plus_build_plines in H.
  destruct (plus_split x) as [split|] eqn:Es; [|discriminate].
  destruct (plus_split_sound sat x split Es) as [N E].
  destruct (Nat.leb _ 1) eqn:El.
  - injection H as <-. apply Nat.leb_le in El.
    rewrite <- E, (merge_singletons sat split N El).
    cbn [forallb pline_ok existsb]. rewrite orb_false_r, andb_true_r. reflexivity.
  - injection H as <-. exact E.
Qed.

Lemma p_or_S : forall n ts, p_or (S n) ts =
  match p_and n ts with Some (x, r) => p_or_loop n x r | None => None end.
Proof. reflexivity. Qed.
Lemma p_and_S : forall n ts, p_and (S n) ts =
  match p_not n ts with Some (x, r) => p_and_loop n x r | None => None end.
Proof. reflexivity. Qed.
Lemma p_not_S : forall n ts, p_not (S n) ts =
  match ts with
  | TNot :: TNot :: _ => None
  | TNot :: r => match p_atom n r with Some (x, r') => Some (Not x, r') | None => None end
  | _ => p_atom n ts
  end.
Proof. reflexivity. Qed.
Lemma p_atom_S : forall n ts, p_atom (S n) ts =
  match ts with
  | TLp :: r => match p_or n r with Some (x, TRp :: r') => Some (x, r') | _ => None end
  | TTag s :: r => Some (Tag s, r)
  | _ => None
  end.
Proof. reflexivity. Qed.
Lemma p_and_loop_S : forall n x ts, p_and_loop (S n) x ts =
  match ts with
  | TAnd :: r => match p_not n r with Some (y, r') => p_and_loop n (And x y) r' | None => None end
  | _ => Some (x, ts)
  end.
Proof. reflexivity. Qed.
Lemma p_or_loop_S : forall n x ts, p_or_loop (S n) x ts =
  match ts with
  | TOr :: r => match p_and n r with Some (y, r') => p_or_loop n (Or x y) r' | None => None end
  | _ => Some (x, ts)
  end.
Proof. reflexivity. Qed.

Definition no_and (r : list tok) : Prop := match r with TAnd :: _ => False | _ => True end.
Definition no_or (r : list tok) : Prop := match r with TOr :: _ => False | _ => True end.

Lemma and_loop_done : forall x r, no_and r -> forall n, 1 <= n -> p_and_loop n x r = Some (x, r).
Proof. intros x r H [|n] Hn; [lia|]. destruct r as [|[] r]; try reflexivity. contradiction. Qed.
Lemma or_loop_done : forall x r, no_or r -> forall n, 1 <= n -> p_or_loop n x r = Some (x, r).
Proof. intros x r H [|n] Hn; [lia|]. destruct r as [|[] r]; try reflexivity. contradiction. Qed.

Lemma p_not_tag : forall n t r, p_not (S (S n)) (TTag t :: r) = Some (Tag t, r).
Proof. reflexivity. Qed.

(* The grammar of go/build/constraint, on token lists:
     or := and | or "||" and      and := not | and "&&" not      not := atom | "!" atom      atom := tag | "(" or ")"
   [gram l ts x r]: of the tokens ts, those before the rest r derive the tree x at level l. *)
Inductive lvl := LAtom | LNot | LAnd | LOr.

Inductive gram : lvl -> list tok -> cexpr -> list tok -> Prop :=
| G_tag : forall s r, gram LAtom (TTag s :: r) (Tag s) r
| G_paren : forall ts x r, gram LOr ts x (TRp :: r) -> gram LAtom (TLp :: ts) x r
| G_atom : forall ts x r, gram LAtom ts x r -> gram LNot ts x r
| G_neg : forall ts x r, gram LAtom ts x r -> gram LNot (TNot :: ts) (Not x) r
| G_not : forall ts x r, gram LNot ts x r -> gram LAnd ts x r
| G_conj : forall ts x ts' y r, gram LAnd ts x (TAnd :: ts') -> gram LNot ts' y r -> gram LAnd ts (And x y) r
| G_and : forall ts x r, gram LAnd ts x r -> gram LOr ts x r
| G_disj : forall ts x ts' y r, gram LOr ts x (TOr :: ts') -> gram LAnd ts' y r -> gram LOr ts (Or x y) r.

Definition rank (l : lvl) : nat := match l with LAtom => 0 | LNot => 1 | LAnd => 2 | LOr => 3 end.

Lemma gram_le : forall a b ts x r, rank a <= rank b -> gram a ts x r -> gram b ts x r.
Proof. intros [] [] ts x r H G; cbn in H; try lia; repeat (exact G || constructor). Qed.

Lemma gram_len : forall l ts x r, gram l ts x r -> List.length r < List.length ts.
Proof. induction 1; cbn [List.length] in *; lia. Qed.

(* an atom does not begin with "!": p_not passes it on, and negates it after one "!" *)
Lemma p_not_atom : forall ts x r, gram LAtom ts x r -> forall n,
  p_not (S n) ts = p_atom n ts /\
  p_not (S n) (TNot :: ts) = match p_atom n ts with Some (y, r') => Some (Not y, r') | None => None end.
Proof. intros ts x r H n. inversion H; subst; split; reflexivity. Qed.

(* What the parser does on ts, for every fuel from a bound on: fuel bounds the depth of the calls, and of
   any four nested ones (or, and, not, atom) one consumes a token.  The tokens before r may be only the left
   part of a longer chain of && or ||, and the parser builds such a chain in a loop with an accumulator: at
   the levels LAnd and LOr the statement therefore is that whatever the loop started at x returns on r is
   what p_and / p_or return.  An operand of || ends where the && loop stops. *)
Definition runs (l : lvl) (ts : list tok) (x : cexpr) (r : list tok) : Prop :=
  match l with
  | LAtom => forall n, 4 * List.length ts <= n -> p_atom n ts = Some (x, r)
  | LNot => forall n, 4 * List.length ts + 1 <= n -> p_not n ts = Some (x, r)
  | LAnd => forall res, (forall m, 4 * List.length r + 1 <= m -> p_and_loop m x r = Some res) ->
            forall n, 4 * List.length ts + 2 <= n -> p_and n ts = Some res
  | LOr => forall res, no_and r -> (forall m, 4 * List.length r + 1 <= m -> p_or_loop m x r = Some res) ->
           forall n, 4 * List.length ts + 3 <= n -> p_or n ts = Some res
  end.

Lemma gram_runs : forall l ts x r, gram l ts x r -> runs l ts x r.
Proof.
  induction 1 as [s r|ts x r H IH|ts x r H IH|ts x r H IH|ts x r H IH|ts x ts' y r Hx IHx Hy IHy
                  |ts x r H IH|ts x ts' y r Hx IHx Hy IHy]; cbn [runs] in *.
  (* the lengths of the rests, for the fuel *)
  all: try pose proof (gram_len _ _ _ _ H) as L; try pose proof (gram_len _ _ _ _ Hx) as Lx;
    try pose proof (gram_len _ _ _ _ Hy) as Ly; cbn [List.length] in *.
  - intros [|n] Hn; [lia | reflexivity].
  - intros [|n] Hn; [lia|].
    rewrite p_atom_S, (IH (x, TRp :: r) I) by (lia || (intros; apply or_loop_done; [exact I | lia])). reflexivity.
  - intros [|n] Hn; [lia|]. rewrite (proj1 (p_not_atom ts x r H n)). apply IH. lia.
  - intros [|n] Hn; [lia|]. rewrite (proj2 (p_not_atom ts x r H n)), IH by lia. reflexivity.
  - intros res HL [|n] Hn; [lia|]. rewrite p_and_S, IH by lia. apply HL. lia.
  - (* the loop started at x meets "&& y" first and then stands at And x y *)
    intros res HL n Hn. apply IHx; [|lia].
    intros [|m] Hm; [lia|]. rewrite p_and_loop_S. cbv iota. rewrite IHy by lia. apply HL. lia.
  - intros res Hr HL [|n] Hn; [lia|].
    rewrite p_or_S, (IH (x, r)) by (lia || (intros; apply and_loop_done; [exact Hr | lia])). apply HL. lia.
  - intros res Hr HL n Hn. apply IHx; [exact I | | lia].
    intros [|m] Hm; [lia|]. rewrite p_or_loop_S. cbv iota.
    rewrite (IHy (y, r)) by (lia || (intros; apply and_loop_done; [exact Hr | lia])). apply HL. lia.
Qed.

(* Conversely, what a parser function returns it has derived from the tokens it consumed; a loop prolongs the
   chain derived so far (from ts0 down to ts). *)
Lemma parser_gram : forall n,
  (forall ts x r, p_atom n ts = Some (x, r) -> gram LAtom ts x r) /\
  (forall ts x r, p_not n ts = Some (x, r) -> gram LNot ts x r) /\
  (forall ts x r, p_and n ts = Some (x, r) -> gram LAnd ts x r) /\
  (forall ts x r, p_or n ts = Some (x, r) -> gram LOr ts x r) /\
  (forall ts0 x0 ts x r, p_and_loop n x0 ts = Some (x, r) -> gram LAnd ts0 x0 ts -> gram LAnd ts0 x r) /\
  (forall ts0 x0 ts x r, p_or_loop n x0 ts = Some (x, r) -> gram LOr ts0 x0 ts -> gram LOr ts0 x r).
Proof.
  induction n as [|n (IHatom & IHnot & IHand & IHor & IHal & IHol)]; [repeat split; discriminate|].
  repeat split.
  - intros ts x r H. rewrite p_atom_S in H. destruct ts as [|[] ts]; try discriminate.
    + destruct (p_or n ts) as [[x' [|[] r']]|] eqn:E; try discriminate. injection H as <- <-.
      apply G_paren, IHor, E.
    + injection H as <- <-. constructor.
  - intros ts x r H. rewrite p_not_S in H.
    destruct ts as [|[] ts]; try exact (G_atom _ _ _ (IHatom _ _ _ H)).
    destruct ts as [|[] ts]; try discriminate;
      (destruct (p_atom n _) as [[x' r']|] eqn:E; [|discriminate]); injection H as <- <-;
      apply G_neg, IHatom, E.
  - intros ts x r H. rewrite p_and_S in H. destruct (p_not n ts) as [[y r']|] eqn:E; [|discriminate].
    apply (IHal _ _ _ _ _ H), G_not, IHnot, E.
  - intros ts x r H. rewrite p_or_S in H. destruct (p_and n ts) as [[y r']|] eqn:E; [|discriminate].
    apply (IHol _ _ _ _ _ H), G_and, IHand, E.
  - intros ts0 x0 ts x r H H0. rewrite p_and_loop_S in H.
    destruct ts as [|[] ts]; try (injection H as <- <-; exact H0).
    destruct (p_not n ts) as [[y r']|] eqn:E; [|discriminate].
    apply (IHal _ _ _ _ _ H), (G_conj _ _ _ _ _ H0), IHnot, E.
  - intros ts0 x0 ts x r H H0. rewrite p_or_loop_S in H.
    destruct ts as [|[] ts]; try (injection H as <- <-; exact H0).
    destruct (p_and n ts) as [[y r']|] eqn:E; [|discriminate].
    apply (IHol _ _ _ _ _ H), (G_disj _ _ _ _ _ H0), IHand, E.
Qed.

(* the parser accepts exactly the grammar; in particular parse_fuel never runs out *)
Theorem parse_toks_gram : forall ts x, parse_toks ts = Some x <-> gram LOr ts x [].
Proof.
  intros ts x. unfold parse_toks. split.
  - intros H. destruct (p_or (parse_fuel ts) ts) as [[x' [|]]|] eqn:E; try discriminate.
    injection H as <-. apply (parser_gram (parse_fuel ts)), E.
  - intros H. rewrite (gram_runs _ _ _ _ H (x, []) I (or_loop_done x [] I)); [reflexivity|].
    unfold parse_fuel. lia.
Qed.

Definition lvl_of (e : cexpr) : lvl :=
  match e with Tag _ => LAtom | Not _ => LNot | And _ _ => LAnd | Or _ _ => LOr end.

(* Expr.String puts an operand in parentheses unless its own level fits the position *)
Lemma gram_operand : forall l b e p, (forall r, gram (lvl_of e) (p ++ r) e r) ->
  (b = false -> rank (lvl_of e) <= rank l) -> forall r, gram l (tparen b p ++ r) e r.
Proof.
  intros l [|] e p G H r; cbn [tparen].
  - apply (gram_le LAtom); [cbn; lia|]. cbn [app]. rewrite <- app_assoc.
    apply G_paren, (gram_le (lvl_of e)); [destruct e; cbn; lia | apply G].
  - apply (gram_le (lvl_of e)); [apply H; reflexivity | apply G].
Qed.

(* nf is what makes the unparenthesised operands fit: no "!" under "!", no && right of &&, no || right of || *)
Lemma toks_gram : forall e, nf e = true -> forall r, gram (lvl_of e) (toks e ++ r) e r.
Proof.
  induction e as [t|x IH|x IHx y IHy|x IHx y IHy]; cbn [nf toks lvl_of]; intros H r.
  1: (* tag *) constructor.
  1:{ (* ! *) apply andb_true_iff in H as [H1 H2]. apply negb_true_iff in H1.
      apply G_neg, gram_operand; [exact (IH H2)|]. destruct x; cbn; intros; (discriminate || lia). }
  (* && and ||: cut at the operator; each operand by gram_operand, its level read off nf *)
  all: apply andb_true_iff in H as [H H3]; apply andb_true_iff in H as [H1 H2]; apply negb_true_iff in H3.
  all: rewrite <- app_assoc; cbn [app].
  1: eapply G_conj. 3: eapply G_disj.
  all: apply gram_operand; auto.
  1, 3: destruct x; cbn; intros; (discriminate || lia).
  all: destruct y; cbn; intros; (discriminate || lia).
Qed.

Theorem parse_toks_roundtrip : forall e, nf e = true -> parse_toks (toks e) = Some e.
Proof.
  intros e H. apply parse_toks_gram, (gram_le (lvl_of e)); [destruct e; cbn; lia|].
  rewrite <- (app_nil_r (toks e)) at 1. apply toks_gram, H.
Qed.

Definition LexOK (s : string) (ts : list tok) : Prop :=
  forall n, String.length s <= n -> lex_fuel n s = Some ts.

(* s is empty or starts with a character that ends a tag *)
Definition cont_ok (s : string) : Prop :=
  match s with EmptyString => True | String c _ => is_tag_char c = false end.

Lemma LexOK_nil : LexOK "" [].
Proof. intros [|n] _; reflexivity. Qed.

(* a fixed piece of text that the lexer turns into one token in k steps: "(", ")", "!" in one, " && ", " || " in three *)
Lemma LexOK_step : forall k s t,
  (forall n r, lex_fuel (k + n) (s ++ r) = option_map (cons t) (lex_fuel n r)) -> k <= String.length s ->
  forall r ts, LexOK r ts -> LexOK (s ++ r) (t :: ts).
Proof.
  intros k s t Hs Hk r ts H n Hn. rewrite slen_app in Hn.
  replace n with (k + (n - k)) by lia. rewrite Hs, H by lia. reflexivity.
Qed.

Lemma tag_char_not_special : forall c, is_tag_char c = true ->
  is_blank c = false /\ Ascii.eqb c "(" = false /\ Ascii.eqb c ")" = false /\
  Ascii.eqb c "!" = false /\ Ascii.eqb c "&" = false /\ Ascii.eqb c "|" = false.
Proof.
  intros c H. unfold is_blank. rewrite orb_false_iff.
  repeat split; apply (class_neq is_tag_char c _ H); reflexivity.
Qed.

Lemma span_tag_app : forall t r, all_tag_chars t = true -> cont_ok r -> span_tag (t ++ r) = (t, r).
Proof.
  induction t as [|c t IH]; intros r Ht Hr.
  - cbn [String.append]. destruct r as [|d r]; [reflexivity|]. cbn [span_tag]. cbn [cont_ok] in Hr. rewrite Hr. reflexivity.
  - cbn [all_tag_chars] in Ht. apply andb_true_iff in Ht. destruct Ht as [Hc Ht].
    cbn [String.append span_tag]. rewrite Hc, (IH r Ht Hr). reflexivity.
Qed.

Lemma LexOK_tag : forall t r ts, valid_tag t = true -> cont_ok r -> LexOK r ts -> LexOK (t ++ r) (TTag t :: ts).
Proof.
  intros t r ts Hv Hr H n Hn. unfold valid_tag in Hv. apply andb_true_iff in Hv. destruct Hv as [Hne Ht].
  destruct t as [|c t]; [discriminate|]. clear Hne.
  pose proof (span_tag_app _ r Ht Hr) as Sp.
  cbn [all_tag_chars] in Ht. apply andb_true_iff in Ht. destruct Ht as [Hc Ht].
  destruct (tag_char_not_special c Hc) as (B & E1 & E2 & E3 & E4 & E5).
  rewrite slen_app in Hn. cbn [String.length] in Hn. destruct n as [|n]; [lia|].
  cbn [String.append] in *. cbn [lex_fuel]. rewrite B, E1, E2, E3, E4, E5, Sp.
  rewrite H by lia. reflexivity.
Qed.

(* [LexOK] in continuation form; what follows [s] must not prolong a tag that ends [s] *)
Definition LexK (s : string) (ts : list tok) : Prop :=
  forall k kt, cont_ok k -> LexOK k kt -> LexOK (s ++ k) (ts ++ kt)%list.

Lemma LexK_paren : forall b s ts, LexK s ts -> LexK (paren b s) (tparen b ts).
Proof.
  intros [|] s ts H; [|exact H]. intros k kt Hk Hl. cbn [paren tparen].
  change ("(" ++ s ++ ")") with (String "(" (s ++ ")")).
  cbn [String.append app]. rewrite sapp_assoc, <- app_assoc.
  apply (LexOK_step 1 "("); [reflexivity | apply le_n |]. apply H; [exact eq_refl|].
  apply (LexOK_step 1 ")"); [reflexivity | apply le_n | exact Hl].
Qed.

Lemma lex_print_gen : forall e, tags_valid e = true -> LexK (print e) (toks e).
Proof.
  induction e as [t|x IH|x IHx y IHy|x IHx y IHy]; cbn [tags_valid]; intros Hv.
  1:{ (* tag *) intros k kt Hk Hl. cbn [print toks app]. apply LexOK_tag; assumption. }
  1:{ (* ! *) intros k kt Hk Hl. cbn [print toks].
      change ("!" ++ paren (is_and x || is_or x) (print x)) with (String "!" (paren (is_and x || is_or x) (print x))).
      cbn [String.append app]. apply (LexOK_step 1 "!"); [reflexivity | apply le_n |]. apply LexK_paren; [apply IH; exact Hv | exact Hk | exact Hl]. }
  (* && and ||: left operand, operator, right operand *)
  all: apply andb_true_iff in Hv as [H1 H2]; intros k kt Hk Hl; cbn [print toks]; rewrite sapp_assoc, <- app_assoc.
  all: apply LexK_paren; [apply IHx; exact H1 | exact eq_refl |]; rewrite sapp_assoc; cbn [app].
  all: (apply (LexOK_step 3 " && ") || apply (LexOK_step 3 " || ")); [reflexivity | apply le_S, le_n |]; apply LexK_paren; [apply IHy; exact H2 | exact Hk | exact Hl].
Qed.

Theorem lex_print : forall e, tags_valid e = true -> lex (print e) = Some (toks e).
Proof.
  intros e Hv. pose proof (lex_print_gen e Hv "" [] I LexOK_nil) as H.
  rewrite sapp_nil_r, app_nil_r in H. unfold lex. apply H. lia.
Qed.

(* The statement "parse_toks ts = Some e -> nf e = true" does NOT hold: an operand
   in parentheses is returned as it is, so "!(!a)" gives Not (Not a) and
   "a && (b && c)" gives And a (And b c). *)
Theorem parse_toks_nf_refuted : ~ (forall ts e, parse_toks ts = Some e -> nf e = true).
Proof.
  intros H.
  specialize (H [TNot; TLp; TNot; TTag "a"; TRp] (Not (Not (Tag "a"))) eq_refl). discriminate.
Qed.

Theorem parse_toks_nf_refuted_and : exists ts e, parse_toks ts = Some e /\ nf e = false /\
  ts = [TTag "a"; TAnd; TLp; TTag "b"; TAnd; TTag "c"; TRp].
Proof.
  exists [TTag "a"; TAnd; TLp; TTag "b"; TAnd; TTag "c"; TRp], (And (Tag "a") (And (Tag "b") (Tag "c"))).
  split; [reflexivity|]. split; reflexivity.
Qed.

(* consequences for Expr.String: the text printed for a parsed expression need not
   parse again, and when it does it may parse to a different tree *)
Theorem print_parse_not_retraction : exists s x,
  parse_expr s = Some x /\ parse_expr (print x) = None.
Proof. exists "!(!a)", (Not (Not (Tag "a"))). split; vm_compute; reflexivity. Qed.

Theorem print_of_parsed_may_reparse_differently : exists s e e',
  parse_expr s = Some e /\ parse_expr (print e) = Some e' /\ e <> e'.
Proof.
  exists "a && (b && c)", (And (Tag "a") (And (Tag "b") (Tag "c"))), (And (And (Tag "a") (Tag "b")) (Tag "c")).
  split; [vm_compute; reflexivity|]. split; [vm_compute; reflexivity | discriminate].
Qed.

(* what does hold: without parentheses the result is a normal form *)
Definition nolp (t : tok) : bool := match t with TLp => false | _ => true end.
Definition np (ts : list tok) : bool := forallb nolp ts.

(* without "(" no rule re-enters a lower level from a higher one, and a derivation at level l
   yields a normal form whose own level is at most l; the rest has no "(" either, which is what the
   operand after an operator needs *)
Lemma gram_np : forall l ts x r, gram l ts x r -> np ts = true ->
  nf x = true /\ rank (lvl_of x) <= rank l /\ np r = true.
Proof.
  unfold np.
  induction 1 as [s r|ts x r _ IH|ts x r _ IH|ts x r _ IH|ts x r _ IH|ts x ts' y r _ IHx _ IHy
                  |ts x r _ IH|ts x ts' y r _ IHx _ IHy];
    intros Hnp;
    (* G_atom, G_not, G_and only raise the level *)
    try (destruct (IH Hnp) as (N & R & P); split; [exact N | split; [cbn in *; lia | exact P]]).
  1: (* tag *) split; [reflexivity | split; [apply le_n | exact Hnp]].
  1: (* "(" *) discriminate.
  1:{ (* ! *) destruct (IH Hnp) as (N & R & P). destruct x; cbn in R; try lia. split; [reflexivity | split; [apply le_n | exact P]]. }
  (* && and || *)
  all: destruct (IHx Hnp) as (Nx & _ & Px), (IHy Px) as (Ny & Ry & P); cbn [nf]; rewrite Nx, Ny.
  all: destruct y; cbn in Ry; try lia; repeat split; (reflexivity || apply le_n || exact P).
Qed.
