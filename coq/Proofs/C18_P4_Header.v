(* C18 — go/build's shouldBuild on the TEXT of a rendered header equals the
   structured semantics ([should_build_text_render]; its right-hand side is the body of Model/C18_Build.v
   should_build, the link to the model is made in Props/C18.v, C18_classify_text_render).

   The two parser facts it needs (the first assembled in Props/C18.v, the second in C18_P4_Constraint.v) are
   section hypotheses, so that this file does not depend on the parser proofs:
     RT : forall e, nf e = true -> tags_valid e = true -> parse_expr (print e) = Some e
     PE : forall sat text, eval sat (parse_plus_expr text) = pline_ok sat (plus_pline text) *)
From Coq Require Import List String Ascii Bool.
From Verif Require Import Model.C18_Build Model.C18_Constraint Model.C18_ConstraintNF Proofs.C18_Strings.
Import ListNotations.
Local Open Scope string_scope.

Definition nsp (c : ascii) : bool := negb (is_space c).
Definition nonl (l : string) : Prop := contains_char nl l = false.

Lemma all_tag_allc : forall s, all_tag_chars s = allc is_tag_char s.
Proof. induction s; cbn [all_tag_chars allc]; congruence. Qed.

Lemma tag_nsp : forall c, is_tag_char c = true -> nsp c = true.
Proof. destruct c as [[] [] [] [] [] [] [] []]; (reflexivity || (intro H; discriminate H)). Qed.

Definition ltrimmed (s : string) : Prop :=
  match s with String c _ => is_space c = false | EmptyString => False end.
Definition rtrimmed (s : string) : Prop := trim_right s = s /\ s <> "".

(* text that strings.TrimSpace leaves as it is and that lies on one line: what every
   rendered line, and every piece a line is cut into again, has to be *)
Definition tidy (s : string) : Prop := ltrimmed s /\ rtrimmed s /\ nonl s.

Lemma ltrimmed_app : forall a b, ltrimmed a -> ltrimmed (a ++ b).
Proof. destruct a; cbn [append ltrimmed]; tauto. Qed.

Lemma rtrimmed_app : forall a b, rtrimmed b -> rtrimmed (a ++ b).
Proof.
  intros a b [Hb Hn]. induction a; cbn [append]; [split; assumption|].
  destruct IHa as [IH1 IH2]. split; [|discriminate].
  cbn [trim_right]. rewrite IH1. destruct (a0 ++ b); [congruence|reflexivity].
Qed.

Lemma tidy_app : forall a m b, tidy a -> nonl m -> tidy b -> tidy (a ++ m ++ b).
Proof.
  intros a m b (La & _ & Na) Nm (_ & Rb & Nb). split; [apply ltrimmed_app, La|]. split; [apply rtrimmed_app, rtrimmed_app, Rb|].
  unfold nonl in *. rewrite !contains_char_app, Na, Nm, Nb. reflexivity.
Qed.

Lemma tidy_word : forall w, allc nsp w = true -> w <> "" -> tidy w.
Proof.
  intros w H N. split; [|split; [|exact (allc_free nsp nl w eq_refl H)]].
  - destruct w as [|c w]; [congruence|]. cbn [allc] in H. apply andb_true_iff in H as [H _].
    apply negb_true_iff in H. exact H.
  - induction w as [|c w IH]; [congruence|]. cbn [allc] in H. apply andb_true_iff in H as [H1 H2].
    destruct w as [|d w].
    + split; [|discriminate]. cbn [trim_right]. apply negb_true_iff in H1. rewrite H1. reflexivity.
    + apply (rtrimmed_app (String c "")), IH; [exact H2 | discriminate].
Qed.

Lemma trim_space_tidy : forall s, tidy s -> trim_space s = s.
Proof.
  intros s (Hl & [Hr _] & _). unfold trim_space. destruct s as [|c s]; [contradiction|].
  cbn [ltrimmed] in Hl. cbn [trim_left]. rewrite Hl. exact Hr.
Qed.

Lemma has_suffix_nl : forall l, nonl l -> has_suffix (String nl "") l = false.
Proof.
  intros l H. apply not_true_is_false. intros E. apply has_suffix_iff in E as [p ->].
  unfold nonl in H. rewrite contains_char_app in H. cbn in H. rewrite orb_true_r in H. discriminate.
Qed.

Lemma one_line_id : forall l, nonl l -> one_line l = Some l.
Proof. intros l H. unfold one_line. rewrite (has_suffix_nl _ H), H. reflexivity. Qed.

Lemma split_on_ne : forall sep s, split_on sep s <> [].
Proof. exact split_on_nonempty. Qed.

Lemma valid_tag_props : forall t, valid_tag t = true -> allc is_tag_char t = true /\ t <> "".
Proof.
  intros t H. unfold valid_tag in H. apply andb_true_iff in H. destruct H as [H1 H2].
  rewrite all_tag_allc in H2. split; [assumption|]. intros ->. discriminate.
Qed.

Lemma tidy_paren : forall b s, tidy s -> tidy (paren b s).
Proof.
  intros [|] s H; [|exact H].
  apply (tidy_app "(" s ")"); [| apply H |]; apply tidy_word; (reflexivity || discriminate).
Qed.

Lemma print_tidy : forall e, tags_valid e = true -> tidy (print e).
Proof.
  induction e as [t|x IH|x IHx y IHy|x IHx y IHy]; cbn [tags_valid print]; intros H.
  1:{ destruct (valid_tag_props _ H) as [H1 H2]. apply tidy_word; [exact (allc_impl _ _ _ tag_nsp H1) | exact H2]. }
  1:{ apply (tidy_app "!" ""); [apply tidy_word; [reflexivity | discriminate] | reflexivity | apply tidy_paren, IH, H]. }
  all: apply andb_true_iff in H as [H1 H2].
  all: apply tidy_app; [apply tidy_paren, IHx, H1 | reflexivity | apply tidy_paren, IHy, H2].
Qed.

Definition cline (l : string) : Prop := tidy l /\ exists r, l = String "/" (String "/" r).

Definition cmt (l : string) : Prop := cline l /\ is_go_build_comment l = false.

Definition gbline (p : string) : string := "//go:build " ++ p.

Lemma gb_tidy : forall p, tidy p -> tidy (gbline p).
Proof.
  intros p H. apply (tidy_app "//go:build" " " p); [apply tidy_word; [reflexivity | discriminate] | reflexivity | exact H].
Qed.

Lemma gb_cline : forall p, tidy p -> cline (gbline p).
Proof. intros p H. split; [apply gb_tidy, H | eexists; reflexivity]. Qed.

Lemma gb_split : forall p, tidy p -> split_go_build (gbline p) = Some p.
Proof.
  intros p H. pose proof (gb_tidy p H) as G. unfold split_go_build.
  rewrite (one_line_id _ (proj2 (proj2 G))), (trim_space_tidy _ G).
  change (strip_prefix "//go:build" (gbline p)) with (Some (String " " p)). cbv beta iota.
  change (Some (trim_space p) = Some p). rewrite (trim_space_tidy _ H). reflexivity.
Qed.

Definition word (w : string) : Prop := allc nsp w = true /\ w <> "".

Definition ptext (W : list string) : string := concat_strings (map (fun w => " " ++ w) W).
Definition clause_text (cl : list pterm) : string := join_with "," (map term_text cl).
Definition plusline (X : string) : string := "// +build" ++ X.

Lemma pline_text_eq : forall l, pline_text l = plusline (ptext (map clause_text l)).
Proof. intros l. unfold pline_text, plusline, ptext. rewrite map_map. reflexivity. Qed.

Lemma ptext_cons : forall w W, ptext (w :: W) = String " " (w ++ ptext W).
Proof. reflexivity. Qed.

Lemma tidy_ptext : forall W a, Forall word W -> tidy a -> tidy (a ++ ptext W).
Proof.
  intros W a H. revert a. induction H as [|w W [H1 H2] _ IH]; intros a Ha; [rewrite sapp_nil_r; exact Ha|].
  rewrite ptext_cons. change (String " " (w ++ ptext W)) with (" " ++ w ++ ptext W).
  rewrite <- (sapp_assoc " " w), <- (sapp_assoc a).
  apply IH, tidy_app; [exact Ha | reflexivity | apply tidy_word; assumption].
Qed.

Lemma plus_tidy : forall W, Forall word W -> tidy (plusline (ptext W)).
Proof.
  intros W H. apply tidy_ptext; [exact H|].
  apply (tidy_app "//" " " "+build"); try reflexivity; apply tidy_word; (reflexivity || discriminate).
Qed.

(* the text go/build hands to parsePlusBuildExpr *)
Definition ptrim (W : list string) : string :=
  match W with [] => "" | w :: W' => w ++ ptext W' end.

Lemma after_kw_ptext : forall W, Forall word W -> after_keyword (ptext W) = Some (ptrim W).
Proof.
  intros W H. destruct H as [|w W [H1 H2] H]; [reflexivity|].
  rewrite ptext_cons. change (after_keyword (String " " (w ++ ptext W))) with (Some (trim_space (w ++ ptext W))).
  cbn [ptrim]. f_equal. apply trim_space_tidy, tidy_ptext; [exact H | apply tidy_word; assumption].
Qed.

Lemma plus_split_ptext : forall W, Forall word W -> split_plus_build (plusline (ptext W)) = Some (ptrim W).
Proof.
  intros W H. pose proof (plus_tidy W H) as T. unfold split_plus_build. rewrite (one_line_id _ (proj2 (proj2 T))).
  change (strip_prefix "//" (plusline (ptext W))) with (Some (String " " ("+build" ++ ptext W))).
  cbv beta iota. change (trim_space (String " " ("+build" ++ ptext W))) with (trim_space ("+build" ++ ptext W)).
  rewrite trim_space_tidy by (apply tidy_ptext; [exact H | apply tidy_word; [reflexivity | discriminate]]).
  apply after_kw_ptext, H.
Qed.

Lemma plus_split_gb : forall W, Forall word W -> split_go_build (plusline (ptext W)) = None.
Proof. intros W H. unfold split_go_build. rewrite (one_line_id _ (proj2 (proj2 (plus_tidy W H)))). reflexivity. Qed.

Lemma fields_aux_word : forall w cur s, allc nsp w = true -> fields_aux cur (w ++ s) = fields_aux (cur ++ w) s.
Proof.
  induction w; intros cur s H; cbn [append].
  - rewrite sapp_nil_r. reflexivity.
  - cbn [allc] in H. apply andb_true_iff in H. destruct H as [H1 H2].
    cbn [fields_aux]. unfold nsp in H1. destruct (is_space a); [discriminate|].
    rewrite (IHw _ _ H2). rewrite sapp_assoc. reflexivity.
Qed.

Lemma fields_aux_ptext : forall W cur, Forall word W -> cur <> "" -> fields_aux cur (ptext W) = cur :: W.
Proof.
  induction W; intros cur H Hc.
  - cbn. destruct cur; [congruence|reflexivity].
  - inversion H as [|? ? [H1 H2] H3]; subst. rewrite ptext_cons.
    change (fields_aux cur (String " " (a ++ ptext W)))
      with (match cur with "" => fields_aux "" (a ++ ptext W) | _ => cur :: fields_aux "" (a ++ ptext W) end).
    rewrite (fields_aux_word _ _ _ H1). cbn [append]. rewrite (IHW _ H3 H2).
    destruct cur; [congruence|reflexivity].
Qed.

Lemma fields_ptrim : forall W, Forall word W -> fields (ptrim W) = W.
Proof.
  intros W H. destruct H as [|w W [H1 H2] H]; [reflexivity|].
  unfold fields. cbn [ptrim]. rewrite (fields_aux_word _ _ _ H1). cbn [append].
  apply fields_aux_ptext; assumption.
Qed.

Lemma term_text_props : forall t : pterm, valid_tag (snd t) = true ->
  allc nsp (term_text t) = true /\ contains_char "," (term_text t) = false /\ term_text t <> "".
Proof.
  intros [b w] H. cbn [snd] in H. destruct (valid_tag_props _ H) as [H1 H2].
  unfold term_text. cbn [fst snd]. rewrite allc_app, contains_char_app.
  rewrite (allc_impl _ _ _ tag_nsp H1), (allc_free is_tag_char "," w eq_refl H1).
  destruct b; (split; [reflexivity|split; [reflexivity|]]); [discriminate|exact H2].
Qed.

Lemma plus_term_text : forall t : pterm, valid_tag (snd t) = true -> plus_term (term_text t) = t.
Proof.
  intros [b w] H. cbn [snd] in H. destruct (valid_tag_props _ H) as [H1 H2].
  destruct w as [|c r]; [congruence|]. cbn [allc] in H1. apply andb_true_iff in H1. destruct H1 as [Hc _].
  assert (Hb : Ascii.eqb "!" c = false) by (rewrite Ascii.eqb_sym; exact (class_neq is_tag_char c "!" Hc eq_refl)).
  unfold term_text. cbn [fst snd]. destruct b; cbn [append]; unfold plus_term, has_prefix.
  - cbn [prefix strip_prefix String.eqb]. 
    destruct (ascii_dec "!" c) as [E|E]; [subst c; discriminate Hb|].
    destruct (ascii_dec "!" "!") as [_|E']; [|congruence].
    cbn [orb]. rewrite Ascii.eqb_refl. rewrite H. reflexivity.
  - cbn [prefix strip_prefix String.eqb].
    destruct (ascii_dec "!" c) as [E|E]; [subst c; discriminate Hb|].
    rewrite Ascii.eqb_sym, Hb. cbn [orb]. rewrite H. reflexivity.
Qed.

Lemma join_allc : forall p ws, p ","%char = true -> Forall (fun w => allc p w = true) ws ->
  allc p (join_with "," ws) = true.
Proof.
  intros p ws Hp H. induction H as [|w ws Hw H IH]; [reflexivity|].
  cbn [join_with]. destruct ws; [exact Hw|].
  rewrite !allc_app, Hw, IH. cbn [allc]. rewrite Hp. reflexivity.
Qed.

Definition clause_valid (cl : list pterm) : Prop :=
  cl <> [] /\ Forall (fun t : pterm => valid_tag (snd t) = true) cl.

Lemma clause_word : forall cl, clause_valid cl -> word (clause_text cl).
Proof.
  intros cl [Hn H]. unfold clause_text. split.
  - apply join_allc; [reflexivity|]. apply Forall_map.
    eapply Forall_impl; [|exact H]. intros t Ht. apply (term_text_props t Ht).
  - destruct cl as [|t cl]; [congruence|]. inversion H; subst.
    cbn [map join_with]. destruct (map term_text cl).
    + apply (term_text_props t); assumption.
    + apply app_not_nil. apply (term_text_props t); assumption.
Qed.

Lemma clause_roundtrip : forall cl, clause_valid cl ->
  map plus_term (split_on "," (clause_text cl)) = cl.
Proof.
  intros cl [Hn H]. unfold clause_text. rewrite (split_join ",").
  - rewrite map_map. rewrite <- (map_id cl) at 2. apply map_ext_Forall.
    eapply Forall_impl; [|exact H]. exact plus_term_text.
  - destruct cl; [congruence|discriminate].
  - apply Forall_map. eapply Forall_impl; [|exact H]. intros t Ht. apply (term_text_props t Ht).
Qed.

Lemma pline_valid_clauses : forall l, pline_valid l = true -> Forall clause_valid l.
Proof.
  intros l H. unfold pline_valid in H. rewrite forallb_forall in H. apply Forall_forall.
  intros cl Hc. specialize (H _ Hc). apply andb_true_iff in H. destruct H as [H1 H2]. split.
  - intros ->. discriminate.
  - apply Forall_forall. rewrite forallb_forall in H2. exact H2.
Qed.

Lemma pline_words : forall l, pline_valid l = true -> Forall word (map clause_text l).
Proof.
  intros l H. apply Forall_map. eapply Forall_impl; [|apply pline_valid_clauses; exact H]. exact clause_word.
Qed.

Lemma plus_pline_roundtrip : forall l, pline_valid l = true ->
  plus_pline (ptrim (map clause_text l)) = l.
Proof.
  intros l H. unfold plus_pline. rewrite (fields_ptrim _ (pline_words _ H)).
  rewrite map_map. rewrite <- (map_id l) at 2. apply map_ext_Forall.
  eapply Forall_impl; [|apply pline_valid_clauses; exact H]. exact clause_roundtrip.
Qed.

Lemma pline_text_cmt : forall l, pline_valid l = true -> cmt (pline_text l).
Proof.
  intros l H. rewrite pline_text_eq.
  split; [split; [apply plus_tidy, pline_words, H | eexists; reflexivity] | reflexivity].
Qed.

Definition render (ls : list string) : string :=
  fold_right (fun l acc => l ++ String nl acc) EmptyString ls.

Lemma split_render : forall ls, Forall nonl ls ->
  split_on nl (render ls) = (ls ++ [""])%list.
Proof.
  intros ls H. induction H as [|l ls Hl H IH]; [reflexivity|].
  cbn [render fold_right]. fold (render ls). rewrite split_on_app, (split_on_free _ _ Hl), IH. reflexivity.
Qed.

Lemma go_lines_render : forall ls, Forall nonl ls ->
  go_lines (render ls) = ls.
Proof.
  intros ls H. unfold go_lines. rewrite (split_render _ H). rewrite rev_app_distr.
  cbn [rev app]. apply rev_involutive.
Qed.

Definition st (seen allowed : list string) (gb : option string) : hstate :=
  {| h_seen := seen; h_allowed := allowed; h_ended := false; h_star := false; h_gobuild := gb |}.

Lemma has_prefix_ss : forall r, has_prefix "//" (String "/" (String "/" r)) = true.
Proof.
  intros r. unfold has_prefix. cbn [prefix].
  destruct (ascii_dec "/" "/") as [_|E]; [destruct r; reflexivity|congruence].
Qed.

Lemma comment_scan_ss : forall n r, comment_scan (S n) false (String "/" (String "/" r)) = Some false.
Proof.
  intros n r. cbn [comment_scan]. rewrite has_prefix_ss. reflexivity.
Qed.

(* a trimmed // line: recorded, and remembered if it is the (first) //go:build line *)
Lemma step_cline : forall seen allowed gb l, cline l -> (is_go_build_comment l = true -> gb = None) ->
  header_step (st seen allowed gb) l =
  HGo (st (l :: seen) allowed (if is_go_build_comment l then Some l else gb)).
Proof.
  intros seen allowed gb l [Ht [r ->]] Hg. unfold header_step, st.
  cbv zeta. cbn [h_seen h_allowed h_ended h_star h_gobuild].
  rewrite (trim_space_tidy _ Ht), has_prefix_ss, comment_scan_ss.
  destruct (is_go_build_comment _); [rewrite Hg by reflexivity|]; reflexivity.
Qed.

Lemma step_blank : forall seen allowed gb,
  header_step (st seen allowed gb) "" = HGo (st ("" :: seen) ("" :: seen) gb).
Proof. reflexivity. Qed.

Lemma step_pkg : forall seen allowed gb,
  header_step (st seen allowed gb) "package p" =
  HStop {| h_seen := seen; h_allowed := allowed; h_ended := true; h_star := false; h_gobuild := gb |}.
Proof. intros. vm_compute. destruct gb; reflexivity. Qed.

Lemma loop_comments : forall cs seen allowed gb rest, Forall cmt cs ->
  header_loop (st seen allowed gb) (cs ++ rest) = header_loop (st (rev cs ++ seen) allowed gb) rest.
Proof.
  induction cs; intros seen allowed gb rest H; [reflexivity|].
  inversion H as [|? ? [H1 H2] H3]; subst.
  cbn [app header_loop]. rewrite (step_cline _ _ _ _ H1), H2 by congruence. rewrite (IHcs _ _ _ _ H3).
  cbn [rev]. rewrite <- app_assoc. reflexivity.
Qed.

Definition optl (g : option string) : list string := match g with Some x => [x] | None => [] end.

Definition gb_ok (g : option string) : Prop :=
  match g with Some gl => cline gl /\ is_go_build_comment gl = true | None => True end.

Lemma loop_head : forall g ps tail, gb_ok g -> Forall cmt ps ->
  header_loop (st [] [] None) (optl g ++ ps ++ tail) = header_loop (st (rev (optl g ++ ps)) [] g) tail.
Proof.
  intros g ps tail Hg Hp. destruct g as [gl|]; cbn [optl app].
  - destruct Hg as [H1 H2]. cbn [header_loop]. rewrite (step_cline _ _ None _ H1), H2 by reflexivity.
    rewrite (loop_comments _ _ _ _ _ Hp). cbn [rev]. reflexivity.
  - rewrite (loop_comments _ _ _ _ _ Hp). rewrite app_nil_r. reflexivity.
Qed.

(* the blank line that detaches a non-empty comment block from the package clause *)
Definition sep (ls : list string) (detached : bool) : list string :=
  match ls with [] => [] | _ => if detached then [""] else [] end.

(* only with that blank line are the comment lines kept as the place for +build lines *)
Lemma parse_header_render : forall g ps detached,
  gb_ok g -> Forall cmt ps ->
  parse_file_header (render ((optl g ++ ps) ++ sep (optl g ++ ps) detached ++ ["package p"])) =
  Some (match sep (optl g ++ ps) detached with [] => [] | _ => (optl g ++ ps) ++ [""] end, g)%list.
Proof.
  intros g ps detached Hg Hp. unfold parse_file_header. fold (st [] [] None).
  assert (Hs : sep (optl g ++ ps) detached = [] \/ sep (optl g ++ ps) detached = [""])
    by (unfold sep; destruct (optl g ++ ps)%list, detached; auto).
  rewrite go_lines_render.
  2:{ (* every comment line is tidy, so none holds a newline *)
      apply Forall_app. split; [|destruct Hs as [-> | ->]; repeat constructor].
      apply Forall_app. split; [destruct g; repeat constructor; apply Hg | eapply Forall_impl; [|exact Hp]; intros l Hl; apply Hl]. }
  rewrite <- app_assoc, (loop_head _ _ _ Hg Hp).
  destruct Hs as [-> | ->]; cbn [app header_loop].
  - rewrite step_pkg. reflexivity.
  - rewrite step_blank, step_pkg. cbn [h_allowed h_gobuild rev]. rewrite rev_involutive. reflexivity.
Qed.

Lemma render_header_eq : forall gb plus detached,
  render_header gb plus detached =
  render ((optl (option_map (fun x => gbline (print x)) gb) ++ map pline_text plus) ++
          sep (optl (option_map (fun x => gbline (print x)) gb) ++ map pline_text plus) detached ++ ["package p"]).
Proof.
  intros [x|] [|l plus] []; unfold render_header; cbn [option_map optl map app sep];
    rewrite <- ?app_assoc; reflexivity.
Qed.

Lemma plus_lines_cmt : forall plus, forallb pline_valid plus = true -> Forall cmt (map pline_text plus).
Proof.
  intros plus H. apply Forall_map, Forall_forall. intros l Il. apply pline_text_cmt, (proj1 (forallb_forall _ _) H), Il.
Qed.

Lemma is_plus_build_nil : is_plus_build "" = false.
Proof. reflexivity. Qed.

Section Header.

Hypothesis RT : forall e, nf e = true -> tags_valid e = true -> parse_expr (print e) = Some e.
Hypothesis PE : forall sat text, eval sat (parse_plus_expr text) = pline_ok sat (plus_pline text).

Lemma plus_line_eval : forall sat l, pline_valid l = true ->
  (if is_plus_build (pline_text l)
   then match parse_line (pline_text l) with Some x => eval sat x | None => true end
   else true) = pline_ok sat l.
Proof.
  intros sat l H. pose proof (pline_words _ H) as W. unfold is_plus_build, parse_line.
  rewrite pline_text_eq, (plus_split_gb _ W), (plus_split_ptext _ W), PE, (plus_pline_roundtrip _ H). reflexivity.
Qed.

Lemma plus_lines_eval : forall sat plus, forallb pline_valid plus = true ->
  forallb (fun line => if is_plus_build line
                       then match parse_line line with Some x => eval sat x | None => true end
                       else true) (map pline_text plus) = forallb (pline_ok sat) plus.
Proof.
  induction plus as [|l plus IH]; cbn [forallb map]; intros H; [reflexivity|].
  apply andb_true_iff in H. destruct H as [H1 H2].
  rewrite (plus_line_eval _ _ H1), (IH H2). reflexivity.
Qed.

Theorem should_build_text_render : forall sat gb plus detached,
  (match gb with Some x => nf x = true /\ tags_valid x = true | None => True end) ->
  forallb pline_valid plus = true ->
  should_build_text sat (render_header gb plus detached) =
  Some (match gb with
        | Some x => eval sat x
        | None => if detached then forallb (pline_ok sat) plus else true
        end).
Proof.
  intros sat gb plus detached Hg Hp. rewrite render_header_eq.
  pose proof (plus_lines_cmt _ Hp) as A. unfold should_build_text.
  destruct gb as [x|]; cbn [option_map].
  - (* the //go:build line is found and parses back to x *)
    destruct Hg as [Hn Ht]. pose proof (print_tidy _ Ht) as P.
    rewrite parse_header_render.
    + unfold parse_line. rewrite (gb_split _ P), (RT _ Hn Ht). reflexivity.
    + split; [apply gb_cline; exact P | reflexivity].
    + exact A.
  - (* the +build lines are kept only with the blank line after them, which adds nothing *)
    rewrite parse_header_render; [|exact I|exact A].
    cbn [optl app]. destruct plus as [|l plus], detached; try reflexivity.
    cbn [map sep]. rewrite <- (plus_lines_eval sat (l :: plus) Hp).
    cbn [map]. rewrite forallb_app. cbn [forallb]. rewrite is_plus_build_nil.
    rewrite !andb_true_r. reflexivity.
Qed.

End Header.
