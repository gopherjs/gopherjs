(* C18 — the file-name rule of go/build (goodOSArchFile, mirrored by
   name_tags) is equal, for EVERY file name, to the independent suffix
   specification of Model/C18_NameSpec.v, and to a propositional, text-level
   form of the go/build documentation (no split, no reversal).
   All statements are over unbounded strings (induction), the only facts taken
   from the generated tables are checked by computation below. *)
From Coq Require Import List String Ascii Bool Arith.
From Verif Require Import Gen.C18_BuildEnv Model.C18_Build Model.C18_NameSpec Proofs.C18_Strings Proofs.C18_Build.
Import ListNotations.
Local Open Scope string_scope.

Lemma nm_tbl_free :
  forallb (fun x => negb (contains_char "_" x)) (known_os ++ known_arch)%list = true.
Proof. vm_compute. reflexivity. Qed.

Lemma nm_tbl_nonempty : known_os_b "" = false /\ known_arch_b "" = false.
Proof. vm_compute. split; reflexivity. Qed.

Lemma nm_known_free : forall x, In x (known_os ++ known_arch)%list -> contains_char "_" x = false.
Proof.
  intros x H. pose proof nm_tbl_free as T. rewrite forallb_forall in T.
  specialize (T x H). apply negb_true_iff in T. exact T.
Qed.

Lemma nm_known_or : forall x, In x (known_os ++ known_arch)%list <-> known_os_b x || known_arch_b x = true.
Proof.
  intros x. unfold known_os_b, known_arch_b. rewrite in_app_iff, orb_true_iff, !mem_In. tauto.
Qed.

(* the two suffix tests of the specification, read off the "_"-split of the stem
   (its elements after the first, last one first) *)
Lemma nm_one_tail : forall b x, In x (known_os ++ known_arch)%list ->
  (has_suffix ("_" ++ x) b = true <-> exists R, rev (tl (split_on "_" b)) = x :: R).
Proof.
  intros b x H. apply (suffix_tail "_" [x]); [discriminate|].
  repeat constructor. apply nm_known_free. exact H.
Qed.

Lemma nm_two_tail : forall b o a, In o known_os -> In a known_arch ->
  (has_suffix ("_" ++ o ++ "_" ++ a) b = true <-> exists R, rev (tl (split_on "_" b)) = a :: o :: R).
Proof.
  intros b o a Ho Ha. apply (suffix_tail "_" [o; a]); [discriminate|].
  repeat constructor; apply nm_known_free, in_or_app; auto.
Qed.

(* the final case analysis of goodOSArchFile on the reversed element list *)
Definition pick (R : list string) : list string :=
  match R with
  | a :: o :: _ =>
      if known_os_b o && known_arch_b a then [a; o]
      else if known_os_b a || known_arch_b a then [a]
      else []
  | [a] => if known_os_b a || known_arch_b a then [a] else []
  | [] => []
  end.

Definition strip (l : list string) : list string :=
  match rev l with
  | x :: r => if x =? "test" then rev r else l
  | [] => l
  end.

(* the same on the reversed list: drop a leading "test" *)
Definition untest (R : list string) : list string :=
  match R with
  | x :: r => if x =? "test" then r else R
  | [] => []
  end.

Lemma nm_name_tags_unf : forall name,
  name_tags name = match from_first_us (cut_dot name) with
                   | None => []
                   | Some rest => pick (rev (strip (split_on "_" rest)))
                   end.
Proof. reflexivity. Qed.

Lemma nm_rev_strip : forall l, rev (strip l) = untest (rev l).
Proof.
  intros l. unfold strip. destruct (rev l) as [|x r] eqn:E; [exact E|].
  cbn [untest]. destruct (x =? "test"); [apply rev_involutive | exact E].
Qed.

Lemma nm_pick_snoc_empty : forall R, pick (R ++ [""])%list = pick R.
Proof.
  destruct nm_tbl_nonempty as [E1 E2].
  intros R. destruct R as [|a [|o R]]; cbn [app pick].
  - rewrite E1, E2. reflexivity.
  - rewrite E1. reflexivity.
  - reflexivity.
Qed.

Lemma nm_ffu_split : forall s,
  match from_first_us s with
  | None => tl (split_on "_" s) = []
  | Some rest => tl (split_on "_" s) <> [] /\ split_on "_" rest = "" :: tl (split_on "_" s)
  end.
Proof.
  induction s as [|d r IH]; cbn [from_first_us split_on]; [reflexivity|].
  destruct (Ascii.eqb d "_") eqn:E.
  - cbn [split_on tl]. rewrite E. split; [apply split_on_nonempty | reflexivity].
  - destruct (split_on_cons "_" r) as (h & t & Er). rewrite Er in *. exact IH.
Qed.

(* goodOSArchFile cuts at the first "_" and so sees an empty first element, which
   no table contains: the elements after the first of the whole split decide *)
Lemma nm_tags_tail : forall s,
  match from_first_us s with
  | None => []
  | Some rest => pick (rev (strip (split_on "_" rest)))
  end = pick (untest (rev (tl (split_on "_" s)))).
Proof.
  intros s. pose proof (nm_ffu_split s) as HF. destruct (from_first_us s) as [rest|].
  - destruct HF as [Ht ->]. rewrite nm_rev_strip.
    destruct (exists_last Ht) as (t' & x & ->). cbn [rev]. rewrite rev_unit. cbn [app untest].
    destruct (x =? "test"); [|change (x :: rev t' ++ [""])%list with ((x :: rev t') ++ [""])%list];
      apply nm_pick_snoc_empty.
  - rewrite HF. reflexivity.
Qed.

Lemma nm_substring_prefix : forall p s, substring 0 (String.length p) (p ++ s) = p.
Proof.
  induction p; intros; cbn [append String.length substring].
  - destruct s; reflexivity.
  - rewrite IHp; reflexivity.
Qed.

Lemma nm_drop_last_app : forall p suf, drop_last (String.length suf) (p ++ suf) = p.
Proof.
  intros. unfold drop_last. rewrite slen_app, Nat.add_sub. apply nm_substring_prefix.
Qed.

(* stripping one "_test" from the stem drops a last element "test" of its split *)
Lemma nm_stem_tail : forall b,
  rev (tl (split_on "_" (if has_suffix "_test" b then drop_last 5 b else b))) =
  untest (rev (tl (split_on "_" b))).
Proof.
  intros b. destruct (has_suffix "_test" b) eqn:E.
  - apply has_suffix_iff in E as [p ->].
    change 5 with (String.length "_test"). rewrite nm_drop_last_app.
    change "_test" with (String "_" "test"). rewrite split_on_app.
    change (split_on "_" "test") with ["test"].
    destruct (split_on_cons "_" p) as (h & t & ->). cbn [app tl]. rewrite rev_unit. reflexivity.
  - destruct (rev (tl (split_on "_" b))) as [|x r] eqn:ET; [reflexivity|].
    cbn [untest]. destruct (String.eqb_spec x "test") as [->|_]; [|reflexivity].
    assert (S : has_suffix "_test" b = true); [|congruence].
    apply (suffix_tail "_" ["test"]); [discriminate | repeat constructor | exists r; exact ET].
Qed.

Lemma nm_name_tags_parts : forall name,
  name_tags name = pick (rev (tl (split_on "_" (spec_stem name)))).
Proof.
  intros name. rewrite nm_name_tags_unf, nm_tags_tail. unfold spec_stem. rewrite nm_stem_tail. reflexivity.
Qed.

Definition spec_of_stem (b : string) : list string :=
  match find_os_arch b with
  | Some (o, a) => [a; o]
  | None => match find_one b with
            | Some x => [x]
            | None => []
            end
  end.

Lemma nm_spec_parts : forall b, spec_of_stem b = pick (rev (tl (split_on "_" b))).
Proof.
  intros b. unfold spec_of_stem, find_os_arch, find_one. set (T := rev (tl (split_on "_" b))).
  destruct (find _ (list_prod known_os known_arch)) as [[o a]|] eqn:F.
  - apply find_some in F as [Hin Hs]. apply in_prod_iff in Hin as [Ho Ha]. cbn [fst snd] in Hs.
    apply (nm_two_tail b o a Ho Ha) in Hs as [R E]. fold T in E. rewrite E. cbn [pick].
    unfold known_os_b, known_arch_b.
    rewrite (proj2 (mem_In o known_os) Ho), (proj2 (mem_In a known_arch) Ha). reflexivity.
  - pose proof (find_none _ _ F) as N2.
    (* no pair of the tables at the end of the split *)
    assert (K2 : forall a o R, T = a :: o :: R -> known_os_b o && known_arch_b a = false).
    { intros a o R E. apply not_true_is_false. intros K.
      apply andb_true_iff in K as [Ko Ka]. apply mem_In in Ko, Ka.
      specialize (N2 (o, a) (proj2 (in_prod_iff _ _ _ _) (conj Ko Ka))). cbn [fst snd] in N2.
      rewrite (proj2 (nm_two_tail b o a Ko Ka)) in N2 by (exists R; exact E). discriminate. }
    destruct (find _ (known_os ++ known_arch)%list) as [x|] eqn:G.
    + apply find_some in G as [Hin Hs]. apply (nm_one_tail b x Hin) in Hs as [R E]. fold T in E.
      apply nm_known_or in Hin. rewrite E. destruct R as [|o R]; cbn [pick].
      * rewrite Hin. reflexivity.
      * rewrite (K2 _ _ _ E), Hin. reflexivity.
    + pose proof (find_none _ _ G) as N1.
      assert (K1 : forall a R, T = a :: R -> known_os_b a || known_arch_b a = false).
      { intros a R E. apply not_true_is_false. intros K. apply nm_known_or in K.
        specialize (N1 a K). cbv beta in N1.
        rewrite (proj2 (nm_one_tail b a K)) in N1 by (exists R; exact E). discriminate. }
      destruct T as [|a [|o R]]; cbn [pick];
        [| rewrite (K1 _ _ eq_refl) | rewrite (K2 _ _ _ eq_refl), (K1 _ _ eq_refl)]; reflexivity.
Qed.

Theorem name_rule_eq_spec : forall name : string, name_tags name = spec_name_tags name.
Proof.
  intros name. rewrite nm_name_tags_parts.
  change (spec_name_tags name) with (spec_of_stem (spec_stem name)).
  symmetry. apply nm_spec_parts.
Qed.

(* the specification searches nothing but the two tables *)
Lemma name_tags_known : forall name t, In t (name_tags name) -> In t (known_os ++ known_arch)%list.
Proof.
  intros name t. rewrite name_rule_eq_spec. unfold spec_name_tags, find_os_arch, find_one.
  destruct (find _ (list_prod known_os known_arch)) as [[o a]|] eqn:F.
  - apply find_some in F as [F _]. apply in_prod_iff in F as [Ho Ha].
    intros [<-|[<-|[]]]; apply in_or_app; auto.
  - destruct (find _ (known_os ++ known_arch)%list) as [x|] eqn:G; [|intros []].
    apply find_some in G as [G _]. intros [<-|[]]. exact G.
Qed.

(* stem = the name up to the first "." *)
Definition stem_of (name stem : string) : Prop :=
  contains_char "." stem = false /\ (name = stem \/ exists r, name = stem ++ "." ++ r).

(* b = stem without one trailing "_test" *)
Definition untested (stem b : string) : Prop :=
  stem = b ++ "_test" \/ (b = stem /\ forall p, stem <> p ++ "_test").

Definition os_arch_form (b o a : string) : Prop :=
  exists p, b = p ++ "_" ++ o ++ "_" ++ a /\ In o known_os /\ In a known_arch.

Definition one_form (b x : string) : Prop :=
  exists p, b = p ++ "_" ++ x /\ In x (known_os ++ known_arch)%list.

Inductive name_requires (name : string) : list string -> Prop :=
| NR2 : forall stem b o a, stem_of name stem -> untested stem b -> os_arch_form b o a ->
        name_requires name [a; o]
| NR1 : forall stem b x, stem_of name stem -> untested stem b ->
        (forall o a, ~ os_arch_form b o a) -> one_form b x -> name_requires name [x]
| NR0 : forall stem b, stem_of name stem -> untested stem b ->
        (forall o a, ~ os_arch_form b o a) -> (forall x, ~ one_form b x) -> name_requires name [].

(* strings.Cut(name, "."): the first element of the split on "." *)
Lemma nm_cut_dot_hd : forall s, cut_dot s = hd "" (split_on "." s).
Proof.
  induction s as [|d r IH]; cbn [cut_dot split_on]; [reflexivity|].
  destruct (Ascii.eqb d "."); [reflexivity|].
  destruct (split_on_cons "." r) as (h & t & Er). rewrite Er in *. rewrite IH. reflexivity.
Qed.

Lemma nm_stem_of_iff : forall name stem, stem_of name stem <-> stem = cut_dot name.
Proof.
  intros name stem. rewrite nm_cut_dot_hd. split.
  - intros [Hf [->|[r ->]]].
    + rewrite (split_on_free _ _ Hf). reflexivity.
    + change ("." ++ r) with (String "." r). rewrite split_on_app, (split_on_free _ _ Hf). reflexivity.
  - intros ->. split; [apply split_on_hd_free|].
    pose proof (join_split "." name) as J. destruct (split_on "." name) as [|h [|x t]]; cbn [hd].
    + left. symmetry. exact J.
    + left. symmetry. exact J.
    + right. eexists. rewrite <- J. apply (join_cons "." h (x :: t)). discriminate.
Qed.

Lemma nm_untested_iff : forall stem b,
  untested stem b <-> b = if has_suffix "_test" stem then drop_last 5 stem else stem.
Proof.
  intros stem b. split.
  - intros [->|[-> Hno]].
    + rewrite (proj2 (has_suffix_iff "_test" (b ++ "_test"))) by (exists b; reflexivity).
      change 5 with (String.length "_test"). rewrite nm_drop_last_app. reflexivity.
    + destruct (has_suffix "_test" stem) eqn:E; [|reflexivity].
      apply has_suffix_iff in E as [p Hp]. exfalso. exact (Hno p Hp).
  - intros ->. destruct (has_suffix "_test" stem) eqn:E.
    + apply has_suffix_iff in E as [p ->]. left.
      change 5 with (String.length "_test"). rewrite nm_drop_last_app. reflexivity.
    + right. split; [reflexivity|]. intros p Hp.
      rewrite (proj2 (has_suffix_iff "_test" stem)) in E by (exists p; exact Hp). discriminate.
Qed.

Lemma nm_os_arch_form_iff : forall b o a,
  os_arch_form b o a <->
  In (o, a) (list_prod known_os known_arch) /\ has_suffix ("_" ++ o ++ "_" ++ a) b = true.
Proof.
  intros b o a. unfold os_arch_form. rewrite in_prod_iff, has_suffix_iff. split.
  - intros (p & E & Ho & Ha). split; [split; assumption | exists p; exact E].
  - intros ((Ho & Ha) & p & E). exists p. auto.
Qed.

Lemma nm_one_form_iff : forall b x,
  one_form b x <-> In x (known_os ++ known_arch)%list /\ has_suffix ("_" ++ x) b = true.
Proof.
  intros b x. unfold one_form. rewrite has_suffix_iff. split.
  - intros (p & E & H). split; [exact H | exists p; exact E].
  - intros (H & p & E). exists p. auto.
Qed.

Lemma nm_os_arch_form_unique : forall b o a o' a',
  os_arch_form b o a -> os_arch_form b o' a' -> o = o' /\ a = a'.
Proof.
  intros b o a o' a' H H'. apply nm_os_arch_form_iff in H as [Hin Hs], H' as [Hin' Hs'].
  apply in_prod_iff in Hin as [Ho Ha], Hin' as [Ho' Ha'].
  apply (nm_two_tail b o a Ho Ha) in Hs as [R E]. apply (nm_two_tail b o' a' Ho' Ha') in Hs' as [R' E'].
  rewrite E in E'. injection E' as -> ->. auto.
Qed.

Lemma nm_one_form_unique : forall b x x', one_form b x -> one_form b x' -> x = x'.
Proof.
  intros b x x' H H'. apply nm_one_form_iff in H as [Hin Hs], H' as [Hin' Hs'].
  apply (nm_one_tail b x Hin) in Hs as [R E]. apply (nm_one_tail b x' Hin') in Hs' as [R' E'].
  rewrite E in E'. injection E' as ->. reflexivity.
Qed.

Lemma nm_find_os_arch_spec : forall b,
  match find_os_arch b with
  | Some (o, a) => os_arch_form b o a
  | None => forall o a, ~ os_arch_form b o a
  end.
Proof.
  intros b. unfold find_os_arch. destruct (find _ _) as [[o a]|] eqn:F.
  - apply nm_os_arch_form_iff, (find_some _ _ F).
  - intros o a H. apply nm_os_arch_form_iff in H as [Hin Hs].
    pose proof (find_none _ _ F (o, a) Hin) as N. cbn [fst snd] in N. congruence.
Qed.

Lemma nm_find_one_spec : forall b,
  match find_one b with
  | Some x => one_form b x
  | None => forall x, ~ one_form b x
  end.
Proof.
  intros b. unfold find_one. destruct (find _ _) as [x|] eqn:F.
  - apply nm_one_form_iff, (find_some _ _ F).
  - intros x H. apply nm_one_form_iff in H as [Hin Hs].
    pose proof (find_none _ _ F x Hin) as N. cbv beta in N. congruence.
Qed.

Lemma nm_forms_spec_stem : forall name stem b, stem_of name stem -> untested stem b -> b = spec_stem name.
Proof.
  intros name stem b H1 H2. apply nm_stem_of_iff in H1. subst stem.
  apply nm_untested_iff in H2. exact H2.
Qed.

Theorem name_rule_sound_text_spec : forall name, name_requires name (name_tags name).
Proof.
  intros name. rewrite name_rule_eq_spec. unfold spec_name_tags.
  assert (H1 : stem_of name (cut_dot name)) by (apply nm_stem_of_iff; reflexivity).
  assert (H2 : untested (cut_dot name) (spec_stem name)) by (apply nm_untested_iff; reflexivity).
  pose proof (nm_find_os_arch_spec (spec_stem name)) as F. pose proof (nm_find_one_spec (spec_stem name)) as G.
  destruct (find_os_arch (spec_stem name)) as [[o a]|]; [exact (NR2 _ _ _ _ _ H1 H2 F)|].
  destruct (find_one (spec_stem name)) as [x|]; [exact (NR1 _ _ _ _ H1 H2 F G) | exact (NR0 _ _ _ H1 H2 F G)].
Qed.

(* the text-level specification admits one answer only: two derivations
   speak of the same stem, where the forms found exclude each other or agree *)
Lemma name_requires_unique : forall name ts ts', name_requires name ts -> name_requires name ts' -> ts = ts'.
Proof.
  intros name ts ts' H H'.
  destruct H as [stem b o a H1 H2 H3 | stem b x H1 H2 H3 H4 | stem b H1 H2 H3 H4];
    destruct H' as [stem' b' o' a' H1' H2' H3' | stem' b' x' H1' H2' H3' H4' | stem' b' H1' H2' H3' H4'];
    rewrite (nm_forms_spec_stem name stem b H1 H2) in *;
    rewrite (nm_forms_spec_stem name stem' b' H1' H2') in *;
    unfold not in *; try reflexivity; try (exfalso; eauto; fail).
  - destruct (nm_os_arch_form_unique _ _ _ _ _ H3 H3') as [-> ->]. reflexivity.
  - rewrite (nm_one_form_unique _ _ _ H4 H4'). reflexivity.
Qed.
