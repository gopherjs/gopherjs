(* C18 — selection on source TEXT and the post-load tweaks: lemmas about Model/C18_Text.v over
   Proofs/C18_Build.v alone ([classify_text] is [cls_core] too; [selected_iff_text] for any environment; the
   regenerated table of applyPostloadTweaks).  Props/C18.v joins them with Proofs/C18_P4_{Name,Constraint,Header}.v. *)
From Coq Require Import List String Ascii Bool.
From Verif Require Import Gen.C18_BuildEnv Gen.C18_PostTweaks Model.C18_Build Model.C18_NameSpec
  Model.C18_Constraint Model.C18_ConstraintNF Model.C18_Text
  Proofs.C18_Strings Proofs.C18_Build.
Import ListNotations.
Local Open Scope string_scope.

Definition header_valid (gb : option cexpr) (plus : list pline) : Prop :=
  (match gb with Some x => nf x = true /\ tags_valid x = true | None => True end) /\
  forallb pline_valid plus = true.

Lemma classify_text_core : forall e f, classify_text e f =
  cls_core (t_isdir f) (hidden (t_name f)) (ext_of (t_name f)) (spec_good_name e (t_name f))
           (should_build_text (match_tag e) (t_content f)) (t_pkg f) (t_cgo f) (is_test_name (t_name f)) (e_cgo e).
Proof.
  intros e f. unfold classify_text, cls_core.
  destruct (should_build_text _ _) as [[|]|], (t_pkg f); reflexivity.
Qed.

Lemma classify_text_go_iff : forall e f,
  classify_text e f = CGo <->
  t_isdir f = false /\ selectable_name (t_name f) /\
  spec_good_name e (t_name f) = true /\
  should_build_text (match_tag e) (t_content f) = Some true /\
  t_pkg f <> PkgDoc /\ t_cgo f = false.
Proof. intros e f. rewrite classify_text_core. apply cls_core_go_iff. Qed.

Definition t_go_files (r : tresult) : list string := match r with TOk g _ _ _ _ _ _ _ => g | _ => [] end.
Definition t_test_files (r : tresult) : list string := match r with TOk _ t _ _ _ _ _ _ => t | _ => [] end.
Definition t_imports_of (r : tresult) : list string := match r with TOk _ _ _ _ _ m _ _ => m | _ => [] end.
Definition t_loaded (r : tresult) : Prop := match r with TOk _ _ _ _ _ _ _ _ => True | _ => False end.

Lemma In_tnames_of : forall e c fs f, NoDup (map t_name fs) -> In f fs ->
  (In (t_name f) (tnames_of e c fs) <-> classify_text e f = c).
Proof.
  intros e c fs f ND I. unfold tnames_of. rewrite (In_map_filter t_name _ fs f ND I). apply cls_eqb_eq.
Qed.

Lemma exclude_In : forall fs ex f, In f (exclude fs ex) <-> In f fs /\ ~ In f ex.
Proof.
  intros fs ex f. unfold exclude. rewrite filter_In, negb_true_iff, mem_false. tauto.
Qed.

Lemma apply_tweak_subset : forall t fs f, In f (apply_tweak t fs) -> In f fs.
Proof.
  intros [c ex] fs f. unfold apply_tweak. cbn [fst snd]. destruct c; [intros []|].
  intros H. apply exclude_In in H. tauto.
Qed.

Lemma lookup_tweak_none : forall p tb, ~ In p (map fst tb) -> lookup_tweak p tb = None.
Proof.
  intros p tb. induction tb as [|[q t] tb IH]; [reflexivity|]. cbn [map fst In lookup_tweak]. intros H.
  destruct (p =? q) eqn:E; [apply String.eqb_eq in E; subst; exfalso; apply H; left; reflexivity|].
  apply IH. intros I. apply H. right. exact I.
Qed.

(* the table regenerated from applyPostloadTweaks is the documented one *)
Lemma gen_post_tweaks : post_tweaks =
  [("runtime", ((true, []), (false, []))); ("runtime/pprof", ((true, []), (false, [])));
   ("sync", ((false, ["pool.go"]), (false, []))); ("syscall/js", ((true, []), (true, [])))].
Proof. reflexivity. Qed.

Definition tweaked_paths : list string := ["runtime"; "runtime/pprof"; "sync"; "syscall/js"].

Theorem postload_other_paths : forall v p go test, ~ In p tweaked_paths -> postload v p go test = (go, test).
Proof.
  intros v p go test H. unfold postload. destruct v; [reflexivity|].
  rewrite lookup_tweak_none; [reflexivity|]. rewrite gen_post_tweaks. exact H.
Qed.

Lemma exclude_nil : forall l, exclude l [] = l.
Proof.
  induction l as [|a l IH]; [reflexivity|]. unfold exclude in *. cbn [filter mem existsb negb]. f_equal. exact IH.
Qed.

Theorem update_imports_nodup : forall srcs fs, NoDup (update_imports srcs fs).
Proof. intros. unfold update_imports. apply NoDup_nodup. Qed.

Lemma import_text_go : forall e0 std v path fs, t_loaded (import_text_with e0 std v path fs) ->
  t_go_files (import_text_with e0 std v path fs) =
  fst (postload v path (tnames_of (preload e0 std) CGo fs) (tnames_of (preload e0 std) CTest fs)).
Proof.
  intros e0 std v path fs. unfold import_text_with.
  destruct (existsb _ fs); [intros []|].
  destruct (tnames_of (preload e0 std) CGo fs ++ _)%list eqn:E; [intros []|].
  destruct (postload v path _ _) as [g t]. reflexivity.
Qed.

Theorem selected_iff_text : forall e0 std v path fs f,
  NoDup (map t_name fs) -> In f fs ->
  (v = true \/ ~ In path tweaked_paths) ->
  t_loaded (import_text_with e0 std v path fs) ->
  (In (t_name f) (t_go_files (import_text_with e0 std v path fs)) <->
     t_isdir f = false /\ selectable_name (t_name f) /\
     Forall (fun t => match_tag (preload e0 std) t = true) (spec_name_tags (t_name f)) /\
     should_build_text (match_tag (preload e0 std)) (t_content f) = Some true /\
     t_pkg f <> PkgDoc /\ t_cgo f = false).
Proof.
  intros e0 std v path fs f ND I Hp L.
  rewrite (import_text_go _ _ _ _ _ L).
  assert (postload v path (tnames_of (preload e0 std) CGo fs) (tnames_of (preload e0 std) CTest fs) =
          (tnames_of (preload e0 std) CGo fs, tnames_of (preload e0 std) CTest fs)) as ->.
  { destruct Hp as [->|Hp]; [reflexivity | apply postload_other_paths; exact Hp]. }
  cbn [fst]. rewrite (In_tnames_of _ _ _ _ ND I), classify_text_go_iff.
  unfold spec_good_name. rewrite forallb_forall, Forall_forall. tauto.
Qed.
