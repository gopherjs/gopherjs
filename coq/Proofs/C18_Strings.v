(* C18 — facts about lists and strings that the proofs of this property share:
   boolean list predicates against their propositional forms, append, character
   classes, has_suffix, and strings.Split / strings.Join on a one-character
   separator (split_on, join_with). *)
From Coq Require Import List String Ascii Bool.
From Verif Require Import Base.Lists Model.C18_Build Model.C18_Constraint.
Import ListNotations.
Local Open Scope string_scope.

Lemma forallb_Forall_iff : forall {A} (f : A -> bool) (P : A -> Prop) l,
  (forall x, In x l -> (f x = true <-> P x)) -> (forallb f l = true <-> Forall P l).
Proof.
  intros A f P l H. rewrite forallb_forall, Forall_forall.
  split; intros F x Ix; apply (H x Ix), F, Ix.
Qed.

Lemma existsb_Exists_iff : forall {A} (f : A -> bool) (P : A -> Prop) l,
  (forall x, In x l -> (f x = true <-> P x)) -> (existsb f l = true <-> Exists P l).
Proof.
  intros A f P l H. rewrite existsb_exists, Exists_exists.
  split; intros [x [Ix Hx]]; exists x; (split; [exact Ix | apply (H x Ix), Hx]).
Qed.

Lemma forallb_ext_in : forall {A} (f g : A -> bool) l,
  (forall x, In x l -> f x = g x) -> forallb f l = forallb g l.
Proof.
  intros A f g l. induction l as [|a l IH]; intros H; [reflexivity|]. cbn [forallb].
  rewrite (H a (or_introl eq_refl)), IH; [reflexivity|]. intros x Ix. apply H. right. exact Ix.
Qed.

(* among entries with pairwise different keys, the key decides the entry *)
Lemma In_map_filter : forall {A B} (g : A -> B) (p : A -> bool) l a,
  NoDup (map g l) -> In a l -> (In (g a) (map g (filter p l)) <-> p a = true).
Proof.
  intros A B g p l a ND Ia. rewrite in_map_iff. split.
  - intros [b [E Ib]]. apply filter_In in Ib as [Ib Hb].
    rewrite <- (NoDup_map_inj g l ND b a Ib Ia E). exact Hb.
  - intros Ha. exists a. split; [reflexivity | apply filter_In; split; assumption].
Qed.

Lemma sapp_assoc : forall a b c : string, (a ++ b) ++ c = a ++ (b ++ c).
Proof. induction a as [|ch a IH]; intros b c; cbn [append]; [reflexivity | rewrite IH; reflexivity]. Qed.

Lemma sapp_nil_r : forall a : string, a ++ "" = a.
Proof. induction a as [|ch a IH]; cbn [append]; [reflexivity | rewrite IH; reflexivity]. Qed.

Lemma app_not_nil : forall a b : string, a <> "" -> a ++ b <> "".
Proof. destruct a; intros; cbn [append]; congruence. Qed.

Lemma slen_app : forall a b : string, String.length (a ++ b) = String.length a + String.length b.
Proof. induction a as [|ch a IH]; intros b; cbn [append String.length]; [reflexivity | rewrite IH; reflexivity]. Qed.

Fixpoint allc (p : ascii -> bool) (s : string) : bool :=
  match s with EmptyString => true | String c r => p c && allc p r end.

Lemma allc_app : forall p a b, allc p (a ++ b) = allc p a && allc p b.
Proof. induction a; intros; cbn [append allc]; [reflexivity|]. rewrite IHa. apply andb_assoc. Qed.

Lemma allc_impl : forall p q s, (forall c, p c = true -> q c = true) -> allc p s = true -> allc q s = true.
Proof.
  induction s; intros H; cbn [allc]; [reflexivity|].
  intros H1. apply andb_true_iff in H1. destruct H1 as [H1 H2].
  rewrite (H _ H1), (IHs H H2). reflexivity.
Qed.

Lemma class_neq : forall (p : ascii -> bool) c x, p c = true -> p x = false -> Ascii.eqb c x = false.
Proof. intros p c x Hc Hx. destruct (Ascii.eqb_spec c x) as [->|_]; congruence. Qed.

Lemma allc_free : forall p x s, p x = false -> allc p s = true -> contains_char x s = false.
Proof.
  intros p x s Hx. induction s as [|d r IH]; cbn [allc contains_char]; [reflexivity|].
  intros H. apply andb_true_iff in H as [H1 H2].
  rewrite Ascii.eqb_sym, (class_neq p d x H1 Hx), (IH H2). reflexivity.
Qed.

Lemma contains_char_app : forall x a b, contains_char x (a ++ b) = contains_char x a || contains_char x b.
Proof. induction a; intros; cbn [append contains_char]; [reflexivity|]. rewrite IHa. apply orb_assoc. Qed.

Lemma has_suffix_iff : forall suf s, has_suffix suf s = true <-> exists p, s = p ++ suf.
Proof.
  intros suf s. split.
  - induction s as [|d r IH]; cbn [has_suffix]; intros H; apply orb_true_iff in H as [H|H].
    + apply String.eqb_eq in H. exists "". subst. reflexivity.
    + discriminate.
    + apply String.eqb_eq in H. exists "". subst. reflexivity.
    + destruct (IH H) as [p ->]. exists (String d p). reflexivity.
  - intros [p ->]. induction p as [|d p IH]; cbn [append].
    + destruct suf; cbn [has_suffix]; rewrite String.eqb_refl; reflexivity.
    + cbn [has_suffix]. rewrite IH. apply orb_true_r.
Qed.

Section Split.
Variable c : ascii.

Definition free (x : string) : Prop := contains_char c x = false.

Lemma split_on_cons : forall s, exists h t, split_on c s = h :: t.
Proof.
  intros s. destruct s as [|d r]; cbn [split_on]; [eauto|].
  destruct (Ascii.eqb d c); [eauto|]. destruct (split_on c r); eauto.
Qed.

Lemma split_on_nonempty : forall s, split_on c s <> [].
Proof. intros s. destruct (split_on_cons s) as (h & t & E). rewrite E. discriminate. Qed.

Lemma split_on_app : forall s x, split_on c (s ++ String c x) = (split_on c s ++ split_on c x)%list.
Proof.
  induction s as [|d r IH]; intros x.
  - cbn [append split_on app]. rewrite Ascii.eqb_refl. reflexivity.
  - cbn [append split_on]. rewrite IH. destruct (Ascii.eqb d c); [reflexivity|].
    destruct (split_on_cons r) as (h & t & E). rewrite E. reflexivity.
Qed.

Lemma split_on_free : forall x, free x -> split_on c x = [x].
Proof.
  unfold free. induction x as [|d r IH]; cbn [contains_char split_on]; intros H; [reflexivity|].
  apply orb_false_iff in H as [H1 H2]. rewrite Ascii.eqb_sym in H1. rewrite H1, (IH H2). reflexivity.
Qed.

Lemma split_on_hd_free : forall s, free (hd "" (split_on c s)).
Proof.
  unfold free. induction s as [|d r IH]; cbn [split_on]; [reflexivity|].
  destruct (Ascii.eqb d c) eqn:E; [reflexivity|].
  destruct (split_on_cons r) as (h & t & Er). rewrite Er in *. cbn [hd contains_char] in *.
  rewrite Ascii.eqb_sym, E, IH. reflexivity.
Qed.

Lemma join_cons : forall x l, l <> [] -> join_with (String c "") (x :: l) = x ++ String c (join_with (String c "") l).
Proof. intros x l H. destruct l; [congruence | reflexivity]. Qed.

Lemma join_app : forall q xs, q <> [] -> xs <> [] ->
  join_with (String c "") (q ++ xs) = join_with (String c "") q ++ String c (join_with (String c "") xs).
Proof.
  induction q as [|y q IH]; intros xs Hq Hx; [congruence|].
  destruct q as [|z q]; [apply join_cons; exact Hx|].
  change ((y :: z :: q) ++ xs)%list with (y :: ((z :: q) ++ xs))%list.
  rewrite !join_cons, IH, sapp_assoc by (try exact Hx; discriminate). reflexivity.
Qed.

Lemma join_split : forall s, join_with (String c "") (split_on c s) = s.
Proof.
  induction s as [|d r IH]; cbn [split_on]; [reflexivity|].
  destruct (Ascii.eqb_spec d c) as [->|_].
  - rewrite join_cons by apply split_on_nonempty. rewrite IH. reflexivity.
  - destruct (split_on_cons r) as (h & t & E). rewrite E in *.
    rewrite <- IH. destruct t; reflexivity.
Qed.

Lemma split_join : forall xs, xs <> [] -> Forall free xs -> split_on c (join_with (String c "") xs) = xs.
Proof.
  intros xs Hn H. induction H as [|x xs Hx H IH]; [congruence|].
  destruct xs as [|y ys]; [apply split_on_free; exact Hx|].
  rewrite join_cons, split_on_app, (split_on_free _ Hx), IH by discriminate. reflexivity.
Qed.

(* "b ends in the separator followed by the joined xs", read off the split of b:
   its elements after the first end in xs (stated on the reversed list, where xs comes first) *)
Lemma suffix_tail : forall xs b, xs <> [] -> Forall free xs ->
  (has_suffix (String c (join_with (String c "") xs)) b = true <->
   exists R, rev (tl (split_on c b)) = (rev xs ++ R)%list).
Proof.
  intros xs b Hn Hf. rewrite has_suffix_iff. split.
  - intros [p ->]. rewrite split_on_app, (split_join xs Hn Hf).
    destruct (split_on_cons p) as (h & t & ->). exists (rev t). cbn [app tl]. apply rev_app_distr.
  - intros [R E]. destruct (split_on_cons b) as (h & t & Eb). rewrite Eb in E. cbn [tl] in E.
    assert (t = rev R ++ xs)%list as ->
      by (rewrite <- (rev_involutive t), E, rev_app_distr, rev_involutive; reflexivity).
    exists (join_with (String c "") (h :: rev R)). rewrite <- (join_split b) at 1. rewrite Eb.
    apply (join_app (h :: rev R) xs); [discriminate | exact Hn].
Qed.

End Split.
