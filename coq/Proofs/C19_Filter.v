(* C19 — sourcemapx.Filter (Model/C19_Filter.v): the hint codec; [writes], what Write's loop does in front of a string whatever
   code is pending before it; output and mappings as functions of the piece list ([apply_items_spec]), which do not see how
   code is cut into pieces ([norm_invisible]); where the mappings point in the output (in range, in order). *)
From Coq Require Import List NArith ZArith Arith Bool Lia ZifyN ZifyNat ZifyBool Sorted.
From Verif Require Import Base.Lists Model.C19_Filter.
Import ListNotations.
Ltac Zify.zify_post_hook ::= Z.div_mod_to_equations.
Local Open Scope nat_scope.

Lemma last_line_len_app a b acc :
  last_line_len (a ++ b) acc = last_line_len b (last_line_len a acc).
Proof.
  revert acc; induction a as [|x a IH]; intros acc; cbn [app last_line_len]; [reflexivity|].
  destruct (N.eqb x NL); apply IH.
Qed.

Lemma count_nl_app a b : count_nl (a ++ b) = (count_nl a + count_nl b)%nat.
Proof. unfold count_nl. rewrite filter_app, app_length. reflexivity. Qed.

Lemma advance_spec w : forall l c,
  advance l c w = ((l + count_nl w)%nat, last_line_len w c).
Proof.
  induction w as [|x w IH]; intros l c; cbn [advance last_line_len].
  - unfold count_nl; cbn. f_equal; lia.
  - unfold count_nl in *; cbn [filter]. destruct (N.eqb x NL); rewrite IH; cbn [length]; f_equal; lia.
Qed.

Lemma write_plain_nil st : write_plain st [] = st.
Proof. destruct st. unfold write_plain; cbn. rewrite app_nil_r. reflexivity. Qed.

Lemma write_plain_app st a b : write_plain (write_plain st a) b = write_plain st (a ++ b).
Proof.
  unfold write_plain. rewrite !advance_spec. cbn [f_line f_col f_out f_maps].
  rewrite count_nl_app, last_line_len_app, app_assoc, Nat.add_assoc. reflexivity.
Qed.

Lemma find_hint_code pre r :
  code_ok pre = true ->
  find_hint (pre ++ r) = match find_hint r with Some i => Some (length pre + i)%nat | None => None end.
Proof.
  induction pre as [|x pre IH]; intros H; cbn [app find_hint length].
  - destruct (find_hint r); reflexivity.
  - cbn [code_ok forallb] in H. apply andb_true_iff in H as [Hx Hp].
    apply negb_true_iff in Hx. rewrite Hx. rewrite (IH Hp).
    destruct (find_hint r); reflexivity.
Qed.

Lemma code_ok_app a b : code_ok (a ++ b) = code_ok a && code_ok b.
Proof. apply forallb_app. Qed.

Lemma encode_hint_some p :
  item_ok (Hint p) = true ->
  encode_hint p = Some (MAGIC :: (N.of_nat (length p) / 256) :: (N.of_nat (length p) mod 256) :: p)%N.
Proof.
  cbn [item_ok]; intros H. unfold encode_hint.
  destruct (N.ltb_spec 65535 (N.of_nat (length p))) as [Hlt|Hge]; [|reflexivity].
  apply N.leb_le in H. lia.
Qed.

Lemma read_hint_sized n l :
  read_hint (MAGIC :: (N.of_nat n / 256) :: (N.of_nat n mod 256) :: l)%N =
  if Nat.ltb (length l) n then None else Some (firstn n l, (n + 3)%nat).
Proof.
  unfold read_hint. rewrite N.eqb_refl. cbn [negb].
  replace (N.to_nat (N.of_nat n / 256 * 256 + N.of_nat n mod 256)) with n by lia. reflexivity.
Qed.

Lemma read_hint_encoded p rest :
  read_hint (MAGIC :: (N.of_nat (length p) / 256) :: (N.of_nat (length p) mod 256) :: p ++ rest)%N
  = Some (p, (length p + 3)%nat).
Proof.
  rewrite read_hint_sized, app_length.
  destruct (Nat.ltb_spec (length p + length rest) (length p)) as [Hlt|_]; [lia|].
  rewrite firstn_app_exact. reflexivity.
Qed.

Theorem hint_roundtrip p rest e :
  encode_hint p = Some e ->
  find_hint (e ++ rest) = Some O /\ read_hint (e ++ rest) = Some (p, length e).
Proof.
  unfold encode_hint. destruct (65535 <? N.of_nat (length p))%N; [discriminate|]. intros He. injection He as <-.
  split; [reflexivity|]. cbn [app length]. rewrite read_hint_encoded, Nat.add_comm. reflexivity.
Qed.

Theorem hint_too_long_rejected p :
  (65535 < N.of_nat (length p))%N -> encode_hint p = None.
Proof.
  intros H. unfold encode_hint. destruct (N.ltb_spec 65535 (N.of_nat (length p))); [reflexivity|lia].
Qed.

Definition apply_item (st : fstate) (it : item) : fstate :=
  match it with
  | Code bs => write_plain st bs
  | Hint p => add_mapping st p
  end.

Definition apply_items (st : fstate) (its : list item) : fstate := fold_left apply_item its st.

Lemma render_item_hint p :
  item_ok (Hint p) = true ->
  render_item (Hint p) = (MAGIC :: (N.of_nat (length p) / 256) :: (N.of_nat (length p) mod 256) :: p)%N.
Proof. intros H. cbn [render_item]. rewrite (encode_hint_some p H). reflexivity. Qed.

Lemma write_loop_hint fuel st pre l :
  code_ok pre = true ->
  write_loop (S fuel) st (pre ++ MAGIC :: l) =
  match read_hint (MAGIC :: l) with
  | None => None
  | Some (payload, len) => write_loop fuel (add_mapping (write_plain st pre) payload) (skipn len (MAGIC :: l))
  end.
Proof.
  intros Hpre. cbn [write_loop]. rewrite find_hint_code by assumption.
  cbn [find_hint]. rewrite N.eqb_refl, Nat.add_0_r, firstn_app_exact, skipn_app_exact.
  destruct (read_hint (MAGIC :: l)) as [[payload len]|]; [|reflexivity]. rewrite skipn_app_plus. reflexivity.
Qed.

(* What Filter.Write's loop does in front of [l], whatever code [pre] is still pending before it and with any fuel
   above the length of [l]: it ends as [K] says, given the state after the pending code. *)
Definition writes (l : list byte) (K : fstate -> option fstate) : Prop :=
  forall fuel st pre, code_ok pre = true -> (length l < fuel)%nat ->
  write_loop fuel st (pre ++ l) = K (write_plain st pre).

Lemma writes_end : writes [] Some.
Proof.
  intros [|fuel] st pre Hpre Hf; [inversion Hf|]. cbn [write_loop].
  rewrite find_hint_code by exact Hpre. cbn [find_hint]. rewrite app_nil_r. reflexivity.
Qed.

Lemma writes_code bs l K : code_ok bs = true -> writes l K -> writes (bs ++ l) (fun st => K (write_plain st bs)).
Proof.
  intros Hbs HK fuel st pre Hpre Hf. rewrite app_length in Hf.
  rewrite app_assoc, HK, write_plain_app; [reflexivity | rewrite code_ok_app, Hpre; exact Hbs | lia].
Qed.

Lemma writes_hint p l K :
  item_ok (Hint p) = true -> writes l K -> writes (render_item (Hint p) ++ l) (fun st => K (add_mapping st p)).
Proof.
  intros Hp HK [|fuel] st pre Hpre Hf; [inversion Hf|].
  rewrite render_item_hint in * by exact Hp. cbn [app length] in *. rewrite app_length in Hf.
  rewrite write_loop_hint, read_hint_encoded, Nat.add_comm by exact Hpre. cbn [Nat.add skipn]. rewrite skipn_app_exact.
  rewrite (HK fuel _ [] eq_refl), write_plain_nil; [reflexivity | lia].
Qed.

Lemma writes_items l K its :
  forallb item_ok its = true -> writes l K -> writes (render its ++ l) (fun st => K (apply_items st its)).
Proof.
  intros Hok HK. induction its as [|it its IH]; [exact HK|].
  cbn [forallb] in Hok. apply andb_true_iff in Hok as [Hit Hits].
  change (render (it :: its)) with (render_item it ++ render its). rewrite <- app_assoc.
  destruct it as [bs|p]; [exact (writes_code bs _ _ Hit (IH Hits)) | exact (writes_hint p _ _ Hit (IH Hits))].
Qed.

Lemma filter_write_render st its :
  forallb item_ok its = true ->
  filter_write st (render its) = Some (apply_items st its).
Proof.
  intros Hok. pose proof (writes_items [] Some its Hok writes_end (S (length (render its))) st [] eq_refl) as H.
  rewrite app_nil_r, write_plain_nil in H. apply H. lia.
Qed.

Lemma apply_items_app st a b : apply_items st (a ++ b) = apply_items (apply_items st a) b.
Proof. unfold apply_items. apply fold_left_app. Qed.

Lemma forallb_concat {A} (f : A -> bool) (ls : list (list A)) :
  forallb f (concat ls) = forallb (forallb f) ls.
Proof.
  induction ls as [|l ls IH]; [reflexivity|].
  cbn [concat forallb]. rewrite forallb_app, IH. reflexivity.
Qed.

Lemma filter_run_render iss : forall st,
  forallb item_ok (concat iss) = true ->
  filter_run st (map render iss) = Some (apply_items st (concat iss)).
Proof.
  induction iss as [|is iss IH]; intros st Hok; [reflexivity|].
  cbn [concat] in Hok. rewrite forallb_app in Hok. apply andb_true_iff in Hok as [H1 H2].
  cbn [map filter_run]. rewrite filter_write_render by assumption.
  rewrite IH by assumption. cbn [concat]. rewrite apply_items_app. reflexivity.
Qed.

Definition pos_inv (st : fstate) : Prop :=
  f_line st = count_nl (f_out st) /\ f_col st = last_line_len (f_out st) O.

Lemma write_plain_inv st w : pos_inv st -> pos_inv (write_plain st w).
Proof.
  intros [Hl Hc]. unfold pos_inv, write_plain. rewrite advance_spec. cbn [f_line f_col f_out].
  rewrite count_nl_app, last_line_len_app, <- Hl, <- Hc. split; reflexivity.
Qed.

Lemma write_plain_out st w : f_out (write_plain st w) = f_out st ++ w.
Proof. unfold write_plain. destruct (advance _ _ _). reflexivity. Qed.

Lemma write_plain_maps st w : f_maps (write_plain st w) = f_maps st.
Proof. unfold write_plain. destruct (advance _ _ _). reflexivity. Qed.

Lemma apply_items_spec its : forall st,
  pos_inv st ->
  let st' := apply_items st its in
  pos_inv st' /\
  f_out st' = f_out st ++ erase its /\
  f_maps st' = f_maps st ++ spec_mappings (f_out st) its.
Proof.
  induction its as [|[bs|p] its IH]; intros st Hinv; cbn zeta.
  - cbn. rewrite !app_nil_r. auto.
  - change (apply_items st (Code bs :: its)) with (apply_items (write_plain st bs) its).
    destruct (IH _ (write_plain_inv st bs Hinv)) as (Hi & -> & ->).
    rewrite write_plain_out, write_plain_maps, <- app_assoc. split; [exact Hi|split; reflexivity].
  - change (apply_items st (Hint p :: its)) with (apply_items (add_mapping st p) its).
    destruct (IH (add_mapping st p) Hinv) as (Hi & -> & ->). destruct Hinv as [Hl Hc].
    cbn [add_mapping f_maps f_out spec_mappings]. rewrite Hl, Hc, <- app_assoc. split; [exact Hi|split; reflexivity].
Qed.

(* Every way of cutting the stream into Write calls that does not split a hint
   is [map render iss] for some grouping [iss] of pieces ([chunking_of]), where a piece is a
   hint or a fragment of code.  The result depends on [concat iss] only
   through [erase] and [spec_mappings], and those are invariant under splitting
   and merging of code pieces ([norm] below). *)

(* normal form of a piece list: adjacent code pieces merged, empty code dropped *)
Fixpoint norm (its : list item) : list item :=
  match its with
  | [] => []
  | Code bs :: r =>
      match norm r with
      | Code bs' :: r' => Code (bs ++ bs') :: r'
      | r' => match bs with [] => r' | _ => Code bs :: r' end
      end
  | Hint p :: r => Hint p :: norm r
  end.

(* Whatever sees neither empty code pieces nor the cut between two adjacent code pieces, and looks at the tail
   of a list only through itself, does not see [norm].  (The parameter x carries [spec_mappings]' prefix.) *)
Lemma norm_invisible {X B} (F : list item -> X -> B) :
  (forall r x, F (Code [] :: r) x = F r x) ->
  (forall a b r x, F (Code a :: Code b :: r) x = F (Code (a ++ b) :: r) x) ->
  (forall it r r', (forall x, F r x = F r' x) -> forall x, F (it :: r) x = F (it :: r') x) ->
  forall its x, F (norm its) x = F its x.
Proof.
  intros Hnil Hcut Htail. induction its as [|[a|p] r IH]; intros x; cbn [norm].
  - reflexivity.
  - rewrite <- (Htail (Code a) _ _ IH). destruct (norm r) as [|[b|q] n].
    + destruct a; [symmetry; apply Hnil|reflexivity].
    + symmetry. apply Hcut.
    + destruct a; [symmetry; apply Hnil|reflexivity].
  - apply Htail, IH.
Qed.

Lemma erase_norm its : erase (norm its) = erase its.
Proof.
  apply (norm_invisible (fun its (_ : unit) => erase its)); [reflexivity| | |exact tt]; unfold erase; cbn [flat_map]; intros.
  - apply app_assoc.
  - f_equal. auto.
Qed.

Lemma spec_mappings_norm its pre : spec_mappings pre (norm its) = spec_mappings pre its.
Proof.
  apply (norm_invisible (fun its pre => spec_mappings pre its)); cbn [spec_mappings]; intros.
  - rewrite app_nil_r. reflexivity.
  - rewrite app_assoc. reflexivity.
  - destruct it; cbn [spec_mappings]; rewrite H; reflexivity.
Qed.

Lemma item_ok_norm its : forallb item_ok its = true -> forallb item_ok (norm its) = true.
Proof.
  intros H. rewrite <- H.
  apply (norm_invisible (fun its (_ : unit) => forallb item_ok its)); [reflexivity| | |exact tt]; cbn [forallb item_ok]; intros.
  - rewrite code_ok_app. apply andb_assoc.
  - f_equal. auto.
Qed.

Definition chunking_of (items : list item) (iss : list (list item)) : Prop :=
  norm (concat iss) = norm items /\ forallb item_ok (concat iss) = true.

(* the bytes of the rendered stream are the same for every chunking of it *)
Lemma render_norm its : forallb item_ok its = true -> render (norm its) = render its.
Proof.
  intros _.
  apply (norm_invisible (fun its (_ : unit) => render its)); [reflexivity| | |exact tt]; unfold render; cbn [flat_map render_item]; intros.
  - apply app_assoc.
  - f_equal. auto.
Qed.

Theorem output_no_magic items :
  forallb item_ok items = true -> code_ok (erase items) = true.
Proof.
  induction items as [|it its IH]; intros H; [reflexivity|].
  cbn [forallb] in H. apply andb_true_iff in H as [Hit Hits].
  destruct it as [bs|p]; unfold erase; cbn [flat_map].
  - rewrite code_ok_app. cbn [item_ok] in Hit. rewrite Hit. apply IH; assumption.
  - apply IH; assumption.
Qed.

(* lines of a byte string, split at newlines (a trailing newline yields a last empty line) *)
Fixpoint lines_acc (bs : list byte) (cur : list byte) : list (list byte) :=
  match bs with
  | [] => [rev cur]
  | x :: r => if N.eqb x NL then rev cur :: lines_acc r [] else lines_acc r (x :: cur)
  end.
Definition lines (bs : list byte) : list (list byte) := lines_acc bs [].

Lemma lines_acc_length bs : forall cur, length (lines_acc bs cur) = S (count_nl bs).
Proof.
  induction bs as [|x bs IH]; intros cur; cbn [lines_acc]; [reflexivity|].
  unfold count_nl in *; cbn [filter]. destruct (N.eqb x NL); cbn [length]; rewrite IH; reflexivity.
Qed.

Lemma lines_acc_first suf : forall cur, length (nth 0 (lines_acc suf cur) []) >= length cur.
Proof.
  induction suf as [|y suf IH]; intros cur; cbn [lines_acc nth].
  - rewrite rev_length. lia.
  - destruct (N.eqb y NL); cbn [nth]; [rewrite rev_length; lia|]. specialize (IH (y :: cur)). cbn [length] in IH. lia.
Qed.

Lemma nth_lines_acc_app pre : forall suf cur,
  length (nth (count_nl pre) (lines_acc (pre ++ suf) cur) []) >= last_line_len pre (length cur).
Proof.
  induction pre as [|x pre IH]; intros suf cur; [apply lines_acc_first|].
  cbn [app lines_acc last_line_len]. unfold count_nl; cbn [filter].
  destruct (N.eqb x NL); cbn [length nth]; [apply (IH suf [])|apply (IH suf (x :: cur))].
Qed.

Lemma spec_mappings_pos its : forall pre m,
  In m (spec_mappings pre its) ->
  exists x suf, erase its = x ++ suf /\
                m_line m = S (count_nl (pre ++ x)) /\ m_col m = last_line_len (pre ++ x) O.
Proof.
  induction its as [|[bs|p] its IH]; intros pre m Hin; cbn [spec_mappings] in Hin; [destruct Hin| |destruct Hin as [<-|Hin]].
  - destruct (IH _ _ Hin) as (x & suf & He & Hpos). rewrite <- app_assoc in Hpos.
    exists (bs ++ x), suf. split; [|exact Hpos]. unfold erase in *; cbn [flat_map]. rewrite He. apply app_assoc.
  - exists [], (erase its). rewrite app_nil_r. repeat split.
  - exact (IH _ _ Hin).
Qed.

Theorem mappings_in_range items m :
  In m (spec_mappings [] items) ->
  (1 <= m_line m <= length (lines (erase items)))%nat /\
  (m_col m <= length (nth (m_line m - 1) (lines (erase items)) []))%nat.
Proof.
  intros Hin. destruct (spec_mappings_pos items [] m Hin) as (x & suf & -> & -> & ->). cbn [app].
  unfold lines. rewrite lines_acc_length, count_nl_app.
  split; [lia|].
  replace (S (count_nl x) - 1)%nat with (count_nl x) by lia.
  pose proof (nth_lines_acc_app x suf []) as H. cbn [length] in H. lia.
Qed.

Definition pos_le (a b : mapping) : Prop :=
  (m_line a < m_line b)%nat \/ (m_line a = m_line b /\ (m_col a <= m_col b)%nat).

Lemma last_line_len_mono bs : forall acc, count_nl bs = O -> (acc <= last_line_len bs acc)%nat.
Proof.
  induction bs as [|x bs IH]; intros acc H; cbn [last_line_len]; [lia|].
  unfold count_nl in *; cbn [filter] in H. destruct (N.eqb x NL); [cbn in H; lia|].
  specialize (IH (S acc) H). lia.
Qed.

Lemma spec_mappings_lower its pre m :
  In m (spec_mappings pre its) ->
  (S (count_nl pre) < m_line m)%nat \/
  (S (count_nl pre) = m_line m /\ (last_line_len pre O <= m_col m)%nat).
Proof.
  intros Hin. destruct (spec_mappings_pos its pre m Hin) as (x & _ & _ & -> & ->).
  rewrite count_nl_app, last_line_len_app.
  destruct (Nat.eq_dec (count_nl x) O) as [Hz|Hnz]; [|lia].
  pose proof (last_line_len_mono x (last_line_len pre O) Hz). lia.
Qed.

Theorem mappings_monotone items :
  forall pre, StronglySorted pos_le (spec_mappings pre items).
Proof.
  induction items as [|it its IH]; intros pre; cbn [spec_mappings]; [constructor|].
  destruct it as [bs|p]; [apply IH|].
  constructor; [apply IH|].
  apply Forall_forall. intros m Hin. unfold pos_le; cbn [m_line m_col].
  destruct (spec_mappings_lower its pre m Hin) as [H|[H1 H2]]; [left; exact H|right; split; assumption].
Qed.

(* a chunk that ends inside a hint is rejected (ReadHint panics) *)
Lemma writes_cut_hint p k :
  item_ok (Hint p) = true -> (0 < k < length p + 3)%nat -> writes (firstn k (render [Hint p])) (fun _ => None).
Proof.
  intros Hok Hk [|fuel] st pre Hpre Hf; [inversion Hf|]. cbn [render flat_map]. rewrite app_nil_r, render_item_hint by assumption.
  destruct k as [|k]; [lia|]. cbn [firstn]. rewrite write_loop_hint by assumption.
  destruct k as [|[|k]]; [reflexivity|reflexivity|]. cbn [firstn]. rewrite read_hint_sized, firstn_length.
  destruct (Nat.ltb_spec (Nat.min k (length p)) (length p)) as [_|Hge]; [reflexivity|lia].
Qed.
