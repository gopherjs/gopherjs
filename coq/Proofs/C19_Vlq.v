(* C19 — the source-map "mappings" codec (Model/C19_Vlq.v): base-32 digit strings ([vlq_digits]) written and read back;
   [decodes], what the decoder answers in front of a string whatever lies behind it; one mapping decoded from its encoding
   ([dec_one]); [dec_enc], its iteration; the alphabet of the output; the mapping list that the decoder does not give back. *)
From Coq Require Import List ZArith NArith Bool Lia Arith ZifyBool ZifyNat.
From Verif Require Import Base.Lists Base.Word Model.C19_Vlq.
Import ListNotations.
Local Open Scope Z_scope.

Lemma sweep (n : nat) (P : Z -> bool) :
  forallb P (map Z.of_nat (seq 0 n)) = true -> forall d, 0 <= d < Z.of_nat n -> P d = true.
Proof.
  intros H d Hd. rewrite forallb_forall in H. apply H.
  replace d with (Z.of_nat (Z.to_nat d)) by lia. apply in_map. apply in_seq. lia.
Qed.

Lemma b64_roundtrip d : 0 <= d < 64 -> b64dec (b64enc d) = Some d.
Proof.
  intros H. (* by enumeration: eq_refl evaluates the check on 0..63 *)
  pose proof (sweep 64 (fun d => match b64dec (b64enc d) with Some x => x =? d | None => false end) eq_refl d H) as E.
  cbn beta in E. destruct (b64dec (b64enc d)); [|discriminate]. f_equal. lia.
Qed.

Lemma b64enc_not_sep d : 0 <= d < 64 -> N.eqb (b64enc d) COMMA = false /\ N.eqb (b64enc d) SEMI = false.
Proof.
  intros H. apply b64_roundtrip in H. split; apply N.eqb_neq; intros E; rewrite E in H; discriminate H.
Qed.

Lemma digit_bits o : 0 <= o < 64 ->
  Z.ldiff o 32 = o mod 32 /\ (Z.land o 32 =? 0) = (o <? 32).
Proof.
  intros H.
  pose proof (sweep 64 (fun o => (Z.ldiff o 32 =? o mod 32) && Bool.eqb (Z.land o 32 =? 0) (o <? 32)) eq_refl o H) as E.
  apply andb_prop in E. destruct E as [A B]. split; [lia|apply eqb_prop; assumption].
Qed.

Lemma land31 u : Z.land u 31 = u mod 32.
Proof. change 31 with (Z.ones 5). rewrite Z.land_ones by lia. reflexivity. Qed.
Lemma land1 u : Z.land u 1 = u mod 2.
Proof. change 1 with (Z.ones 1) at 1. rewrite Z.land_ones by lia. reflexivity. Qed.
Lemma shr5 u : Z.shiftr u 5 = u / 32.
Proof. rewrite Z.shiftr_div_pow2 by lia. reflexivity. Qed.
Lemma shr1 u : Z.shiftr u 1 = u / 2.
Proof. rewrite Z.shiftr_div_pow2 by lia. reflexivity. Qed.
Lemma shl1 u : Z.shiftl u 1 = 2 * u.
Proof. rewrite Z.shiftl_mul_pow2 by lia. change (2 ^ 1) with 2. lia. Qed.

Lemma lor32 x : 0 <= x < 32 -> Z.lor 32 x = 32 + x.
Proof. exact (lor_shift_add 1 x 5 ltac:(lia)). Qed.

Lemma lor_even_1 k : Z.lor (2 * k) 1 = 2 * k + 1.
Proof. rewrite (Z.mul_comm 2 k). exact (lor_shift_add k 1 1 ltac:(lia) ltac:(lia)). Qed.

Lemma zigzag_spec v : zigzag v = if v <? 0 then - (2 * v) + 1 else 2 * v.
Proof.
  unfold zigzag. rewrite shl1. destruct (2 * v <? 0) eqn:E; destruct (v <? 0) eqn:E2; try lia.
  replace (- (2 * v)) with (2 * (- v)) by lia. apply lor_even_1.
Qed.

Lemma zigzag_nonneg v : 0 <= zigzag v.
Proof. rewrite zigzag_spec. destruct (v <? 0) eqn:E; lia. Qed.

Lemma unzig_zigzag v : unzig (zigzag v) = v.
Proof.
  unfold unzig. rewrite land1, shr1, zigzag_spec.
  destruct (v <? 0) eqn:E.
  - replace (- (2 * v) + 1) with (1 + (- v) * 2) by lia.
    rewrite Z.mod_add, Z.div_add by lia. cbn. lia.
  - rewrite Z.mul_comm, Z.mod_mul, Z.div_mul by lia. reflexivity.
Qed.

(* [vlq_digits u l]: l holds the base-32 digits of u, least significant first, each but the last with the
   continuation bit (32) set.  writeVLQ produces such a string and readVLQ reads any such string. *)
Inductive vlq_digits : Z -> str -> Prop :=
| vd_last d : 0 <= d < 32 -> vlq_digits d [b64enc d]
| vd_cont x u l : 0 <= x < 32 -> vlq_digits u l -> vlq_digits (x + 32 * u) (b64enc (32 + x) :: l).

Lemma write_digits_spec : forall fuel u, 0 <= u < 32 ^ Z.of_nat (S fuel) -> vlq_digits u (write_digits fuel u).
Proof.
  induction fuel as [|f IH]; intros u Hu; cbn [write_digits].
  - apply vd_last. exact Hu.
  - destruct (32 <=? u) eqn:E; [|apply vd_last; lia].
    assert (Hm : 0 <= u mod 32 < 32) by (apply Z.mod_pos_bound; lia).
    rewrite land31, shr5, lor32 by exact Hm.
    replace u with (u mod 32 + 32 * (u / 32)) at 1 by (rewrite (Z.div_mod u 32) at 3; lia).
    apply vd_cont; [exact Hm|apply IH].
    rewrite Nat2Z.inj_succ, Z.pow_succ_r in Hu by lia.
    split; [apply Z.div_pos|apply Z.div_lt_upper_bound]; lia.
Qed.

(* write_vlq's fuel S (Z.to_nat (Z.log2 u)) is within the bound of [write_digits_spec]: u has at most
   log2 u + 1 bits, and a base-32 digit holds five *)
Lemma write_vlq_fuel u : 0 <= u -> u < 32 ^ Z.of_nat (S (S (Z.to_nat (Z.log2 u)))).
Proof.
  intros H. destruct (Z.eq_dec u 0) as [->|N0].
  - change (Z.log2 0) with 0. cbn. lia.
  - assert (L : u < 2 ^ Z.succ (Z.log2 u)) by (apply Z.log2_spec; lia).
    pose proof (Z.log2_nonneg u) as Lg.
    eapply Z.lt_le_trans; [exact L|].
    change 32 with (2 ^ 5). rewrite <- Z.pow_mul_r by lia.
    apply Z.pow_le_mono_r; lia.
Qed.

Lemma write_vlq_spec v : vlq_digits (zigzag v) (write_vlq v).
Proof. apply write_digits_spec. split; [apply zigzag_nonneg|apply write_vlq_fuel, zigzag_nonneg]. Qed.

Lemma read_digit o bef v s l : 0 <= o < 64 -> 0 <= s ->
  read_digits bef v s (b64enc o :: l) =
  if o <? 32 then (Some (unzig (v + o mod 32 * 2 ^ s)), (b64enc o :: bef, l))
  else read_digits (b64enc o :: bef) (v + o mod 32 * 2 ^ s) (s + 5) l.
Proof.
  intros Ho Hs. cbn [read_digits]. rewrite b64_roundtrip by exact Ho.
  destruct (digit_bits o Ho) as [-> ->]. rewrite Z.shiftl_mul_pow2 by exact Hs. reflexivity.
Qed.

Lemma read_digits_spec u l : vlq_digits u l -> forall bef v s rest, 0 <= s ->
  read_digits bef v s (l ++ rest) = (Some (unzig (v + u * 2 ^ s)), (rev l ++ bef, rest)).
Proof.
  induction 1 as [d Hd|x u l Hx _ IH]; intros bef v s rest Hs; cbn [app rev]; rewrite read_digit by lia.
  - replace (d <? 32) with true by lia. rewrite Z.mod_small by lia. reflexivity.
  - replace (32 + x <? 32) with false by lia. rewrite IH, <- app_assoc by lia.
    replace (32 + x) with (x + 1 * 32) by lia. rewrite Z.mod_add, Z.mod_small, Z.pow_add_r by lia.
    do 3 f_equal. ring.
Qed.

Lemma read_vlq_spec u l bef rest : vlq_digits u l ->
  read_vlq (bef, l ++ rest) = (Some (unzig u), (rev l ++ bef, rest)).
Proof.
  intros H. unfold read_vlq. cbn [fst snd]. rewrite (read_digits_spec u l H) by lia.
  rewrite Z.add_0_l, Z.mul_1_r. reflexivity.
Qed.

Lemma read_write_vlq v bef rest :
  read_vlq (bef, write_vlq v ++ rest) = (Some v, (rev (write_vlq v) ++ bef, rest)).
Proof. rewrite (read_vlq_spec _ _ _ _ (write_vlq_spec v)), unzig_zigzag. reflexivity. Qed.

Lemma write_vlq_head v : exists d tl, write_vlq v = d :: tl /\ N.eqb d COMMA = false /\ N.eqb d SEMI = false.
Proof.
  destruct (write_vlq_spec v) as [d Hd|x u l Hx _]; eexists _, _; (split; [reflexivity|apply b64enc_not_sep; lia]).
Qed.

Lemma write_vlq_len v : (1 <= length (write_vlq v))%nat.
Proof. destruct (write_vlq_head v) as (d & tl & -> & _). cbn. lia. Qed.

Lemma write_vlq_last v : exists pre d, write_vlq v = pre ++ [b64enc d] /\ 0 <= d < 32.
Proof.
  induction (write_vlq_spec v) as [d Hd|x u l _ _ (pre & d & -> & Hd)].
  - exists [], d. auto.
  - exists (b64enc (32 + x) :: pre), d. auto.
Qed.

Definition sep_start (l : str) : bool :=
  match l with [] => false | c :: _ => N.eqb c COMMA || N.eqb c SEMI end.

Lemma read_vlq_sep bef l : sep_start l = true -> read_vlq (bef, l) = (None, (bef, l)).
Proof.
  destruct l as [|c r]; [discriminate|]. cbn [sep_start]. intros H.
  unfold read_vlq. cbn [read_digits fst snd].
  apply orb_prop in H. destruct H as [H|H]; apply N.eqb_eq in H; subst c; reflexivity.
Qed.

Definition extends (a b : list str) : Prop := forall i x, tbl_get a i = Some x -> tbl_get b i = Some x.

Lemma intern_get x tbl i tbl' : intern x tbl = (i, tbl') -> extends tbl tbl' /\ tbl_get tbl' i = Some x.
Proof.
  unfold intern, extends, tbl_get. destruct (index_of x tbl) eqn:E; intros H; inversion H; subst; clear H.
  - split; [auto|]. replace (Z.of_nat n <? 0) with false by lia. rewrite Nat2Z.id.
    exact (index_of_nth str_eqb (list_eqb_eq N.eqb N.eqb_eq) _ _ _ E).
  - split.
    + intros j y. destruct (j <? 0); [discriminate|]. intros Hj. rewrite nth_error_app1; [exact Hj|]. apply nth_error_Some. congruence.
    + replace (Z.of_nat (length tbl) <? 0) with false by lia. rewrite Nat2Z.id, nth_error_app2, Nat.sub_diag by lia. reflexivity.
Qed.

(* The shape of what one iteration of EncodeMappings writes: line separators, at most one comma, then some
   numbers (1, 4 or 5; which values they are is not said here, [dec_one] follows them). *)
Lemma enc_one_shape c comma srcs names m b c' srcs' names' :
  enc_one c comma srcs names m = (b, c', srcs', names') ->
  exists vs, b = repeat SEMI (Z.to_nat (m_gl m - c_gl c)) ++
                 (if (if c_gl c <? m_gl m then false else comma) then [COMMA] else []) ++ concat (map write_vlq vs).
Proof.
  unfold enc_one. destruct (is_empty (m_file m)).
  - intros H; inversion H; subst. eexists [_]. cbn [map concat]. rewrite app_nil_r. reflexivity.
  - destruct (intern (m_file m) srcs) as [fi s1]. destruct (is_empty (m_name m)).
    + intros H; inversion H; subst. eexists [_; _; _; _]. cbn [map concat]. rewrite app_nil_r. reflexivity.
    + destruct (intern (m_name m) names) as [ni n1].
      intros H; inversion H; subst. eexists [_; _; _; _; _]. cbn [map concat]. rewrite app_nil_r. reflexivity.
Qed.

Lemma enc_from_cons c comma srcs names m r b srcs' names' :
  enc_from c comma srcs names (m :: r) = (b, srcs', names') ->
  exists b1 c1 s1 n1 b2,
    enc_one c comma srcs names m = (b1, c1, s1, n1) /\ enc_from c1 true s1 n1 r = (b2, srcs', names') /\ b = b1 ++ b2.
Proof.
  cbn [enc_from]. destruct (enc_one c comma srcs names m) as [[[b1 c1] s1] n1].
  destruct (enc_from c1 true s1 n1 r) as [[b2 s2] n2] eqn:E2. intros H; inversion H; subst.
  exists b1, c1, s1, n1, b2. auto.
Qed.

(* after the first mapping every piece starts with a separator *)
Lemma enc_one_sep c srcs names m b c' srcs' names' rest :
  enc_one c true srcs names m = (b, c', srcs', names') -> sep_start (b ++ rest) = true.
Proof.
  intros H. destruct (enc_one_shape _ _ _ _ _ _ _ _ _ H) as (vs & ->).
  destruct (Z.ltb_spec (c_gl c) (m_gl m)).
  - destruct (Z.to_nat (m_gl m - c_gl c)) eqn:K; [lia|reflexivity].
  - replace (Z.to_nat (m_gl m - c_gl c)) with O by lia. reflexivity.
Qed.

(* [decodes srcs names c l acc r]: at cursor c, in front of l and with acc collected, the decoder ends with r -
   whatever it has read before, and with any fuel that covers l.  The lemmas below take the decoder over one piece
   of the string each: from what it answers behind the piece to what it answers in front of it. *)
Definition decodes (srcs names : list str) (c : cur) (l : str) (acc : list mapping) (r : option (list mapping)) : Prop :=
  forall fuel bef, (length l <= fuel)%nat -> dec_loop fuel srcs names c (bef, l) acc = r.

Lemma decodes_nil srcs names c acc : decodes srcs names c [] acc (Some (rev acc)).
Proof. intros [|f] bef _; reflexivity. Qed.

Lemma decodes_comma srcs names c l acc r : decodes srcs names c l acc r -> decodes srcs names c (COMMA :: l) acc r.
Proof.
  intros K [|f] bef Hf; cbn [length] in Hf; [lia|].
  cbn [dec_loop fst snd]. change (N.eqb COMMA COMMA) with true. apply K. lia.
Qed.

Lemma decodes_seps srcs names c g (cm : bool) l acc r : c_gl c <= g ->
  decodes srcs names
    {| c_gl := g; c_gc := if c_gl c <? g then 0 else c_gc c; c_of := c_of c; c_ol := c_ol c; c_oc := c_oc c; c_on := c_on c |}
    l acc r ->
  decodes srcs names c (repeat SEMI (Z.to_nat (g - c_gl c)) ++ (if cm then [COMMA] else []) ++ l) acc r.
Proof.
  remember (Z.to_nat (g - c_gl c)) as k eqn:Hk. revert c Hk. induction k as [|k IH]; intros c Hk Hle K.
  - replace g with (c_gl c) in K by lia. rewrite Z.ltb_irrefl in K. destruct c. destruct cm; [apply decodes_comma|]; exact K.
  - (* one separator: a line on, in column 0 *)
    intros [|f] bef Hf; cbn [repeat app length] in Hf; [lia|].
    cbn [repeat app dec_loop fst snd]. change (N.eqb SEMI COMMA) with false. change (N.eqb SEMI SEMI) with true. cbn iota.
    apply IH; cbn [c_gl c_gc c_of c_ol c_oc c_on]; [lia | lia | | lia].
    replace (c_gl c <? g) with true in K by lia. destruct (c_gl c + 1 <? g); exact K.
Qed.

(* the decoder's progress check after a segment: a number has been consumed *)
Lemma vlq_progress v l (rest : str) : (length rest <= length l)%nat -> Nat.leb (length (write_vlq v ++ l)) (length rest) = false.
Proof. intros H. apply Nat.leb_gt. rewrite app_length. pose proof (write_vlq_len v). lia. Qed.

(* In front of a number the decoder's loop is in its body: one round unfolded, the string under the loop's [match]
   (its first occurrence) shown to start with the number's first digit, the two separator tests decided on that. *)
Ltac at_number v :=
  let E := fresh "E" in let A := fresh "A" in let B := fresh "B" in
  destruct (write_vlq_head v) as (? & ? & E & A & B);
  cbn [dec_loop fst snd]; rewrite E at 1; cbn [app]; rewrite A, B; clear E A B.
Ltac rd_vlq := repeat (rewrite read_write_vlq; cbn beta iota).
Ltac rd_sep Hs := repeat (rewrite (read_vlq_sep _ _ Hs); cbn beta iota).

(* The three kinds of segment, read from cursor c; each is stated with the values the cursor arrives at, the
   numbers in the string being the differences.  After five fields the decoder reads no further, so anything may
   follow; after one field a separator must (at the end of the string the segment is lost, see [trailing_witness]);
   the four-field one comes last: at the end of the string it needs [lone_digit_ends]. *)
Lemma seg1 srcs names c g rest acc r : sep_start rest = true ->
  decodes srcs names {| c_gl := c_gl c; c_gc := g; c_of := c_of c; c_ol := c_ol c; c_oc := c_oc c; c_on := c_on c |} rest
    ({| m_gl := c_gl c; m_gc := g; m_file := []; m_ol := 0; m_oc := 0; m_name := [] |} :: acc) r ->
  decodes srcs names c (write_vlq (g - c_gc c) ++ rest) acc r.
Proof.
  intros Hs K [|f] bef Hf; rewrite app_length in Hf; pose proof (write_vlq_len (g - c_gc c)); [lia|].
  at_number (g - c_gc c). rd_vlq. rd_sep Hs.
  cbn [add_opt cnt Nat.add c_gl c_gc fst snd]. rewrite Zplus_minus, vlq_progress by lia. apply K. lia.
Qed.

Lemma seg5 srcs names c g o ol oc n rest acc fl nm r :
  tbl_get srcs o = Some fl -> tbl_get names n = Some nm ->
  decodes srcs names {| c_gl := c_gl c; c_gc := g; c_of := o; c_ol := ol; c_oc := oc; c_on := n |} rest
    ({| m_gl := c_gl c; m_gc := g; m_file := fl; m_ol := ol; m_oc := oc; m_name := nm |} :: acc) r ->
  decodes srcs names c (write_vlq (g - c_gc c) ++ write_vlq (o - c_of c) ++ write_vlq (ol - c_ol c) ++
                        write_vlq (oc - c_oc c) ++ write_vlq (n - c_on c) ++ rest) acc r.
Proof.
  intros Ht Hn K [|f] bef Hf; rewrite !app_length in Hf; pose proof (write_vlq_len (g - c_gc c)); [lia|].
  at_number (g - c_gc c). rd_vlq.
  cbn [add_opt cnt Nat.add c_gl c_gc c_of c_ol c_oc c_on fst snd].
  rewrite !Zplus_minus, Ht, Hn, vlq_progress by (rewrite !app_length; lia). apply K. lia.
Qed.

(* readVLQ at EOF fails, and its UnreadByte steps back over the digit read last *)
Lemma read_vlq_eof d bef : read_vlq (@pair (list N) (list N) (d :: bef) []) = (None, @pair (list N) (list N) bef [d]).
Proof. reflexivity. Qed.

(* So after a four-field segment at the very end of the string, where the fifth readVLQ has un-read the
   last digit, the loop goes round once more on that digit alone: the first, third and fifth readVLQ read
   it, the second and fourth un-read it, three "numbers" are counted, nothing is appended, and the loop ends. *)
Lemma lone_digit_ends srcs names c d acc r : 0 <= d < 32 ->
  decodes srcs names c [] acc r -> decodes srcs names c [b64enc d] acc r.
Proof.
  intros Hd K [|f] bef Hf; cbn [length] in Hf; [lia|]. rewrite <- (K O [] (Nat.le_refl _)).
  destruct (b64enc_not_sep d ltac:(lia)) as [A B]. cbn [dec_loop fst snd]. rewrite A, B.
  pose proof (read_vlq_spec d [b64enc d] bef [] (vd_last d Hd)) as E1. cbn [app rev] in E1.
  unfold rdr, str in *. rewrite E1. cbn beta iota.
  rewrite read_vlq_eof. cbn beta iota. rewrite E1. cbn beta iota.
  rewrite read_vlq_eof. cbn beta iota. rewrite E1. cbn beta iota.
  cbn [cnt Nat.add snd length Nat.leb]. destruct f; reflexivity.
Qed.

Lemma seg4 srcs names c g o ol oc rest acc fl r :
  sep_start rest = true \/ rest = [] -> tbl_get srcs o = Some fl ->
  decodes srcs names {| c_gl := c_gl c; c_gc := g; c_of := o; c_ol := ol; c_oc := oc; c_on := c_on c |} rest
    ({| m_gl := c_gl c; m_gc := g; m_file := fl; m_ol := ol; m_oc := oc; m_name := [] |} :: acc) r ->
  decodes srcs names c (write_vlq (g - c_gc c) ++ write_vlq (o - c_of c) ++ write_vlq (ol - c_ol c) ++
                        write_vlq (oc - c_oc c) ++ rest) acc r.
Proof.
  intros Hrest Ht K [|f] bef Hf; rewrite !app_length in Hf; pose proof (write_vlq_len (g - c_gc c)); [lia|].
  pose proof (write_vlq_len (oc - c_oc c)).
  at_number (g - c_gc c). rd_vlq. destruct Hrest as [Hs| ->].
  - rd_sep Hs.
    cbn [add_opt cnt Nat.add c_gl c_gc c_of c_ol c_oc c_on fst snd].
    rewrite !Zplus_minus, Ht, vlq_progress by (rewrite !app_length; lia). apply K. lia.
  - destruct (write_vlq_last (oc - c_oc c)) as (pre & d & Hp & Hd).
    rewrite Hp at 1. rewrite rev_app_distr. cbn [rev app].
    rewrite read_vlq_eof. cbn beta iota.
    cbn [add_opt cnt Nat.add c_gl c_gc c_of c_ol c_oc c_on fst snd].
    rewrite !Zplus_minus, Ht, vlq_progress by (rewrite !app_length; cbn [length]; lia).
    apply (lone_digit_ends _ _ _ d _ _ Hd K). cbn [length]. pose proof (write_vlq_len (o - c_of c)). lia.
Qed.

(* One mapping: if the decoder, from the encoder's new cursor and with [canon m] collected, ends with r on what
   follows, then from the encoder's old cursor it ends with r on what the encoder wrote for m and what follows.
   What follows must start with a separator, or be empty after a segment with a file (a lone final number would
   be lost, see [trailing_witness]).  The decoder may hold any tables that extend the encoder's new ones. *)
Lemma dec_one c comma srcs names m b c1 s1 n1 :
  enc_one c comma srcs names m = (b, c1, s1, n1) -> c_gl c <= m_gl m ->
  c_gl c1 = m_gl m /\ extends srcs s1 /\ extends names n1 /\
  forall Sf Nf rest acc r, extends s1 Sf -> extends n1 Nf ->
    sep_start rest = true \/ rest = [] /\ is_empty (m_file m) = false ->
    decodes Sf Nf c1 rest (canon m :: acc) r -> decodes Sf Nf c (b ++ rest) acc r.
Proof.
  unfold enc_one. destruct m as [gl gc fl ol oc nm]. cbn [m_gl m_gc m_file m_ol m_oc m_name].
  intros E Hle.
  replace (if c_gl c <? gl then gl else c_gl c) with gl in E by (destruct (Z.ltb_spec (c_gl c) gl); lia).
  destruct fl as [|x fl]; cbn [is_empty] in *.
  - (* no file: one field *)
    inversion E; subst b c1 s1 n1; clear E. split; [reflexivity|]. do 2 (split; [exact (fun _ _ E => E)|]).
    intros Sf Nf rest acc r _ _ [Hs|[_ X]] K; [|discriminate X].
    rewrite <- !app_assoc. apply decodes_seps; [exact Hle|]. refine (seg1 Sf Nf _ gc rest acc r Hs _). exact K.
  - destruct (intern (x :: fl) srcs) as [fi s1'] eqn:Ei. destruct (intern_get _ _ _ _ Ei) as [Xs Hget].
    destruct nm as [|y nm]; cbn [is_empty] in *.
    + (* a file, no name: four fields *)
      inversion E; subst b c1 s1' n1; clear E. split; [reflexivity|]. split; [exact Xs|]. split; [exact (fun _ _ E => E)|].
      intros Sf Nf rest acc r HS _ Hrest K.
      rewrite <- !app_assoc. apply decodes_seps; [exact Hle|].
      refine (seg4 Sf Nf _ gc fi ol oc rest acc _ r ltac:(tauto) (HS _ _ Hget) _). exact K.
    + (* a file and a name: five fields *)
      destruct (intern (y :: nm) names) as [ni n1'] eqn:Ej. destruct (intern_get _ _ _ _ Ej) as [Xn Hgetn].
      inversion E; subst b c1 s1' n1'; clear E. split; [reflexivity|]. split; [exact Xs|]. split; [exact Xn|].
      intros Sf Nf rest acc r HS HN _ K.
      rewrite <- !app_assoc. apply decodes_seps; [exact Hle|].
      refine (seg5 Sf Nf _ gc fi ol oc ni rest acc _ _ r (HS _ _ Hget) (HN _ _ Hgetn) _). exact K.
Qed.

(* The decoder reads the whole string with the final tables, and [dec_one] asks that they extend the tables after its
   mapping: so the growth of the tables is carried along. *)
Lemma dec_enc : forall ms c comma srcs names b srcs' names',
  enc_from c comma srcs names ms = (b, srcs', names') ->
  lines_sorted (c_gl c) ms = true -> last_has_file ms = true ->
  extends srcs srcs' /\ extends names names' /\
  forall acc, decodes srcs' names' c b acc (Some (rev acc ++ map canon ms)).
Proof.
  induction ms as [|m r IH]; intros c comma srcs names b srcs' names' H Hsort Hlast.
  - inversion H; subst. do 2 (split; [exact (fun _ _ E => E)|]). intros acc. cbn [map]. rewrite app_nil_r. apply decodes_nil.
  - destruct (enc_from_cons _ _ _ _ _ _ _ _ _ H) as (b1 & c1 & s1 & n1 & b2 & E1 & E2 & ->).
    cbn [lines_sorted] in Hsort. apply andb_prop in Hsort. destruct Hsort as [Hle Hsort].
    (* what follows this segment: nothing (last mapping, which then has a file) or a separator *)
    assert (Hrest : (sep_start b2 = true \/ b2 = [] /\ is_empty (m_file m) = false) /\ last_has_file r = true).
    { destruct r as [|m' r'].
      - inversion E2. split; [right; split; [reflexivity|]|reflexivity]. apply negb_true_iff. exact Hlast.
      - destruct (enc_from_cons _ _ _ _ _ _ _ _ _ E2) as (? & ? & ? & ? & ? & E3 & _ & ->).
        split; [left; exact (enc_one_sep _ _ _ _ _ _ _ _ _ E3)|exact Hlast]. }
    destruct Hrest as [Hrest Hlast'].
    destruct (dec_one _ _ _ _ _ _ _ _ _ E1 ltac:(lia)) as (Hgl & Xs1 & Xn1 & Hq). rewrite <- Hgl in Hsort.
    destruct (IH _ _ _ _ _ _ _ E2 Hsort Hlast') as (Xs & Xn & K).
    do 2 (split; [intros i x E; auto|]). intros acc. apply (Hq _ _ _ _ _ Xs Xn Hrest).
    specialize (K (canon m :: acc)). cbn [rev] in K. rewrite <- app_assoc in K. exact K.
Qed.

Theorem mappings_roundtrip : forall ms s srcs names,
  lines_sorted 1 ms = true -> last_has_file ms = true ->
  encode_mappings ms = (s, srcs, names) ->
  decode_mappings srcs names s = Some (map canon ms).
Proof.
  intros ms s srcs names Hs Hl He.
  exact (proj2 (proj2 (dec_enc ms cur0 false [] [] s srcs names He Hs Hl)) [] (length s) [] (Nat.le_refl _)).
Qed.

Definition out_char (c : N) : bool :=
  match b64dec c with Some _ => true | None => N.eqb c COMMA || N.eqb c SEMI end.

Lemma write_vlq_chars v : forallb out_char (write_vlq v) = true.
Proof.
  induction (write_vlq_spec v); cbn [forallb]; unfold out_char at 1; rewrite b64_roundtrip by lia; [reflexivity|assumption].
Qed.

Lemma enc_one_chars c comma srcs names m b c' s' n' :
  enc_one c comma srcs names m = (b, c', s', n') -> forallb out_char b = true.
Proof.
  intros H. destruct (enc_one_shape _ _ _ _ _ _ _ _ _ H) as (vs & ->). clear H.
  rewrite !forallb_app. apply andb_true_intro; split; [|apply andb_true_intro; split].
  - apply forallb_forall. intros x Hx. apply repeat_spec in Hx. subst x. reflexivity.
  - destruct (if c_gl c <? m_gl m then false else comma); reflexivity.
  - induction vs as [|v vs IH]; cbn [map concat forallb]; [reflexivity|]. rewrite forallb_app, write_vlq_chars. exact IH.
Qed.

Lemma enc_from_chars : forall ms c comma srcs names b srcs' names',
  enc_from c comma srcs names ms = (b, srcs', names') -> forallb out_char b = true.
Proof.
  induction ms as [|m r IH]; intros c comma srcs names b srcs' names' H.
  - inversion H. reflexivity.
  - destruct (enc_from_cons _ _ _ _ _ _ _ _ _ H) as (b1 & c1 & s1 & n1 & b2 & E1 & E2 & ->).
    rewrite forallb_app, (enc_one_chars _ _ _ _ _ _ _ _ _ E1), (IH _ _ _ _ _ _ _ E2). reflexivity.
Qed.

(* a list that ends in a mapping without a file (it encodes as "AAqBkC,A"): the decoder loses the last one, see Props/C19.v *)
Definition trailing_witness : list mapping :=
  [ {| m_gl := 1; m_gc := 0; m_file := [118%N]; m_ol := 22; m_oc := 34; m_name := [] |};
    {| m_gl := 1; m_gc := 0; m_file := []; m_ol := 0; m_oc := 0; m_name := [] |} ].
Definition trailing_result : option (list mapping) :=
  let '(s, a, b) := encode_mappings trailing_witness in decode_mappings a b s.
