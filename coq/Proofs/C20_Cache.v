(* C20 — the build cache of Model/C20_Cache.v.  The key string determines the [common] part of the configuration and
   the import path ([key_injective]: every writer behind it is a [prefix_code]).  Over an abstract hash and codec
   (section [Cache]): what a Store call leaves in every file but its temp file however it ends ([store_frame],
   [store_final]), hence a Load after any history of stores, crashes, truncations and deletions returns what the
   last published store for that key wrote or misses ([load_sound]).  A toy codec that satisfies the hypotheses
   made on the codec ([toy_codec_ok]). *)
From Coq Require Import String Ascii.
From Coq Require Import List NArith ZArith Bool Arith Lia.
From Verif Require Import Base.Lists Base.PrefixCode Model.C20_Cache.
Import ListNotations.
Local Open Scope N_scope.

Lemma bytes_eqb_spec : forall a b, reflect (a = b) (bytes_eqb a b).
Proof. intros a b. apply iff_reflect. symmetry. exact (list_eqb_eq N.eqb N.eqb_eq a b). Qed.

Lemma bytes_eqb_refl : forall a, bytes_eqb a a = true.
Proof. intro a. destruct (bytes_eqb_spec a a); congruence. Qed.

Lemma bytes_eqb_neq : forall a b, a <> b -> bytes_eqb a b = false.
Proof. intros a b H. destruct (bytes_eqb_spec a b); congruence. Qed.

(* value of a lower-case hex digit: '0' = 48 .. '9' = 57, 'a' = 97 *)
Definition unhexdig (d : N) : N := if d <? 58 then d - 48 else d - 87.

(* inverse of quote_byte on the front of a byte string (92 = backslash, 120 = 'x') *)
Definition unquote_byte (l : bytes) : option (N * bytes) :=
  match l with
  | [] => None
  | b :: r =>
      if b =? 92 then
        match r with
        | [] => None
        | x :: r' =>
            if x =? 34 then Some (34, r') else if x =? 92 then Some (92, r')
            else if x =? 97 then Some (7, r') else if x =? 98 then Some (8, r')
            else if x =? 102 then Some (12, r') else if x =? 110 then Some (10, r')
            else if x =? 114 then Some (13, r') else if x =? 116 then Some (9, r')
            else if x =? 118 then Some (11, r')
            else if x =? 120 then
              match r' with
              | h1 :: h2 :: r'' => Some (16 * unhexdig h1 + unhexdig h2, r'')
              | _ => None
              end
            else None
        end
      else Some (b, r)
  end.

Lemma unhex_hex : forall n, unhexdig (hexdig n) = n.
Proof.
  intros n. unfold hexdig, unhexdig.
  destruct (N.ltb_spec n 10).
  - destruct (N.ltb_spec (48 + n) 58); lia.
  - destruct (N.ltb_spec (87 + n) 58); lia.
Qed.

Lemma unquote_quote_byte : forall b X, unquote_byte (quote_byte b ++ X) = Some (b, X).
Proof.
  intros b X. unfold quote_byte.
  (* the nine two-character escapes *)
  do 9 (match goal with |- context [b =? ?n] => destruct (N.eqb_spec b n) as [->|]; [reflexivity|] end).
  destruct ((b <? 32) || (b =? 127)).
  - cbn [app unquote_byte N.eqb Pos.eqb]. rewrite !unhex_hex.
    f_equal. f_equal. rewrite (N.div_mod b 16) at 3 by lia. reflexivity.
  - cbn [app unquote_byte]. destruct (N.eqb_spec b 92); [contradiction|reflexivity].
Qed.

Lemma quote_byte_prefix_code : prefix_code quote_byte.
Proof. exact (parser_prefix_code quote_byte unquote_byte unquote_quote_byte). Qed.

Lemma esc_cons : forall a s, esc (a :: s) = quote_byte a ++ esc s.
Proof. reflexivity. Qed.

(* an escaped byte is not a bare double quote *)
Lemma quote_byte_head : forall b X r, 34 :: r <> quote_byte b ++ X.
Proof.
  intros b X r Heq. pose proof (f_equal unquote_byte Heq) as Hu.
  rewrite unquote_quote_byte in Hu. injection Hu as Hb _. rewrite <- Hb in Heq. discriminate Heq.
Qed.

Lemma quote_prefix_code : prefix_code quote.
Proof.
  intros s1 s2 r1 r2 Heq. unfold quote in Heq. cbn [app] in Heq. injection Heq as Heq.
  rewrite <- !app_assoc in Heq. exact (flat_map_inj_prefix quote_byte 34 quote_byte_prefix_code quote_byte_head _ _ _ _ Heq).
Qed.

(* BuildTags: the first tag, then each further one behind ", " (44, 32); the list is closed by '}' (125) *)
Lemma tag_items_cons : forall l a, tag_items (a :: l) = quote a ++ flat_map (fun b => 44 :: 32 :: quote b) l.
Proof.
  induction l as [|b l IH]; intro a; [symmetry; apply app_nil_r|].
  change (tag_items (a :: b :: l)) with (quote a ++ 44 :: 32 :: tag_items (b :: l)). rewrite IH. reflexivity.
Qed.

Lemma tag_items_inj : forall l1 l2 r1 r2,
  tag_items l1 ++ 125 :: r1 = tag_items l2 ++ 125 :: r2 -> l1 = l2 /\ r1 = r2.
Proof.
  intros [|a l1] [|b l2] r1 r2 Heq; rewrite ?tag_items_cons in Heq; try discriminate Heq.
  - injection Heq as <-. split; reflexivity.
  - rewrite <- !app_assoc in Heq. apply quote_prefix_code in Heq as [-> Heq].
    apply flat_map_inj_prefix in Heq as [-> ->]; [split; reflexivity| |discriminate].
    intros x y X Y Hxy. apply (app_inv_head [44; 32]) in Hxy. exact (quote_prefix_code _ _ _ _ Hxy).
Qed.

Lemma tags_str_prefix_code : prefix_code tags_str.
Proof.
  intros [l1|] [l2|] r1 r2 Heq; unfold tags_str in Heq.
  2,3: cbn in Heq; discriminate Heq.   (* "[]string{" against "[]string(" *)
  - rewrite <- !app_assoc in Heq. apply app_inv_head in Heq. cbn [app] in Heq.
    apply tag_items_inj in Heq. destruct Heq as [-> ->]. split; reflexivity.
  - apply app_inv_head in Heq. split; [reflexivity|assumption].
Qed.

Lemma common_key_inj_prefix : forall c1 c2 r1 r2,
  common_key c1 ++ r1 = common_key c2 ++ r2 -> common c1 = common c2 /\ r1 = r2.
Proof.
  intros c1 c2 r1 r2 Heq. unfold common_key in Heq.
  pose proof (field_inj quote quote_prefix_code) as Q.
  apply Q in Heq as [H1 Heq]. apply Q in Heq as [H2 Heq]. apply Q in Heq as [H3 Heq]. apply Q in Heq as [H4 Heq].
  apply (field_inj tags_str tags_str_prefix_code) in Heq as [H5 Heq]. apply Q in Heq as [H6 Heq].
  injection Heq as <-. unfold common. rewrite H1, H2, H3, H4, H5, H6. split; reflexivity.
Qed.

Lemma raw_inj : forall c1 ip1 c2 ip2,
  raw c1 ip1 = raw c2 ip2 -> common c1 = common c2 /\ ip1 = ip2.
Proof.
  intros c1 ip1 c2 ip2 Heq. unfold raw in Heq. apply app_inv_head in Heq.
  apply (f_equal (@tl N)) in Heq. cbn [tl] in Heq.
  apply common_key_inj_prefix in Heq as [Hc Hr]. split; [assumption|].
  destruct ip1, ip2; try discriminate; [reflexivity|]. now inversion Hr.
Qed.

Theorem key_injective : forall c1 ip1 c2 ip2,
  wfb c1 ip1 = true -> wfb c2 ip2 = true ->
  key c1 ip1 = key c2 ip2 -> common c1 = common c2 /\ ip1 = ip2.
Proof.
  intros c1 ip1 c2 ip2 W1 W2 Heq. unfold wfb in *.
  destruct (bytes_eqb_spec (key c1 ip1) (raw c1 ip1)) as [E1|]; [|discriminate].
  destruct (bytes_eqb_spec (key c2 ip2) (raw c2 ip2)) as [E2|]; [|discriminate].
  apply raw_inj. congruence.
Qed.

Definition wf_event {E} (ev : event E) : bool :=
  match ev with
  | EStore (Some c) ip _ _ _ _ => wfb c ip
  | _ => true
  end.

Lemma fs_get_del : forall f p q, fs_get (fs_del f p) q = if bytes_eqb p q then None else fs_get f q.
Proof.
  induction f as [|[r c] f IH]; intros p q; cbn [fs_del fs_get]; [now destruct (bytes_eqb p q)|].
  destruct (bytes_eqb_spec r p) as [->|Hrp]; cbn [fs_get]; rewrite IH; destruct (bytes_eqb_spec p q) as [->|]; try reflexivity.
  now rewrite (bytes_eqb_neq r q Hrp).
Qed.

Lemma fs_get_set : forall f p c q, fs_get (fs_set f p c) q = if bytes_eqb p q then Some c else fs_get f q.
Proof. intros f p c q. unfold fs_set. cbn [fs_get]. rewrite fs_get_del. now destruct (bytes_eqb p q). Qed.

Lemma appends_get : forall tmp l f c q, fs_get f tmp = Some c ->
  fs_get (apply_ops f (map (OpAppend tmp) l)) q = if bytes_eqb tmp q then Some (c ++ l) else fs_get f q.
Proof.
  unfold apply_ops. induction l as [|b l IH]; intros f c q Hc; cbn [map fold_left].
  - rewrite app_nil_r. destruct (bytes_eqb_spec tmp q) as [<-|]; [exact Hc | reflexivity].
  - cbn [apply_op]. rewrite Hc, (IH _ (c ++ [b])), <- app_assoc, fs_get_set by (now rewrite fs_get_set, bytes_eqb_refl).
    now destruct (bytes_eqb tmp q).
Qed.

(* the steps of a Store before the rename, for all the bytes or some of them: the temp file holds what was
   written, no other file changes *)
Lemma create_appends_get : forall tmp l f q,
  fs_get (apply_ops f (OpCreate tmp :: map (OpAppend tmp) l)) q = if bytes_eqb tmp q then Some l else fs_get f q.
Proof.
  intros tmp l f q. change (apply_ops f (?o :: ?r)) with (apply_ops (apply_op f o) r). cbn [apply_op].
  rewrite (appends_get tmp l _ []), fs_get_set by (now rewrite fs_get_set, bytes_eqb_refl). now destruct (bytes_eqb tmp q).
Qed.

Lemma apply_ops_app : forall f l1 l2, apply_ops f (l1 ++ l2) = apply_ops (apply_ops f l1) l2.
Proof. intros. unfold apply_ops. apply fold_left_app. Qed.

Section Cache.
  Variable E : Type.
  Variable H : bytes -> bytes.
  Variable enc : Z -> E -> bytes.
  Variable unzip : bytes -> option bytes.
  Variable dec_time : bytes -> option Z.
  Variable dec_body : bytes -> option E.

  Notation store := (store E H enc).
  Notation load := (load E H unzip dec_time dec_body).
  Notation deserialize := (deserialize E unzip dec_time dec_body).
  Notation dec_full := (dec_full E unzip dec_time dec_body).
  Notation store_ops := (store_ops E H enc).
  Notation fail_ops := (fail_ops E H enc).
  Notation final_name := (final_name H).
  Notation temp_name := (temp_name H).
  Notation run := (run E H enc).
  Notation last_done := (last_done E H enc).
  Notation publishes := (publishes E H enc).

  Definition pre_ops (c : cfg) (ip : bytes) (t : Z) (e : E) (rnd : bytes) : list fsop :=
    OpCreate (temp_name c ip rnd) :: map (OpAppend (temp_name c ip rnd)) (enc t e).

  Lemma store_ops_split : forall c ip t e rnd,
    store_ops c ip t e rnd = pre_ops c ip t e rnd ++ [OpRename (temp_name c ip rnd) (final_name c ip)].
  Proof. reflexivity. Qed.

  Lemma store_done_get : forall f c ip t e rnd q,
    fs_get (apply_ops f (store_ops c ip t e rnd)) q =
    if bytes_eqb (final_name c ip) q then Some (enc t e)
    else if bytes_eqb (temp_name c ip rnd) q then None else fs_get f q.
  Proof.
    intros f c ip t e rnd q. rewrite store_ops_split, apply_ops_app.
    unfold apply_ops at 1. cbn [fold_left apply_op]. unfold pre_ops. rewrite create_appends_get, bytes_eqb_refl.
    rewrite fs_get_set, fs_get_del, create_appends_get.
    now destruct (bytes_eqb (final_name c ip) q), (bytes_eqb (temp_name c ip rnd) q).
  Qed.

  (* a crash before the rename executes a prefix of pre_ops *)
  Lemma firstn_store_ops : forall c ip t e rnd n,
    (n < length (store_ops c ip t e rnd))%nat ->
    firstn n (store_ops c ip t e rnd) = firstn n (pre_ops c ip t e rnd).
  Proof.
    intros c ip t e rnd n Hn. rewrite store_ops_split in *. rewrite app_length in Hn. cbn [length] in Hn.
    rewrite firstn_app. replace (n - length (pre_ops c ip t e rnd))%nat with O by lia.
    cbn [firstn]. apply app_nil_r.
  Qed.

  Lemma deserialize_spec : forall b tsrc,
    deserialize b tsrc =
    match dec_full b with
    | Some (t, e) => if (t <? tsrc)%Z then None else Some (t, e)
    | None => None
    end.
  Proof.
    intros b tsrc. unfold C20_Cache.deserialize, C20_Cache.dec_full.
    destruct (unzip b) as [d|]; [|reflexivity].
    destruct (dec_time d) as [t|]; [|reflexivity].
    destruct (dec_body d); [reflexivity|]. now destruct (t <? tsrc)%Z.
  Qed.

  Hypothesis dec_enc : forall t e, dec_full (enc t e) = Some (t, e).

  Theorem load_after_store : forall f c ip t e rnd tsrc,
    is_test c ip = false -> (tsrc <= t)%Z ->
    snd (store f (Some c) ip t e rnd Done) = true /\
    load (fst (store f (Some c) ip t e rnd Done)) (Some c) ip tsrc = Some (t, e).
  Proof.
    intros f c ip t e rnd tsrc Ht Hle. unfold C20_Cache.store, C20_Cache.load. rewrite Ht. cbn [fst snd].
    split; [reflexivity|]. rewrite store_done_get, bytes_eqb_refl, deserialize_spec, dec_enc.
    destruct (Z.ltb_spec t tsrc); [lia|reflexivity].
  Qed.

  Theorem test_package_never_cached : forall f c ip t e rnd o tsrc,
    is_test c ip = true ->
    store f (Some c) ip t e rnd o = (f, false) /\ load f (Some c) ip tsrc = None.
  Proof. intros * Ht. unfold C20_Cache.store, C20_Cache.load. rewrite Ht. split; reflexivity. Qed.

  Theorem nil_cache_never_caches : forall f ip t e rnd o tsrc,
    store f None ip t e rnd o = (f, false) /\ load f None ip tsrc = None.
  Proof. intros. split; reflexivity. Qed.

  Theorem missing_is_miss : forall f c ip tsrc,
    fs_get f (final_name c ip) = None -> load f (Some c) ip tsrc = None.
  Proof. intros * Hf. unfold C20_Cache.load. destruct (is_test c ip); [reflexivity|]. now rewrite Hf. Qed.

  Lemma load_ext : forall f f' oc ip tsrc,
    (forall k, fs_get f' (H k) = fs_get f (H k)) -> load f' oc ip tsrc = load f oc ip tsrc.
  Proof.
    intros f f' oc ip tsrc Hk. unfold C20_Cache.load. destruct oc as [c|]; [|reflexivity].
    destruct (is_test c ip); [reflexivity|]. unfold C20_Cache.final_name. now rewrite Hk.
  Qed.

  (* What any Store call, however it ends, does to every file but its own temp file: the entry appears under the
     final name if the call got as far as the rename, and nothing else changes. *)
  Lemma store_frame : forall f c ip t e rnd o q, q <> temp_name c ip rnd ->
    fs_get (fst (store f (Some c) ip t e rnd o)) q =
    if negb (is_test c ip) && publishes c ip t e rnd o && bytes_eqb (final_name c ip) q
    then Some (enc t e) else fs_get f q.
  Proof.
    intros f c ip t e rnd o q Hq. unfold C20_Cache.store. destruct (is_test c ip); [reflexivity|]. cbn [negb andb].
    assert (Hpub : fs_get (apply_ops f (store_ops c ip t e rnd)) q =
                   if bytes_eqb (final_name c ip) q then Some (enc t e) else fs_get f q).
    { rewrite store_done_get. destruct (bytes_eqb (final_name c ip) q); [reflexivity|].
      rewrite bytes_eqb_neq; [reflexivity|congruence]. }
    destruct o as [|n|n]; cbn [C20_Cache.publishes fst andb].
    - exact Hpub.
    - destruct (Nat.leb_spec (length (store_ops c ip t e rnd)) n) as [Hge|Hlt]; cbn [andb].
      + rewrite firstn_all2 by exact Hge. exact Hpub.
      + (* a prefix of the steps before the rename *)
        rewrite firstn_store_ops by exact Hlt. destruct n as [|n]; [reflexivity|].
        unfold pre_ops. cbn [firstn]. rewrite firstn_map, create_appends_get. now rewrite bytes_eqb_neq by congruence.
    - (* the same steps for the bytes that got through, then the removal *)
      unfold C20_Cache.fail_ops. rewrite app_comm_cons, apply_ops_app. unfold apply_ops at 1. cbn [fold_left apply_op].
      rewrite fs_get_del, create_appends_get. now rewrite bytes_eqb_neq by congruence.
  Qed.

  Variable hlen : nat.
  Hypothesis H_len : forall k, length (H k) = hlen.

  Lemma temp_not_final : forall c ip rnd k, rnd <> [] -> H k <> temp_name c ip rnd.
  Proof.
    intros c ip rnd k Hr Heq. apply (f_equal (@length N)) in Heq.
    unfold C20_Cache.temp_name, C20_Cache.final_name in Heq. rewrite app_length, !H_len in Heq.
    destruct rnd; [congruence|]. cbn [length] in Heq. lia.
  Qed.

  (* a temp name is longer than any final name, so every final file is within [store_frame] *)
  Lemma store_final : forall f c ip t e rnd o k, rnd <> [] ->
    fs_get (fst (store f (Some c) ip t e rnd o)) (H k) =
    if negb (is_test c ip) && publishes c ip t e rnd o && bytes_eqb (final_name c ip) (H k)
    then Some (enc t e) else fs_get f (H k).
  Proof. intros * Hr. apply store_frame, temp_not_final, Hr. Qed.

  Theorem crash_unchanged_or_complete : forall f c ip t e rnd n,
    rnd <> [] ->
    let f' := fst (store f (Some c) ip t e rnd (CrashAfter n)) in
    (forall k, fs_get f' (H k) = fs_get f (H k)) \/
    f' = fst (store f (Some c) ip t e rnd Done).
  Proof.
    intros f c ip t e rnd n Hr f'.
    destruct (Nat.leb_spec (length (store_ops c ip t e rnd)) n) as [Hge|Hlt].
    - right. unfold f', C20_Cache.store. destruct (is_test c ip); [reflexivity|]. cbn [fst]. now rewrite firstn_all2.
    - left. intro k. unfold f'. rewrite store_final by exact Hr. cbn [C20_Cache.publishes].
      rewrite (proj2 (Nat.leb_gt _ _) Hlt), andb_false_r. reflexivity.
  Qed.

  Theorem crash_is_miss_or_complete : forall f c ip t e rnd n oc' ip' tsrc,
    rnd <> [] ->
    let f' := fst (store f (Some c) ip t e rnd (CrashAfter n)) in
    load f' oc' ip' tsrc = load f oc' ip' tsrc \/
    load f' oc' ip' tsrc = load (fst (store f (Some c) ip t e rnd Done)) oc' ip' tsrc.
  Proof.
    intros * Hr f'. destruct (crash_unchanged_or_complete f c ip t e rnd n Hr) as [Hu|Hc].
    - left. now apply load_ext.
    - right. subst f'. now rewrite Hc.
  Qed.

  Theorem failed_store_changes_nothing : forall f c ip t e rnd n oc' ip' tsrc,
    rnd <> [] ->
    snd (store f (Some c) ip t e rnd (Fail n)) = false /\
    load (fst (store f (Some c) ip t e rnd (Fail n))) oc' ip' tsrc = load f oc' ip' tsrc.
  Proof.
    intros * Hr. split; [unfold C20_Cache.store; now destruct (is_test c ip)|].
    apply load_ext. intro k. rewrite store_final by exact Hr. cbn [C20_Cache.publishes].
    rewrite andb_false_r. reflexivity.
  Qed.

  (* every proper prefix of a stored file fails to decompress (gzip: unexpected EOF at the latest
     in the trailer, which io.ReadAll reaches) *)
  Hypothesis dec_prefix : forall t e k, (k < length (enc t e))%nat -> dec_full (firstn k (enc t e)) = None.

  Lemma dec_prefix_safe : forall t e k t' e',
    dec_full (firstn k (enc t e)) = Some (t', e') -> (t', e') = (t, e).
  Proof.
    intros t e k t' e' Hd. destruct (Nat.lt_ge_cases k (length (enc t e))) as [Hlt|Hge].
    - rewrite dec_prefix in Hd by assumption. discriminate.
    - rewrite firstn_all2, dec_enc in Hd by assumption. now inversion Hd.
  Qed.

  Lemma deserialize_dec_full : forall b tsrc t e,
    deserialize b tsrc = Some (t, e) -> dec_full b = Some (t, e) /\ (tsrc <= t)%Z.
  Proof.
    intros b tsrc t e. rewrite deserialize_spec. destruct (dec_full b) as [[t0 e0]|]; [|discriminate].
    destruct (Z.ltb_spec t0 tsrc); [discriminate|]. intro Heq. inversion Heq; subst. split; [reflexivity|assumption].
  Qed.

  Theorem truncated_is_miss : forall f c ip t e k tsrc,
    fs_get f (final_name c ip) = Some (firstn k (enc t e)) ->
    (k < length (enc t e))%nat ->
    load f (Some c) ip tsrc = None.
  Proof.
    intros * Hf Hk. unfold C20_Cache.load. destruct (is_test c ip); [reflexivity|].
    now rewrite Hf, deserialize_spec, dec_prefix.
  Qed.

  (* one changed byte: CRC-32 (and the deflate/size checks) detect it, or it fell into header bits
     that carry no information (MTIME, XFL, OS) and the entry is unchanged *)
  Definition crc32_detects_single_byte_damage : Prop :=
    forall t e pre x y post, enc t e = pre ++ x :: post -> x <> y ->
      dec_full (pre ++ y :: post) = None \/ dec_full (pre ++ y :: post) = Some (t, e).

  Theorem flipped_is_miss_or_same : crc32_detects_single_byte_damage ->
    forall f c ip t e pre x y post tsrc,
      enc t e = pre ++ x :: post -> x <> y ->
      fs_get f (final_name c ip) = Some (pre ++ y :: post) ->
      load f (Some c) ip tsrc = None \/ load f (Some c) ip tsrc = Some (t, e).
  Proof.
    intros Hcrc f c ip t e pre x y post tsrc He Hxy Hf. unfold C20_Cache.load.
    destruct (is_test c ip); [left; reflexivity|]. rewrite Hf, deserialize_spec.
    destruct (Hcrc t e pre x y post He Hxy) as [-> | ->]; [left; reflexivity|].
    destruct (t <? tsrc)%Z; [left|right]; reflexivity.
  Qed.

  Section Inv.
    Variable k0 : bytes.

    (* the file of key k0 holds a prefix of what the last published store for k0 wrote *)
    Definition inv (h : list (event E)) : Prop :=
      match fs_get (run h) (H k0) with
      | None => True
      | Some b => exists t e n, last_done h k0 = Some (t, e) /\ b = firstn n (enc t e)
      end.

    Lemma inv_all : forall h,
      rnds_ok E h = true ->
      (forall k, In k (keys_of E h) -> H k = H k0 -> k = k0) ->
      inv h.
    Proof.
      induction h as [|ev h IH]; intros Hr Hinj; [exact I|].
      destruct ev as [oc ip t e rnd o | name k | name]; cbn [rnds_ok keys_of] in Hr, Hinj.
      - (* store *)
        destruct rnd as [|r0 rnd]; [discriminate|]. destruct oc as [c|]; [|exact (IH Hr Hinj)].
        cbn [keys_of] in Hinj. pose proof (IH Hr (fun k Hk => Hinj k (or_intror Hk))) as IH'.
        unfold inv in *. cbn [C20_Cache.run C20_Cache.step C20_Cache.last_done].
        rewrite store_final by discriminate.
        (* on the keys of the history, names are equal exactly when the keys are *)
        replace (bytes_eqb (final_name c ip) (H k0)) with (bytes_eqb (key c ip) k0).
        2:{ unfold C20_Cache.final_name. destruct (bytes_eqb_spec (key c ip) k0) as [->|Hk]; symmetry; [apply bytes_eqb_refl|].
            apply bytes_eqb_neq. intro Heq. exact (Hk (Hinj _ (or_introl eq_refl) Heq)). }
        destruct (negb (is_test c ip) && publishes c ip t e (r0 :: rnd) o && bytes_eqb (key c ip) k0); [|exact IH'].
        exists t, e, (length (enc t e)). split; [reflexivity|symmetry; apply firstn_all].
      - (* truncation of any file *)
        specialize (IH Hr Hinj).
        unfold inv in *. cbn [C20_Cache.run C20_Cache.step C20_Cache.last_done apply_op].
        destruct (fs_get (run h) name) as [b0|] eqn:G; [|exact IH].
        destruct (bytes_eqb_spec name (H k0)) as [->|Hn].
        + rewrite fs_get_set, bytes_eqb_refl. rewrite G in IH. destruct IH as [t1 [e1 [n [Hl ->]]]].
          exists t1, e1, (Nat.min k n). split; [assumption|apply firstn_firstn].
        + rewrite fs_get_set, bytes_eqb_neq by assumption. exact IH.
      - (* deletion of any file *)
        specialize (IH Hr Hinj).
        unfold inv in *. cbn [C20_Cache.run C20_Cache.step C20_Cache.last_done apply_op].
        destruct (bytes_eqb_spec name (H k0)) as [->|Hn].
        + now rewrite fs_get_del, bytes_eqb_refl.
        + rewrite fs_get_del, bytes_eqb_neq by assumption. exact IH.
    Qed.
  End Inv.

  Theorem load_sound : forall h c ip tsrc t e,
    rnds_ok E h = true ->
    (forall k, In k (keys_of E h) -> H k = H (key c ip) -> k = key c ip) ->
    load (run h) (Some c) ip tsrc = Some (t, e) ->
    last_done h (key c ip) = Some (t, e) /\ (tsrc <= t)%Z /\ is_test c ip = false.
  Proof.
    intros h c ip tsrc t e Hr Hinj Hl.
    pose proof (inv_all (key c ip) h Hr Hinj) as Hinv. unfold inv in Hinv.
    unfold C20_Cache.load in Hl. destruct (is_test c ip); [discriminate|].
    unfold C20_Cache.final_name in Hl. destruct (fs_get (run h) (H (key c ip))) as [b|]; [|discriminate].
    destruct Hinv as [t1 [e1 [n [Hd ->]]]].
    apply deserialize_dec_full in Hl. destruct Hl as [Hf Hle].
    apply dec_prefix_safe in Hf. inversion Hf; subst. repeat split; assumption.
  Qed.

  Lemma last_done_in : forall h k t e,
    last_done h k = Some (t, e) ->
    exists c ip rnd o, In (EStore (Some c) ip t e rnd o) h /\ key c ip = k /\ is_test c ip = false /\
                       publishes c ip t e rnd o = true.
  Proof.
    induction h as [|ev h IH]; intros k t e Hl; [discriminate|].
    (* every event but a matching store passes the question on to the older history *)
    assert (Hold : last_done h k = Some (t, e) ->
                   exists c ip rnd o, In (EStore (Some c) ip t e rnd o) (ev :: h) /\ key c ip = k /\
                                      is_test c ip = false /\ publishes c ip t e rnd o = true).
    { intros Hl'. destruct (IH _ _ _ Hl') as (c & ip & rnd & o & Hin & Hrest).
      exists c, ip, rnd, o. split; [now right|exact Hrest]. }
    destruct ev as [[c|] ip1 t1 e1 rnd o | name n | name]; cbn [C20_Cache.last_done] in Hl; try exact (Hold Hl).
    - destruct (is_test c ip1) eqn:Ht; [exact (Hold Hl)|].
      destruct (publishes c ip1 t1 e1 rnd o) eqn:Hp; [|exact (Hold Hl)].
      destruct (bytes_eqb_spec (key c ip1) k) as [Hk|]; [|exact (Hold Hl)].
      inversion Hl; subst. exists c, ip1, rnd, o. repeat split; try assumption. now left.
    - destruct (bytes_eqb name (H k)); [discriminate|exact (Hold Hl)].
  Qed.

  Theorem load_sound_same_config : forall h c ip tsrc t e,
    rnds_ok E h = true ->
    (forall k, In k (keys_of E h) -> H k = H (key c ip) -> k = key c ip) ->
    forallb wf_event h = true -> wfb c ip = true ->
    load (run h) (Some c) ip tsrc = Some (t, e) ->
    (tsrc <= t)%Z /\ is_test c ip = false /\
    exists c' rnd o,
      In (EStore (Some c') ip t e rnd o) h /\ common c' = common c /\ is_test c' ip = false /\
      publishes c' ip t e rnd o = true /\
      last_done h (key c ip) = Some (t, e).
  Proof.
    intros h c ip tsrc t e Hr Hinj Hwf Hwfc Hl.
    destruct (load_sound h c ip tsrc t e Hr Hinj Hl) as [Hd [Hle Ht]].
    split; [assumption|]. split; [assumption|].
    destruct (last_done_in h _ _ _ Hd) as [c' [ip' [rnd [o [Hin [Hk [Ht' Hp]]]]]]].
    assert (Hw' : wfb c' ip' = true).
    { rewrite forallb_forall in Hwf. exact (Hwf _ Hin). }
    destruct (key_injective c' ip' c ip Hw' Hwfc Hk) as [Hc Hip]. subst ip'.
    exists c', rnd, o. repeat split; assumption.
  Qed.
End Cache.

Definition toy_dec_full := dec_full toyE toy_unzip toy_dec_time toy_dec_body.

(* the two elements toy_time writes, and toy_dec_time's reading of them *)
Lemma toy_time_shape : forall t, exists s a, toy_time t = [s; a] /\
  (if s =? 0 then Some (Z.of_N a) else if (s =? 1) && negb (a =? 0) then Some (- Z.of_N a)%Z else None) = Some t.
Proof.
  intro t. unfold toy_time. destruct (Z.ltb_spec t 0).
  - exists 1, (Z.to_N (- t)). split; [reflexivity|].
    change (1 =? 0) with false. change (1 =? 1) with true. cbv iota. cbn [andb].
    destruct (N.eqb_spec (Z.to_N (- t)) 0) as [E0|E0]; [lia|]. cbn [negb]. f_equal. lia.
  - exists 0, (Z.to_N t). split; [reflexivity|]. change (0 =? 0) with true. cbv iota. f_equal. lia.
Qed.

Lemma parse_app : forall e rest, parse_chunks (length e) (toy_chunks e ++ rest) = Some e.
Proof.
  induction e as [|c e IH]; intro rest; [reflexivity|].
  cbn [length parse_chunks toy_chunks flat_map]. rewrite <- app_assoc. cbn [app].
  rewrite Nat2N.id.
  destruct (Nat.ltb_spec (length (c ++ flat_map (fun c0 => N.of_nat (length c0) :: c0) e ++ rest)) (length c)) as [Hl|Hl].
  - rewrite app_length in Hl. lia.
  - rewrite skipn_app_exact.
    change (flat_map (fun c0 => N.of_nat (length c0) :: c0) e) with (toy_chunks e). rewrite IH.
    now rewrite firstn_app_exact.
Qed.

Lemma toy_unzip_length : forall m1 m2 n rest, N.of_nat (length rest) <> n + 8 -> toy_unzip (m1 :: m2 :: n :: rest) = None.
Proof.
  intros m1 m2 n rest Hn. cbn [toy_unzip]. destruct (negb _); [reflexivity|].
  now rewrite (proj2 (N.eqb_neq _ _) Hn).
Qed.

(* the frame: what toy_unzip does with magic, the right length field, data, checksum slot, 7 more *)
Lemma toy_unzip_frame : forall d s r7, length r7 = 7%nat ->
  toy_unzip (31 :: 139 :: N.of_nat (length d) :: d ++ s :: r7) = if s =? toy_sum d then Some d else None.
Proof.
  intros d s r7 H7. cbn [toy_unzip N.eqb Pos.eqb andb negb].
  assert (Hl : N.of_nat (length (d ++ s :: r7)) =? N.of_nat (length d) + 8 = true).
  { apply N.eqb_eq. rewrite app_length. cbn [length]. lia. }
  rewrite Hl. cbn [negb]. rewrite Nat2N.id.
  now rewrite firstn_app_exact, skipn_app_exact.
Qed.

Lemma toy_enc_frame : forall t e,
  toy_enc t e = 31 :: 139 :: N.of_nat (length (toy_body t e)) :: toy_body t e ++ toy_sum (toy_body t e) :: [0; 0; 0; 0; 0; 0; 0].
Proof. reflexivity. Qed.

Lemma toy_unzip_enc : forall t e, toy_unzip (toy_enc t e) = Some (toy_body t e).
Proof. intros. rewrite toy_enc_frame, toy_unzip_frame by reflexivity. now rewrite N.eqb_refl. Qed.

Lemma toy_dec_data : forall t e,
  match toy_dec_time (toy_body t e) with
  | Some t' => match toy_dec_body (toy_body t e) with Some e' => Some (t', e') | None => None end
  | None => None
  end = Some (t, e).
Proof.
  intros t e. destruct (toy_time_shape t) as [s [a [Ht Hdec]]]. unfold toy_body. rewrite Ht.
  cbn [app toy_dec_time toy_dec_body]. rewrite Hdec, Nat2N.id.
  rewrite <- (app_nil_r (toy_chunks e)), parse_app. reflexivity.
Qed.

Theorem toy_dec_enc : forall t e, toy_dec_full (toy_enc t e) = Some (t, e).
Proof. intros. unfold toy_dec_full, dec_full. rewrite toy_unzip_enc. apply toy_dec_data. Qed.

Lemma toy_enc_length : forall t e, length (toy_enc t e) = (3 + length (toy_body t e) + 8)%nat.
Proof. intros. rewrite toy_enc_frame. cbn [length]. rewrite app_length. cbn [length]. lia. Qed.

Theorem toy_prefix : forall t e k, (k < length (toy_enc t e))%nat -> toy_dec_full (firstn k (toy_enc t e)) = None.
Proof.
  intros t e k Hk. rewrite toy_enc_length in Hk. unfold toy_dec_full, dec_full.
  assert (Hu : toy_unzip (firstn k (toy_enc t e)) = None); [|now rewrite Hu].
  rewrite toy_enc_frame. destruct k as [|[|[|k]]]; try reflexivity.
  cbn [firstn]. apply toy_unzip_length. rewrite firstn_length, app_length. cbn [length]. lia.
Qed.

Lemma toy_sum_app : forall a b, toy_sum (a ++ b) = toy_sum a + toy_sum b.
Proof. induction a as [|x a IH]; intro b; cbn [app toy_sum fold_right]; [reflexivity|]. fold (toy_sum (a ++ b)). fold (toy_sum a). rewrite IH. lia. Qed.

(* on which side of the seam of a ++ b an element of it lies *)
Lemma app_eq_cons_split {A} (a b pre post : list A) x :
  a ++ b = pre ++ x :: post ->
  (exists l, a = pre ++ x :: l /\ post = l ++ b) \/ (exists l, pre = a ++ l /\ b = l ++ x :: post).
Proof.
  intros Heq. apply app_eq_app in Heq as [l [[-> Hl]|[-> Hl]]]; [destruct l as [|x' l]|].
  - right. exists []. rewrite !app_nil_r. split; [reflexivity|symmetry; exact Hl].
  - left. injection Hl as -> ->. exists l. auto.
  - right. exists l. auto.
Qed.

(* one changed element is detected, or it lies in the 7 padding elements of the trailer *)
Theorem toy_single_byte_damage : forall t e pre x y post,
  toy_enc t e = pre ++ x :: post -> x <> y ->
  toy_dec_full (pre ++ y :: post) = None \/ toy_dec_full (pre ++ y :: post) = Some (t, e).
Proof.
  intros t e pre x y post He Hxy.
  assert (Hu : toy_unzip (pre ++ y :: post) = None \/ toy_unzip (pre ++ y :: post) = Some (toy_body t e)).
  2:{ unfold toy_dec_full, dec_full. destruct Hu as [-> | ->]; [left; reflexivity|right; apply toy_dec_data]. }
  rewrite toy_enc_frame in He. set (d := toy_body t e) in *.
  (* by where the changed element lies: the two magic elements, the length field, or behind them *)
  destruct pre as [|p0 [|p1 [|p2 pre]]]; cbn [app] in He |- *.
  - left. inversion He; subst. cbn [toy_unzip]. destruct (N.eqb_spec y 31); [congruence|reflexivity].
  - left. inversion He; subst. cbn [toy_unzip]. change (31 =? 31) with true.
    destruct (N.eqb_spec y 139); [congruence|reflexivity].
  - left. inversion He; subst. apply toy_unzip_length. rewrite app_length. cbn [length]. lia.
  - inversion He as [[H0 H1 H2 Hrest]]. clear He. subst p0 p1 p2.
    apply app_eq_cons_split in Hrest as [[l [Hd ->]]|[l [-> Htr]]]; [|destruct l as [|s l]; injection Htr as <- Hpad].
    + (* inside the data: the sum changes *)
      left. change (y :: l ++ ?m) with ((y :: l) ++ m). rewrite app_assoc.
      replace (length d) with (length (pre ++ y :: l)) by (rewrite Hd, !app_length; reflexivity).
      rewrite toy_unzip_frame by reflexivity.
      destruct (N.eqb_spec (toy_sum d) (toy_sum (pre ++ y :: l))) as [Heq|]; [|reflexivity].
      exfalso. rewrite Hd, !toy_sum_app in Heq. cbn [toy_sum fold_right] in Heq. lia.
    + (* the checksum element itself *)
      left. rewrite app_nil_r, <- Hpad, toy_unzip_frame by reflexivity.
      destruct (N.eqb_spec y (toy_sum d)); [congruence|reflexivity].
    + (* padding *)
      right. rewrite <- app_assoc. cbn [app]. rewrite toy_unzip_frame.
      * now rewrite N.eqb_refl.
      * apply (f_equal (@length N)) in Hpad. rewrite app_length in *. cbn [length] in *. lia.
Qed.

Definition codec_ok (E : Type) (enc : Z -> E -> bytes) (unzip : bytes -> option bytes)
           (dec_time : bytes -> option Z) (dec_body : bytes -> option E) : Prop :=
  (forall t e, dec_full E unzip dec_time dec_body (enc t e) = Some (t, e)) /\
  (forall t e k, (k < length (enc t e))%nat -> dec_full E unzip dec_time dec_body (firstn k (enc t e)) = None) /\
  crc32_detects_single_byte_damage E enc unzip dec_time dec_body.

Lemma toy_codec_ok : codec_ok toyE toy_enc toy_unzip toy_dec_time toy_dec_body.
Proof. split; [exact toy_dec_enc|]. split; [exact toy_prefix|exact toy_single_byte_damage]. Qed.
