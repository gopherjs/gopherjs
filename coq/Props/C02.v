(* C02 — Suspending and resuming a goroutine is invisible to the program.
   This file holds ONLY the property theorems (each closed by a lemma of Proofs/ or a few lines from one), their Print Assumptions
   and two non-vacuity examples.
   Models: Model/C02_Flat.v (direct form [exec]/[run_direct]; resumable form [run_code]/[call]/[drive]/[run_flat]
   with frames ($s, $r, $c, locals) and an arbitrary schedule oracle; the translation [annot]/[flatten]/[compile]),
   Model/C02_Blocking.v (propagateFunctionBlocking), Model/C02_Wf.v (decidable structural facts).
   Tie: harness/py/props/c02.py compiles generated programs with the real compiler and compares, per program,
   output under many suspension masks / Decl.Blocking / the skeleton of the emitted JavaScript with
   [run_direct], [run_flat (compile p)], [blocking_flags], [flatten]; it also evaluates [wf_progb (compile p)]. *)
From Coq Require Import List ZArith Bool Arith.
From Verif Require Import Model.C02_Blocking Model.C02_Flat Model.C02_Wf Model.C02_Hoist Model.C02_P4_Range.
From Verif Require Import Proofs.C02_Blocking Proofs.C02_Flat Proofs.C02_Sem Proofs.C02_Compile Proofs.C02_Correct Proofs.C02_Hoist Proofs.C02_P4_Range.
Import ListNotations.

(* THE STATEMENT for the modelled fragment (stage 1: integer locals/globals, println, if/else, for with
   init/cond/post, labels, break/continue, calls, return, the blocking primitive): for EVERY source program and
   EVERY schedule of suspensions the compiled resumable form computes what the direct semantics computes
   (output, returned value, globals).  Proved from
     (B) the flat code of [compile sp] returns what the direct semantics computes     (Proofs/C02_Correct.v),
     (C) [wf_prog (compile p)]: closed marks, unique case labels                      (Proofs/C02_Compile.v),
     (A) a well-formed flat program computes, under every schedule, what its code returns (Proofs/C02_Sem.v).
   `_partial` only with respect to the property TEXT: defers, panics, goto, switch, range, closures and calls
   inside expressions (stage 2) are not in this model — they are covered by the differential runs and, for calls
   inside expressions and for range over a slice, by Model/C02_Hoist.v and Model/C02_P4_Range.v below. *)
Theorem C02_flat_suspend_invariant_partial : forall sp sched nglob fuel main args o,
  src_ok sp = true ->
  run_direct sp nglob fuel main args = Some o ->
  exists fuel', run_flat (compile sp) sched nglob fuel' main args = Some o.
Proof. exact flat_suspend_invariant. Qed.
Print Assumptions C02_flat_suspend_invariant_partial.

(* (B) alone: the translation is correct when nothing suspends. *)
Theorem C02_resumable_form_computes_direct_semantics_partial : forall sp nglob fuel main args o,
  src_ok sp = true ->
  run_direct sp nglob fuel main args = Some o ->
  exists fuel', run_flat (compile sp) never nglob fuel' main args = Some o.
Proof. exact (fun sp => flat_suspend_invariant sp never). Qed.
Print Assumptions C02_resumable_form_computes_direct_semantics_partial.

(* (A) For every flat program — any instruction lists, not only translator output — in which code emitted in
   direct form calls only direct-form functions and case labels are unique: whatever the run WITHOUT any
   suspension returns (value, output, globals, even the number of receives), the run under ANY schedule
   — any subset of the dynamic receive operations suspending the goroutine, the whole call chain unwinding by
   saved frames and being re-entered innermost-last — returns exactly the same, given enough fuel.
   Partial w.r.t. the property text: stage 1 only (no defers/panics/closures/goto; whole-locals frames). *)
Theorem C02_flat_schedule_independent_partial : forall p sched fuel main args w v w',
  wf_prog p ->
  run_machine p never fuel main args w = Some (v, w') ->
  exists fuel', run_machine p sched fuel' main args w = Some (v, w').
Proof.
  intros p sched fuel main args w v w' WF H.
  destruct (schedule_irrelevant p never sched _ _ _ _ _ WF H) as [N A]. exists N. exact (A N (le_n N)).
Qed.
Print Assumptions C02_flat_schedule_independent_partial.

(* (C) The translation model only produces well-formed programs; the head of Proofs/C02_Compile.v says where the
   blocking analysis comes in. *)
Theorem C02_compile_wf : forall sp, src_ok sp = true -> wf_prog (compile sp).
Proof. exact compile_wf. Qed.
Print Assumptions C02_compile_wf.

(* (A)+(C): for EVERY MiniGo source program (calls go to existing functions, loop post statements are simple
   statements) and EVERY schedule, the compiled program computes what it computes without suspensions. *)
Theorem C02_compile_schedule_independent_partial : forall sp sched nglob fuel main args o,
  src_ok sp = true ->
  run_flat (compile sp) never nglob fuel main args = Some o ->
  exists fuel', run_flat (compile sp) sched nglob fuel' main args = Some o.
Proof. intros sp sched nglob fuel main args o SRC. apply flat_schedule_independent, compile_wf, SRC. Qed.
Print Assumptions C02_compile_schedule_independent_partial.

(* Given the result of a terminating run without suspensions, no schedule can produce another.  Of any two schedules,
   without that run: [flat_schedules_agree] (Proofs/C02_Sem.v). *)
Theorem C02_flat_schedules_agree_partial : forall p sc1 sc2 nglob f0 f1 f2 main args o o1 o2,
  wf_prog p ->
  run_flat p never nglob f0 main args = Some o ->
  run_flat p sc1 nglob f1 main args = Some o1 ->
  run_flat p sc2 nglob f2 main args = Some o2 ->
  o1 = o /\ o2 = o.
Proof.
  intros p sc1 sc2 nglob f0 f1 f2 main args o o1 o2 WF H0 H1 H2.
  split; [exact (flat_schedules_agree _ _ _ _ _ _ _ _ _ _ WF H1 H0) | exact (flat_schedules_agree _ _ _ _ _ _ _ _ _ _ WF H2 H0)].
Qed.
Print Assumptions C02_flat_schedules_agree_partial.

(* Functions emitted in direct form never reach the scheduler: identical under every schedule, same fuel. *)
Theorem C02_direct_form_never_suspends : forall p sched, wf_prog p ->
  forall n f args w x, is_directb p f = true ->
  call p never n (Fresh (CFn f) args) w = Some x -> call p sched n (Fresh (CFn f) args) w = Some x.
Proof. intros p sched WF n f args w x. exact (direct_indep p never sched WF n n f args w x (le_n n)). Qed.
Print Assumptions C02_direct_form_never_suspends.

(* Blocking analysis, cross-function part.  Soundness: whoever can reach — along call edges — a function that
   blocks directly is marked blocking (so it is compiled in resumable form). *)
Theorem C02_propagate_sound : forall g f f',
  reaches g f f' -> is_direct g f' -> flag (propagate g) f = true.
Proof. exact propagate_sound. Qed.
Print Assumptions C02_propagate_sound.

(* Minimality: nothing is marked without such a path; the result is below every closed superset of the
   direct blockers. *)
Theorem C02_propagate_least : forall g f,
  flag (propagate g) f = true -> exists f', reaches g f f' /\ is_direct g f'.
Proof.
  intros g. apply iterate_justified.
  intros f Hf. exists f; split; [constructor | apply init_flag_direct; auto].
Qed.
Print Assumptions C02_propagate_least.

Theorem C02_propagate_minimal : forall g bl,
  (forall f, is_direct g f -> flag bl f = true) -> closed g bl ->
  forall f, flag (propagate g) f = true -> flag bl f = true.
Proof.
  intros g bl Hd Hc f Hf. destruct (C02_propagate_least g f Hf) as [f' [Hr Hdf]]. eapply closed_reaches; eauto.
Qed.
Print Assumptions C02_propagate_minimal.

(* Termination: with [length g] as the bound on changing passes ([propagate]) the `for !done` loop of
   PropagateAnalysis has reached a genuine fixpoint of one more pass, and the flags are closed under "a callee
   blocks".  The third part holds of [passes_used] under any bound. *)
Theorem C02_propagate_terminates : forall g,
  pass g (propagate g) = propagate g /\ closed g (propagate g) /\
  passes_used (length g) g (init_flags g) <= S (length g).
Proof. intros g. exact (conj (propagate_fixpoint g) (conj (propagate_closed g) (passes_used_bound _ _ _))). Qed.
Print Assumptions C02_propagate_terminates.

(* Partially evaluated expressions: which calls are hoisted into preceding statements (Model/C02_Hoist.v,
   faithful to translateCall / translateArgs / translateAssign, INCLUDING two recorded defects).
   Full statement: the calls of every expression statement run in Go's order in the resumable form. *)
Definition C02_expression_order_full_statement : Prop :=
  forall e, trace_assign e = go_order e.

(* Recorded finding hoisted-blocking-call-overtakes-earlier-nonblocking-call: `nb#1() + yv#2()` runs 2 first. *)
Theorem C02_expression_order_refuted : exists e, trace_assign e <> go_order e.
Proof. exists (HBin (HCall false 1 []) (HCall true 2 [])). vm_compute. discriminate. Qed.
Print Assumptions C02_expression_order_refuted.

(* Outside exactly that class — no binary operation whose left operand leaves a call inline while its right
   operand contains a blocking call — the order is Go's. *)
Theorem C02_expression_order_preserved : forall e, ordered e = true -> trace_assign e = go_order e.
Proof.
  intros e H. pose proof (ordered_sound e H) as Hs. unfold seq_ok, trace_assign in *. destruct (tr e); auto.
Qed.
Print Assumptions C02_expression_order_preserved.

(* translateArgs (`_arg` temporaries): a call never disturbs the order of its arguments, whatever they are. *)
Theorem C02_args_order_preserved : forall blk id args,
  Forall seq_ok args -> seq_ok (HCall blk id args).
Proof. exact args_order_preserved. Qed.
Print Assumptions C02_args_order_preserved.

(* the same for `defer f(args)` and `go f(args)` *)
Theorem C02_delegated_args_order_preserved : forall args,
  Forall seq_ok args -> trace_delegated args = go_delegated args.
Proof. exact delegated_order_preserved. Qed.
Print Assumptions C02_delegated_args_order_preserved.

(* Recorded finding assign-rhs-blocking-call-evaluated-before-lhs-operand-call: `a[yv#1()] = yv#2()` runs 2 first,
   although both sides are in the order-preserving class. *)
Theorem C02_index_assign_order_refuted : exists idx rhs,
  ordered idx = true /\ ordered rhs = true /\ trace_index_assign idx rhs <> go_index_assign idx rhs.
Proof. exists (HCall true 1 []), (HCall true 2 []). vm_compute. repeat split; discriminate. Qed.
Print Assumptions C02_index_assign_order_refuted.

Theorem C02_index_assign_order_preserved : forall idx rhs,
  ordered idx = true -> ordered rhs = true ->
  marked rhs = false \/ go_order idx = [] ->
  trace_index_assign idx rhs = go_index_assign idx rhs.
Proof. exact index_assign_preserved. Qed.
Print Assumptions C02_index_assign_order_preserved.

(* Non-vacuity: a labelled loop whose init and post statements are blocking calls, a `continue` that the
   analysis must flatten because of the blocking post, a labelled break from direct-form code, a yield in the
   body, a direct-form callee.  The compiled program is well-formed, and the schedule that suspends at EVERY
   receive as well as an alternating one give the direct result. *)
Local Open Scope Z_scope.
Definition C02_example : sprog := [
  {| sf_nparams := 1%nat; sf_body :=
     SSeq (SAssign 1%nat (EConst 0))
    (SSeq (SFor false (Some 1%nat) (SCall false (Some 2%nat) 1%nat [EConst (-1)]) (EBin OLt (EVar 2%nat) (EConst 3))
                (SCall false (Some 2%nat) 1%nat [EVar 2%nat])
                (SSeq (SIf false (EBin OEq (EVar 2%nat) (EConst 1)) (SContinue None))
                (SSeq SYield
                (SSeq (SAssign 1%nat (EBin OAdd (EVar 1%nat) (EVar 2%nat)))
                (SSeq (SPrint (EVar 1%nat))
                      (SIf false (EBin OLt (EConst 2) (EVar 1%nat)) (SBreak (Some 1%nat))))))))
    (SSeq (SCall false (Some 3%nat) 2%nat [EConst 7])
          (SReturn (EBin OAdd (EVar 1%nat) (EVar 3%nat))))) |};
  {| sf_nparams := 1%nat; sf_body := SSeq SYield (SReturn (EBin OAdd (EVar 0%nat) (EConst 1))) |};
  {| sf_nparams := 1%nat; sf_body := SReturn (EBin OAdd (EVar 0%nat) (EConst 1)) |} ].

Example C02_nonvacuous :
  src_ok C02_example = true /\
  wf_prog (compile C02_example) /\
  blocking_flags C02_example = [true; true; false] /\
  run_direct C02_example 1 200 0%nat [5] = Some ([0; 2], 10, [0]) /\
  run_flat (compile C02_example) never 1 200 0%nat [5] = Some ([0; 2], 10, [0]) /\
  run_flat (compile C02_example) (fun _ => true) 1 200 0%nat [5] = Some ([0; 2], 10, [0]) /\
  run_flat (compile C02_example) Nat.even 1 200 0%nat [5] = Some ([0; 2], 10, [0]).
Proof. vm_compute. repeat split; reflexivity. Qed.

(* `for k = range s` over a slice of integer length (Model/C02_P4_Range.v).
   [rexec]/[run_rdirect]: direct semantics of the source language extended with range (length captured once in the
   frame slot `_ref`, hidden counter `_i`, key assigned at the top of each iteration, continue advances the counter);
   [desugar]: the translator's own reduction of a range statement to translateLoopingStmt (init `_ref = s; _i = 0`,
   cond `_i < _ref.$length`, body prefix `k = _i`, post `_i++`); [rcompile] = [compile] after that reduction.
   For EVERY program of the extended language and EVERY schedule the resumable form computes what the direct
   semantics computes.  `_partial` w.r.t. the property text only (switch, goto, defer, panics, closures are outside). *)
Theorem C02_range_suspend_invariant_partial : forall rp sched nglob fuel main args o,
  rsrc_ok rp = true ->
  run_rdirect rp nglob fuel main args = Some o ->
  exists fuel', run_flat (rcompile rp) sched nglob fuel' main args = Some o.
Proof.
  intros rp sched nglob fuel main args o SRC H. rewrite run_rdirect_desugar in H.
  unfold rcompile. eapply flat_suspend_invariant; eauto.
Qed.
Print Assumptions C02_range_suspend_invariant_partial.

Theorem C02_range_reduction_preserves_direct_semantics : forall callf n s loc w,
  rexec callf n s loc w = exec callf false n (desugar s) loc w.
Proof. intros callf. exact (rexec_desugar_ext callf callf (fun _ _ _ => eq_refl)). Qed.
Print Assumptions C02_range_reduction_preserves_direct_semantics.

Theorem C02_range_compile_wf : forall rp, rsrc_ok rp = true -> wf_prog (rcompile rp).
Proof. intros rp SRC. exact (compile_wf _ SRC). Qed.
Print Assumptions C02_range_compile_wf.

(* Non-vacuity: a labelled range loop whose length expression reads a variable that the body overwrites (captured
   once), with a `continue` (counter must advance at the continue site), a yield and a blocking call in the body, a
   labelled break, nested in a for loop whose post statement is a blocking call. *)
Definition C02_range_example : rprog := [
  {| rf_nparams := 1%nat; rf_body :=
     RSeq (RAssign 1%nat (EConst 3))
    (RSeq (RFor None (RAssign 5%nat (EConst 0)) (EBin OLt (EVar 5%nat) (EConst 2)) (RCall (Some 5%nat) 1%nat [EVar 5%nat])
            (RRange false (Some 1%nat) (Some 2%nat) 3%nat 4%nat (EVar 1%nat)
               (RSeq (RAssign 1%nat (EConst 1))
               (RSeq (RIf (EBin OEq (EVar 2%nat) (EConst 1)) (RContinue None))
               (RSeq RYield
               (RSeq (RCall (Some 6%nat) 1%nat [EVar 2%nat])
               (RSeq (RPrint (EBin OAdd (EBin OMul (EVar 5%nat) (EConst 10)) (EVar 6%nat)))
                     (RIf (EBin OLt (EConst 20) (EVar 6%nat)) (RBreak (Some 1%nat))))))))))
          (RReturn (EVar 2%nat))) |};
  {| rf_nparams := 1%nat; rf_body := RSeq RYield (RReturn (EBin OAdd (EVar 0%nat) (EConst 1))) |} ].

Example C02_range_nonvacuous :
  rsrc_ok C02_range_example = true /\
  wf_prog (rcompile C02_range_example) /\
  run_rdirect C02_range_example 0 300 0%nat [0] = Some ([1; 3; 11], 0, []) /\
  run_flat (rcompile C02_range_example) never 0 300 0%nat [0] = Some ([1; 3; 11], 0, []) /\
  run_flat (rcompile C02_range_example) (fun _ => true) 0 300 0%nat [0] = Some ([1; 3; 11], 0, []) /\
  run_flat (rcompile C02_range_example) Nat.even 0 300 0%nat [0] = Some ([1; 3; 11], 0, []).
Proof. vm_compute. repeat split; reflexivity. Qed.
