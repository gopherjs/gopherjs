(* C03 — Channels, select and the goroutine scheduler follow Go semantics.
   This file holds ONLY the property theorems (each closed by a lemma of Proofs/ or a few lines from one) and their Print Assumptions.
   Model: Model/C03_Chan.v ([impl_step] mirrors compiler/prelude/goroutines.js statement by statement).
   The current code is the variant [repaired] (close(nil) panics; the send entry registered by a blocked select
   records closedDuringSend): harness/py/props/c03.py probes the real runtime on every run, evaluates the model in the
   variant it finds and says so in its notes if that is not [repaired].  The historic variant [as_is] and its refutations
   live in Proofs/C03_Chan.v.
   Tie: harness/js/c03_driver.js (real prelude) and compiled programs are run against the model on every run.

   "for every history / schedule" = [reachable]: any number of [impl_step]s from [init_state prog picks breaks],
   for every program, every pick oracle (Math.random in $select) and every time-slice oracle ($runScheduled). *)
From Coq Require Import List NArith ZArith Bool Arith.
From Verif Require Import Model.C03_Chan Model.C03_Spec Model.C03_Abs Proofs.C03_Chan Proofs.C03_P4_Entries Proofs.C03_P4_Count Proofs.C03_P4_Deadlock Proofs.C03_P4_Refine.
Import ListNotations.

(* Channel invariants in every reachable state:
   |buf| <= cap;  waiting receivers -> empty buffer;  waiting senders -> full buffer;  closed -> no queued goroutine;
   a channel with queued senders AND receivers holds entries of one goroutine only (a select on both directions);
   the nil channel never queues or buffers anything;  conservation: accepted = received ++ buffered, in order
   (no loss, duplication or reordering between what the channel accepted and what receivers were handed). *)
Theorem C03_chan_invariants : forall prog st,
  reachable repaired prog st ->
  Forall (fun ch =>
    length (c_buf ch) <= c_cap ch /\
    (c_recvq ch <> [] -> c_buf ch = []) /\
    (c_sendq ch <> [] -> length (c_buf ch) = c_cap ch) /\
    (c_closed ch = true -> c_sendq ch = [] /\ c_recvq ch = []) /\
    (forall se re, In se (c_sendq ch) -> In re (c_recvq ch) -> sowner se = rowner re) /\
    (c_nil ch = true -> c_sendq ch = [] /\ c_recvq ch = [] /\ c_buf ch = [] /\ c_cap ch = 0) /\
    c_acc ch = c_rcv ch ++ c_buf ch) (chans st).
Proof.
  intros prog st R. apply (Forall_impl _ (P := chan_ok)); [|exact (chan_invariants repaired prog st repaired_fix R)].
  intros ch [H1 H2 H3 H4 H5 H6 H7]. exact (conj H1 (conj H2 (conj H3 (conj H4 (conj H5 (conj H6 H7)))))).
Qed.
Print Assumptions C03_chan_invariants.

(* Registration: a goroutine asleep on an operation has its entry in the queue of every (non-nil) channel of that
   operation — plain send/receive: one entry; select: one entry per communication case (index = case index). *)
Theorem C03_registration : forall prog st, reachable repaired prog st -> reg_ok st.
Proof. exact (fun prog st => registration repaired prog st repaired_fix). Qed.
Print Assumptions C03_registration.

(* No lost wake-up, full statement: in every reachable state a goroutine that sleeps on an operation cannot perform
   that operation (send: channel closed, buffer space, or a receiver of another goroutine waiting; receive: channel
   closed, buffered value, or a sender of another goroutine waiting; select: some case).  Hence a goroutine whose
   operation becomes possible is no longer registered as sleeping on it ([g_blocked]) after the step that made it possible. *)
Theorem C03_no_lost_wakeup : forall prog st, reachable repaired prog st -> no_lost_wakeup_at st.
Proof. exact (fun prog st => no_lost_wakeup repaired prog st repaired_fix). Qed.
Print Assumptions C03_no_lost_wakeup.

(* close wakes a goroutine asleep in select { case c <- 5: } and that goroutine panics; close(nil) panics. *)
Theorem C03_close_witnesses :
  events_of repaired f7_prog = [(0, EvGo 1); (0, EvSched); (0, EvClose); (0, EvPrint 9%N); (1, EvPanic PSendClosed)] /\
  events_of repaired f6_prog = [(0, EvPanic PCloseNil)].
Proof. split; reflexivity. Qed.
Print Assumptions C03_close_witnesses.

(* Deadlock report.  Full statement (proved below as C03_deadlock_report_iff; also checked on every run by the reference LTSs):
   the runtime halts with the fatal error exactly when main has not finished and no goroutine can ever proceed (nothing is
   scheduled, no Gosched timer is pending, every goroutine is asleep and none can perform its operation, control is back in
   the event loop). *)
Definition C03_deadlock_report_iff_full_statement : Prop :=
  forall prog st, reachable repaired prog st ->
    (halted st = Some ODeadlock <->
     ((main_finished st = false) /\ (scheduled st = []) /\ (forall g, ~ In (TWake g) (timers st)) /\
      (forall g, (g < length (gors st))%nat -> g_asleep (get_g st g) = true) /\ no_lost_wakeup_at st /\ (md st = MIdle))).

(* _partial: the report is made only when $awakeGoroutines = 0 and main has not finished.  What $awakeGoroutines counts
   and the converse direction are C03_counting_invariant / C03_deadlock_report_iff below. *)
Theorem C03_deadlock_report_sound_partial : forall prog st,
  reachable repaired prog st -> halted st = Some ODeadlock -> awake st = 0%Z /\ main_finished st = false.
Proof. exact (fun prog st => deadlock_report_sound repaired prog st repaired_fix). Qed.
Print Assumptions C03_deadlock_report_sound_partial.

(* The whole-scheduler counting invariant: in every reachable state $awakeGoroutines is exactly the number of goroutines
   that are not asleep plus the number of pending Gosched timers ($setTimeout's token). *)
Theorem C03_counting_invariant : forall prog st, reachable repaired prog st ->
  awake st = (Z.of_nat (length (filter (fun x => negb (g_asleep x)) (gors st))) +
              Z.of_nat (length (filter (fun t => match t with TWake _ => true | TRun _ => false end) (timers st))))%Z.
Proof. exact (fun prog st => counting_invariant repaired prog st repaired_fix). Qed.
Print Assumptions C03_counting_invariant.

Theorem C03_deadlock_report_iff : C03_deadlock_report_iff_full_statement.
Proof.
  intros prog st R. pose proof (sched_ok_reachable repaired prog st repaired_fix R) as Ok.
  rewrite (deadlock_report_exact st Ok). split; [|tauto]. intros (Mf & Tw & As & Md). repeat split; auto.
  - (* nothing is scheduled, since what is scheduled is awake *) destruct (scheduled st) as [|g q] eqn:E; auto.
    destruct (i_sch _ (so_inv _ Ok) g) as (L & Aw). { rewrite E. now left. }
    unfold asl in Aw. rewrite (As g L) in Aw. discriminate.
  - exact (no_lost_wakeup repaired prog st repaired_fix R).
Qed.
Print Assumptions C03_deadlock_report_iff.

(* No stale registrations (the converse of C03_registration): every entry in a channel's wait queue is the
   registration of a goroutine that sleeps on exactly that operation (plain send/receive, or that case of its select). *)
Theorem C03_no_stale_entries : forall prog st, reachable repaired prog st ->
  forall c, (forall e, In e (sq st c) -> sentry_ok st c e) /\ (forall e, In e (rq st c) -> rentry_ok st c e).
Proof. exact (fun prog st => no_stale_entries repaired prog st repaired_fix). Qed.
Print Assumptions C03_no_stale_entries.

(* Whole-queue and run-queue invariant: entries are exact and duplicate-free; blocked goroutines are asleep; $scheduled holds
   existing, awake goroutines without duplicates; the running goroutine is awake and not in $scheduled; a pending Gosched timer
   belongs to a goroutine blocked on that timer, at most one per goroutine. *)
Theorem C03_entries_invariant : forall prog st, reachable repaired prog st -> ent_ok st /\ run_ok st.
Proof. exact (fun prog st => entries_invariant repaired prog st repaired_fix). Qed.
Print Assumptions C03_entries_invariant.

Theorem C03_scheduled_awake : forall prog st, reachable repaired prog st ->
  forall g, In g (scheduled st) -> g < length (gors st) /\ g_asleep (get_g st g) = false.
Proof. exact (fun prog st => scheduled_awake repaired prog st repaired_fix). Qed.
Print Assumptions C03_scheduled_awake.

(* Refinement of the reference LTS of Go channels (Model/C03_Spec.v: capacity + FIFO buffer + closed flag, unbuffered
   rendezvous, select with free choice among the cases that can proceed, panics) through the abstraction Model/C03_Abs.abs.
   FULL statement (NOT proved in general; evaluated by Coq on every explored history, Corr/C03_SpecEval.spec_verdict):
   every step of the implementation is the sequence of spec steps [actions_of] between the abstractions of the two
   states, emitting exactly the events the step logged. *)
Definition C03_impl_refines_spec_full_statement : Prop :=
  forall prog st, reachable repaired prog st ->
    ssteps prog (abs st) (actions_of repaired prog st)
    = Some (abs (impl_step repaired prog st), new_events st (impl_step repaired prog st)).

(* The running goroutine exists, has not exited and is not registered as blocked: what the refinement below needs of it. *)
Theorem C03_running_wf : forall prog st, reachable repaired prog st ->
  forall g, md st = MRun g -> g < length (gors st) /\ g_exit (get_g st g) = false /\ g_blocked (get_g st g) = None.
Proof. exact (fun prog st => running_wf repaired prog st repaired_fix). Qed.
Print Assumptions C03_running_wf.

(* _partial: proved for every reachable state, for the steps [covered]: all scheduler steps except the Gosched timer
   callback, the return of a goroutine, the resumption of a goroutine after ANY wake-up (it observes exactly the result its
   partner, close or the timer left for it), print, Goexit, Gosched.  Missing: the step in which a goroutine itself executes
   send / receive / range / close / select / go, and the timer callback. *)
Theorem C03_impl_refines_spec_partial : forall prog st, reachable repaired prog st -> covered st ->
  ssteps prog (abs st) (actions_of repaired prog st)
  = Some (abs (impl_step repaired prog st), new_events st (impl_step repaired prog st)).
Proof. exact (fun prog st R => impl_refines_spec_covered repaired prog st (running_wf repaired prog st repaired_fix R)). Qed.
Print Assumptions C03_impl_refines_spec_partial.

(* The reference LTS itself: what it allows and what it forbids (sanity of the spec, by evaluation). *)
Example C03_spec_rendezvous :
  let prog := {| p_caps := [0]; p_scripts := [[Go 1; Send 1 7%N]; [Recv 1]] |} in
  (* go; the child arrives first and parks; main's send meets it; both observe; both return *)
  match ssteps prog (sinit prog) [AOp 0 0; AObs 0; APark 1; ARv 0 0 1 0; AObs 0; AObs 1; AFin 0; AFin 1] with
  | Some (s, evs) => evs = [(0, EvGo 1); (0, EvSend); (1, EvRecv 7%N true)] /\ quiescent s = true
  | None => False
  end.
Proof. vm_compute. split; reflexivity. Qed.

Example C03_spec_forbids :
  let p1 := {| p_caps := [0; 1]; p_scripts := [[Recv 1]] |} in
  let p2 := {| p_caps := [1]; p_scripts := [[Send 1 5%N; Select [CRecv 1; CDefault]; Send 0 1%N]] |} in
  let p3 := {| p_caps := [1]; p_scripts := [[Close 1; Close 1]] |} in
  (* receive from an empty open channel cannot complete; nor can it rendezvous with itself *)
  sstep p1 (sinit p1) (AOp 0 0) = None /\ sstep p1 (sinit p1) (ARv 0 0 0 0) = None /\
  (* after the send the buffered value must be received: the default case is not allowed, parking neither *)
  (match ssteps p2 (sinit p2) [AOp 0 0; AObs 0] with
   | Some (s, _) => sstep p2 s (AOp 0 1) = None /\ sstep p2 s (APark 0) = None /\
                    (exists s', sstep p2 s (AOp 0 0) = Some (s', []))
   | None => False end) /\
  (* the second close panics; a send on the nil channel never completes *)
  (match ssteps p3 (sinit p3) [AOp 0 0; AObs 0; AOp 0 0; AObs 0] with
   | Some (_, evs) => evs = [(0, EvClose); (0, EvPanic PCloseClosed)]
   | None => False end) /\
  (match ssteps p2 (sinit p2) [AOp 0 0; AObs 0; AOp 0 0; AObs 0] with
   | Some (s, evs) => evs = [(0, EvSend); (0, EvSel 0 (Some (5%N, true)))] /\ sstep p2 s (AOp 0 0) = None /\
                      (exists s', sstep p2 s (APark 0) = Some (s', []))
   | None => False end).
Proof. vm_compute. repeat split; eauto. Qed.

(* Non-vacuity: a reachable state in which a sender and a receiver are queued and a value is buffered. *)
Example C03_nonvacuous :
  let prog := {| p_caps := [1; 0]; p_scripts := [[Go 1; Send 1 7%N; Send 1 8%N]; [Recv 2]] |} in
  let st := run repaired prog 200 (init_state prog [] []) in
  reachable repaired prog st /\ map (fun ch => (c_buf ch, length (c_sendq ch), length (c_recvq ch))) (chans st)
                               = [([], 0, 0); ([7%N], 1, 0); ([], 0, 1)].
Proof. split. apply run_reachable. constructor. reflexivity. Qed.
