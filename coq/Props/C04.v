(* C04 — Every used generic instantiation exists, is distinct and behaves correctly.
   This file holds ONLY the property theorems (each closed by a lemma of Proofs/ or a few lines from one) and their Print Assumptions.
   Model: Model/C04_Inst.v (typeparams.Collector.Scan/Finish/propagate, InstanceSet.Add/ID, InstanceMap equality,
   Resolver substitution, isGeneric).  Tie: harness/py/props/c04.py runs the real Collector and the model on the
   same generated multi-package programs (exact discovery lists) and runs the compiled programs against native Go.

   What is proved is the collection half of the property (every instance reachable at run time exists, exactly
   once, with an id of its own, whatever order the packages are visited in).  "Behaves correctly" - the per-instance
   translation of bodies - is not modelled here; it is covered differentially by the compiled-program comparison. *)
From Coq Require Import List NArith Bool Arith String Lia.
From Verif Require Import Model.C04_Inst Proofs.C04_Inst.
From Verif Require Import Model.C04_P4_Map Model.C04_P4_Name Proofs.C04_P4_Map Proofs.C04_P4_Name Proofs.C04_P4_Subst.
Import ListNotations.

(* Whenever Finish returns (all sets exhausted), for EVERY sequence of package visits and every fuel, the collected
   set is exactly Reach: the least set that contains the instances used by non-generic code and is closed under
   substituting an instance's type arguments into the template of its object (methods come with their type). *)
Theorem C04_collect_lfp : forall p, wf_prog p -> forall fuel sched,
  all_exhausted (collect p fuel sched) = true ->
  forall i, In i (all_vals (collect p fuel sched)) <-> Reach p i.
Proof. exact collect_lfp_lem. Qed.
Print Assumptions C04_collect_lfp.

Theorem C04_reach_least : forall p S, closed_set p S -> forall i, Reach p i -> S i.
Proof. exact Reach_least. Qed.
Print Assumptions C04_reach_least.

Theorem C04_reach_closed : forall p, closed_set p (Reach p).
Proof. exact Reach_closed. Qed.
Print Assumptions C04_reach_closed.

(* When no type declared inside a generic function is used as a type argument (no_lazy), the skip rule of
   isGeneric coincides with "a type parameter is left", and the collected set is the set of instances reachable
   in the intended semantics. *)
Theorem C04_collect_lfp_ideal : forall p, wf_prog p -> no_lazy p -> forall fuel sched,
  all_exhausted (collect p fuel sched) = true ->
  forall i, In i (all_vals (collect p fuel sched)) <-> ReachIdeal p i.
Proof. intros. rewrite collect_lfp_lem; auto. apply Reach_ideal_iff; auto. Qed.
Print Assumptions C04_collect_lfp_ideal.

(* Full statement for all programs (without no_lazy): refuted by the faithful model, and by the real compiler
   (known finding compiler-panic-local-type-of-generic-func-as-type-arg):
     func G[T any](); func A[X any]() { type L struct{ x X }; G[L]() }; main: A[int]()
   G[L] is reachable but is never collected, because L's lazily substituted underlying type still mentions X. *)
Definition C04_full_statement : Prop := forall p, wf_prog p -> forall fuel sched,
  all_exhausted (collect p fuel sched) = true ->
  forall i, In i (all_vals (collect p fuel sched)) <-> ReachIdeal p i.

Theorem C04_local_type_arg_dropped_refuted : exists p fuel sched i,
  wf_prog p /\ all_exhausted (collect p fuel sched) = true /\ ReachIdeal p i /\
  ~ In i (all_vals (collect p fuel sched)).
Proof.
  exists prog_local, 10, [0], inst_local.
  exact (conj prog_local_wf local_type_arg_dropped_lem).
Qed.
Print Assumptions C04_local_type_arg_dropped_refuted.

(* The set does not depend on the order in which Finish ranges over its Go map. *)
Theorem C04_collect_set_order_independent : forall p, wf_prog p -> forall f1 s1 f2 s2,
  all_exhausted (collect p f1 s1) = true -> all_exhausted (collect p f2 s2) = true ->
  forall i, In i (all_vals (collect p f1 s1)) <-> In i (all_vals (collect p f2 s2)).
Proof. intros. rewrite !collect_lfp_lem; auto. tauto. Qed.
Print Assumptions C04_collect_set_order_independent.

(* Ids: two instances of the same package (in particular of the same object) with the same id are the same
   object with identical type arguments and nesting arguments; every collected instance has an id, and the id of
   the n-th discovered instance is n. *)
Theorem C04_id_injective : forall p st i j n,
  pkg_of p i = pkg_of p j -> inst_id p st i = Some n -> inst_id p st j = Some n -> i = j.
Proof. exact id_injective_lem. Qed.
Print Assumptions C04_id_injective.

Theorem C04_id_total : forall p fuel sched i,
  In i (all_vals (collect p fuel sched)) -> exists n, inst_id p (collect p fuel sched) i = Some n.
Proof. exact collect_id_total. Qed.
Print Assumptions C04_id_total.

Theorem C04_id_position : forall p fuel sched k n i,
  k < List.length (collect p fuel sched) ->
  nth_error (vals_k (collect p fuel sched) k) n = Some i -> inst_id p (collect p fuel sched) i = Some n.
Proof. intros p fuel sched k n i _. apply collect_id_position. Qed.
Print Assumptions C04_id_position.

(* Which id an instance gets depends on the visiting order (Proofs.C04_Inst.ids_order_dependent_lem shows two orders
   giving different ids). Since fix ee2dd6c the real Finish visits the packages in ascending import path order, so the
   order is a function of the program; the check passes exactly that order to the model and compares the real Finish
   lists (= the ids) with `collect`. Ids are then a function of the program alone: *)
Theorem C04_ids_determined : forall p fuel order n1 n2 i,
  n1 = n2 -> inst_id p (collect p fuel (rounds order n1)) i = inst_id p (collect p fuel (rounds order n2)) i.
Proof. intros; subst; reflexivity. Qed.
Print Assumptions C04_ids_determined.

(* ... and extra rounds after Finish has returned change nothing (so the number of rounds the check passes is immaterial). *)
Theorem C04_exhausted_stable : forall p fuel k st,
  all_exhausted st = true -> propagate p fuel k st = st.
Proof.
  intros p fuel k st EX. destruct fuel; simpl; auto.
  destruct (nth_error _ _) eqn:E; auto. exfalso.
  destruct (nth_error_vals st k _ _ E) as [Hk Hlt].
  pose proof (all_exhausted_spec st EX k Hk). unfold cur_k, get_set in *. lia.
Qed.
Print Assumptions C04_exhausted_stable.

(* Resolver: replacing the nesting function's parameters and then the object's own parameters is the same as
   the simultaneous replacement NewResolver builds (type arguments are closed), in either order. *)
Theorem C04_subst_compose : forall own nest t,
  forallb closed nest = true -> subst_own own (subst_nest nest t) = subst own nest t.
Proof.
  intros own nest t Hc. unfold subst_own, subst_nest. apply subst_subst; intro i; cbn [subst].
  - rewrite nth_own_nil. reflexivity.
  - apply subst_nth_closed; [exact Hc | apply nth_nest_nil].
Qed.
Print Assumptions C04_subst_compose.

Theorem C04_subst_compose' : forall own nest t,
  forallb closed own = true -> subst_nest nest (subst_own own t) = subst own nest t.
Proof.
  intros own nest t Hc. unfold subst_own, subst_nest. apply subst_subst; intro i; cbn [subst].
  - apply subst_nth_closed; [exact Hc | apply nth_own_nil].
  - rewrite nth_nest_nil. reflexivity.
Qed.
Print Assumptions C04_subst_compose'.

(* Non-vacuity: a 3-package program in which Finish terminates, with an instance that exists only through
   propagation (c.G[[]int] via a.A[int]) and is found under both visiting orders. *)
Example C04_nonvacuous :
  wf_prog prog_ids /\
  all_exhausted (collect prog_ids 10 [0; 1; 2]) = true /\
  In inst_ids (all_vals (collect prog_ids 10 [0; 1; 2])) /\
  In inst_ids (all_vals (collect prog_ids 10 [1; 0; 2])) /\
  List.length (all_vals (collect prog_ids 10 [0; 1; 2])) = 4.
Proof.
  split; [exact prog_ids_wf|]. vm_compute. repeat split; auto.
Qed.

(* The JS reference the compiler prints for an instance is objectName(o)[id]  (compiler/utils.go
   instName; Model/C04_P4_Name.js_ref = (package, variable, id); trivial instances have no id).  Two instances with the
   same reference are the same object with identical type arguments and identical nesting arguments - whatever the
   type arguments are (nested instances, local types' nesting arguments) and in whatever package: the package is part
   of the reference.  vars_distinct = newVariable gives distinct objects of a package distinct variables (checked on
   every compiled program by the correspondence). *)
Theorem C04_js_ref_generic_injective : forall p st nm i j pk v n,
  js_ref p st nm i = Some (pk, v, Some n) -> js_ref p st nm j = Some (pk, v, Some n) -> i = j.
Proof. exact js_ref_generic_injective_lem. Qed.
Print Assumptions C04_js_ref_generic_injective.

(* ... and with the trivial instances of non-generic objects (reference = the variable alone, no id): *)
Theorem C04_js_ref_injective : forall p st nm i j r,
  vars_distinct p nm -> is_obj p (i_obj i) -> is_obj p (i_obj j) ->
  js_ref p st nm i = Some r -> js_ref p st nm j = Some r -> i = j.
Proof. exact js_ref_injective_lem. Qed.
Print Assumptions C04_js_ref_injective.

(* identical instances (types.Identical on all arguments = inst_eqb) always get the same reference, the same printed name
   and the same strings *)
Theorem C04_js_ref_same : forall p st nm i j,
  inst_eqb i j = true ->
  js_ref p st nm i = js_ref p st nm j /\ js_name p st nm i = js_name p st nm j /\
  type_string nm i = type_string nm j /\ inst_string nm i = inst_string nm j.
Proof. intros p st nm i j E. apply inst_eqb_spec in E. subst j. repeat split. Qed.
Print Assumptions C04_js_ref_same.

(* every collected instance has a reference (instName cannot panic on it), and its id is its discovery position *)
Theorem C04_js_ref_total : forall p fuel sched nm i,
  In i (all_vals (collect p fuel sched)) -> exists r, js_ref p (collect p fuel sched) nm i = Some r.
Proof.
  intros p fuel sched nm i H. unfold js_ref. destruct (is_trivial i); [eexists; reflexivity|].
  destruct (collect_id_total p fuel sched i H) as [n E]. rewrite E. eexists; reflexivity.
Qed.
Print Assumptions C04_js_ref_total.

Theorem C04_js_ref_position : forall p fuel sched nm k n i,
  k < List.length (collect p fuel sched) -> is_trivial i = false ->
  nth_error (vals_k (collect p fuel sched) k) n = Some i ->
  js_ref p (collect p fuel sched) nm i = Some (o_pkg (get_obj p (i_obj i)), assoc (n_var nm) (i_obj i), Some n).
Proof. intros p fuel sched nm k n i _. apply js_ref_position_lem. Qed.
Print Assumptions C04_js_ref_position.

(* Full statement for the STRINGS (Instance.TypeString = the string given to $newType, Instance.String = Decl.FullName):
   refuted.  go/types prints two types declared in different scopes of one function with the same text, so G[T] and
   G[T'] (func f() { type T int; { type T string } }) are different instances with the same type string; their JS
   references differ (G[0], G[1]).  Replayed on the real compiler on every run (coverage key p4_shadow_witness). *)
Definition C04_type_string_injective_full_statement : Prop :=
  forall nm i j, type_string nm i = type_string nm j -> i = j.

Theorem C04_type_string_injective_refuted : exists nm i j,
  i <> j /\ type_string nm i = type_string nm j /\ inst_string nm i = inst_string nm j.
Proof.
  exists nm_shadow, inst_shadow_a, inst_shadow_b.
  destruct type_string_not_injective_lem as [A [B [C _]]]. exact (conj A (conj B C)).
Qed.
Print Assumptions C04_type_string_injective_refuted.

(* what holds for the strings: with a table that spells closed types and objects injectively (no shadowing), the
   components the strings are built from determine the instance *)
Theorem C04_name_parts_injective_partial : forall nm i j,
  (forall a b, ty_str nm a = ty_str nm b -> a = b) ->
  (forall o1 o2, assoc (n_sym nm) o1 = assoc (n_sym nm) o2 -> o1 = o2) ->
  assoc (n_sym nm) (i_obj i) = assoc (n_sym nm) (i_obj j) ->
  map (ty_str nm) (i_targs i) = map (ty_str nm) (i_targs j) ->
  map (ty_str nm) (i_tnest i) = map (ty_str nm) (i_tnest j) -> i = j.
Proof. exact name_parts_injective_lem. Qed.
Print Assumptions C04_name_parts_injective_partial.

(* Substitute commutes with type construction: the shape of the type is kept, the arguments are substituted *)
Theorem C04_subst_commutes : forall own nest,
  (forall c l, subst own nest (TCon c l) = TCon c (map (subst own nest) l)) /\
  (forall o l, subst own nest (TNamed o l) = TNamed o (map (subst own nest) l)) /\
  (forall b, subst own nest (TBase b) = TBase b).
Proof. intros. repeat split. Qed.
Print Assumptions C04_subst_commutes.

(* ground arguments, a type over the instance's own and nesting parameters: no type parameter is left *)
Theorem C04_subst_ground : forall own nest t,
  forallb closed own = true -> forallb closed nest = true ->
  scoped (List.length own) (List.length nest) t = true -> closed (subst own nest t) = true.
Proof. exact subst_ground_lem. Qed.
Print Assumptions C04_subst_ground.

(* the nested-instance case: substituting the arguments of an inner instance G[es] and then resolving G's own parameters
   = resolving them with the substituted arguments *)
Theorem C04_subst_nested_instance : forall own nest es t,
  forallb closed own = true -> forallb closed nest = true -> scoped (List.length es) 0 t = true ->
  subst own nest (subst es [] t) = subst (map (subst own nest) es) [] t.
Proof. intros own nest es t _ _. apply subst_nested_instance_lem. Qed.
Print Assumptions C04_subst_nested_instance.

(* every instance produced from a ground context is ground in its type arguments AND its nesting arguments (TNest) *)
Theorem C04_produced_ground : forall p c it i, ground_ctx c -> produced p c it = Some i -> ground_inst i.
Proof. exact produced_ground_lem. Qed.
Print Assumptions C04_produced_ground.

(* so every instance Finish hands to the translation is ground and its substituted signature / underlying type
   (any type over its parameters) mentions no type parameter *)
Theorem C04_collected_signature_ground : forall p, wf_prog p -> forall fuel sched,
  all_exhausted (collect p fuel sched) = true ->
  forall i, In i (all_vals (collect p fuel sched)) ->
  ground_inst i /\
  forall t, scoped (List.length (i_targs i)) (List.length (i_tnest i)) t = true ->
            closed (subst (i_targs i) (i_tnest i) t) = true.
Proof. intros p W fuel sched _. apply collected_signature_ground_lem, W. Qed.
Print Assumptions C04_collected_signature_ground.

(* InstanceMap (map.go): for EVERY hash function - including one under which all keys collide - and every
   history of Set/Get/Has/Delete/Len, the bucket structure with nil holes answers exactly like a finite map keyed by
   instance identity (object, identical TNest, identical TArgs); Keys() is the key set of that finite map. *)
Theorem C04_instance_map_refines : forall (V : Type) (h : ty -> N) (ops : list (op V)),
  snd (map_run V h empty_map ops) = snd (spec_run V [] ops).
Proof.
  intros V h ops. apply (run_ok V h ops empty_map []). apply represents_empty.
Qed.
Print Assumptions C04_instance_map_refines.

Theorem C04_instance_map_keys : forall (V : Type) (h : ty -> N) (ops : list (op V)) (k : inst),
  In k (map_keys V (fst (map_run V h empty_map ops))) <-> spec_get V (fst (spec_run V [] ops)) k <> None.
Proof.
  intros V h ops. apply (keys_ok V h). apply (run_ok V h ops empty_map []). apply represents_empty.
Qed.
Print Assumptions C04_instance_map_keys.

(* Non-vacuity of the InstanceMap and Resolver theorems: a history in which all keys collide (hash_const), a deleted entry
   leaves a hole that the next new key reuses, and an overwritten key keeps its length; groundness hypotheses are satisfiable. *)
Example C04_p4_nonvacuous :
  let a := mkInst 0 [TBase 0; TBase 1] [] in
  let b := mkInst 0 [TBase 1; TBase 0] [] in
  let c := mkInst 0 [TBase 1] [TBase 0] in
  List.map (fun o => match o with RVal v => v | RBool true => Some 1%N | RBool false => Some 0%N | RLen n => Some (N.of_nat n) end)
    (snd (map_run N hash_const empty_map
            [OSet a 5%N; OSet b 6%N; OSet c 7%N; ODelete b; OLen; OSet b 8%N; OSet a 9%N; OGet a; OGet b; OGet c; OLen]))
  = [None; None; None; Some 1; Some 2; None; Some 5; Some 9; Some 8; Some 7; Some 3]%N
  /\ closed (subst [TCon 0 [TBase 0]] [TBase 1] (TCon 7 [TNestV 0; TNamed 3 [TOwn 0]])) = true
  /\ vars_distinct prog_shadow nm_shadow.
Proof.
  split; [vm_compute; reflexivity|]. split; [vm_compute; reflexivity|].
  exact shadow_vars_distinct.
Qed.
