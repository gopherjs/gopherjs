(* C05 — Dead-code elimination never changes behaviour.
   This file holds ONLY the property theorems (each closed by a lemma of Proofs/ or a few lines from one) and their
   Print Assumptions.  Models: Model/C05_Select.v (dce.Info, dce.Selector, the Include loop of
   compiler.WriteProgramCode), Model/C05_SideEffect.v (analysis.HasSideEffect + decls.go:289).
   Tie: harness/py/props/c05.py runs the real dce.Selector on random declaration graphs and on the
   declaration graphs of real programs, the real HasSideEffect on generated expressions, and links
   generated programs twice (normally / every Decl forced alive) with the real compiler.

   What is NOT proved (and why the soundness theorem carries [_partial]): that the dependencies the
   translator records (filters.go names + DeclareDCEDep call sites) over-approximate what the
   emitted JavaScript references.  That is the third hypothesis of C05_select_sound_partial;
   C05_recorded_deps_cover_references discharges it for the modelled syntax of mentions, and the check tests it on
   generated programs. *)
From Coq Require Import List String Bool NArith Permutation Relations.
From Verif Require Import Model.C05_Select Model.C05_SideEffect Proofs.C05_Select Proofs.C05_SideEffect.
Import ListNotations.
Local Open Scope string_scope.
Local Open Scope list_scope.

(* The work-list algorithm always terminates within its fuel (the Go loop terminates), and the set it
   returns is exactly [Alive]: roots, plus every declaration ALL of whose non-empty filters are
   dependencies of selected declarations. *)
Theorem C05_select_lfp : forall ds,
  exists ids, select ds = Some ids /\
              (forall id, In id ids <-> exists d, Alive ds d /\ d_id d = id).
Proof. exact select_spec. Qed.
Print Assumptions C05_select_lfp.

(* [Alive] is the LEAST set closed under the selection rule. *)
Theorem C05_alive_closed : forall ds, closed ds (Alive ds).
Proof. exact Alive_closed. Qed.
Print Assumptions C05_alive_closed.

Theorem C05_alive_least : forall ds (S : decl -> Prop), closed ds S -> forall d, Alive ds d -> S d.
Proof. exact Alive_least. Qed.
Print Assumptions C05_alive_least.

(* The selection does not depend on the order of Include calls, on repeated Include calls, nor on
   the order / multiplicity of the recorded dependencies. *)
Theorem C05_select_order_independent : forall ds ds' ids ids',
  same_decls ds ds' -> select ds = Some ids -> select ds' = Some ids' ->
  forall id, In id ids <-> In id ids'.
Proof.
  intros ds ds' ids ids' [S1 S2] H1 H2 id. split; eapply select_monotone; eauto; intros d Hd.
  - destruct (S1 d Hd) as (x & Hx & He). eauto using decl_equiv_le.
  - destruct (S2 d Hd) as (x & Hx & He). eauto using decl_equiv_le, decl_equiv_sym.
Qed.
Print Assumptions C05_select_order_independent.

Theorem C05_include_order_is_a_case : forall ds ds', Permutation ds ds' -> same_decls ds ds'.
Proof.
  assert (R : forall d, decl_equiv d d) by (intro d; repeat split; auto).
  intros ds ds' Hp. split; intros d Hd; exists d; split; auto.
  - eapply Permutation_in; eauto.
  - eapply Permutation_in; [apply Permutation_sym|]; eauto.
Qed.
Print Assumptions C05_include_order_is_a_case.

Theorem C05_deps_order_is_a_case : forall ds g, (forall d f, In f (g d) <-> In f (d_deps d)) ->
  same_decls ds (map (with_deps g) ds).
Proof.
  intros ds g Hg. split.
  - intros d Hd. exists (with_deps g d). split; [apply in_map; auto|].
    repeat split; simpl; auto; apply Hg.
  - intros d' Hd'. apply in_map_iff in Hd'. destruct Hd' as (d & <- & Hd). exists d. split; auto.
    repeat split; simpl; auto; apply Hg.
Qed.
Print Assumptions C05_deps_order_is_a_case.

(* More dependencies, more link targets or more alive flags never shrink the selection. *)
Theorem C05_select_monotone : forall ds ds' ids ids',
  decls_le ds ds' -> select ds = Some ids -> select ds' = Some ids' ->
  forall id, In id ids -> In id ids'.
Proof. exact select_monotone. Qed.
Print Assumptions C05_select_monotone.

(* Pruning removes only unreachable code: for ANY run-time reference relation [refs] between the
   declarations and ANY set of entry points, if entry points are roots, referenced declarations
   exist, and the recorded deps of d contain every filter of every d' that d references, then every
   declaration reachable from an entry point is selected.
   PARTIAL w.r.t. the property text: the third hypothesis is not proved of the translator. *)
Theorem C05_select_sound_partial :
  forall (ds : list decl) (refs : decl -> decl -> Prop) (entry : decl -> Prop),
  (forall d, In d ds -> entry d -> is_root d = true) ->
  (forall d d', In d ds -> refs d d' -> In d' ds) ->
  (forall d d' f, In d ds -> refs d d' -> In f (filters d') -> In f (d_deps d)) ->
  forall d0 d, In d0 ds -> entry d0 -> clos_refl_trans _ refs d0 d ->
  exists ids, select ds = Some ids /\ In (d_id d) ids.
Proof. exact select_sound_gen. Qed.
Print Assumptions C05_select_sound_partial.

(* the analysis never misses a call or a receive that evaluation would run (full statement; calls
   through values of named func types are recognised since the fix de84ca0) *)
Theorem C05_has_side_effect_conservative : forall e,
  evaluates_call_or_recv e = true -> has_side_effect e = true.
Proof. exact hse_conservative. Qed.
Print Assumptions C05_has_side_effect_conservative.

(* Full statement (visible, FALSE for the code as it is — recorded finding
   dce-drops-panicking-initializer-without-call):
     initialiser_root_full_statement =
       forall n e, can_have_effect e = true -> var_is_root n e = true *)
Theorem C05_initialiser_root_refuted : exists e, can_have_effect e = true /\ var_is_root 1 e = false.
Proof. exact initialiser_root_refuted. Qed.
Print Assumptions C05_initialiser_root_refuted.

Theorem C05_initialiser_root_full_statement_false : ~ initialiser_root_full_statement.
Proof.
  intro H. destruct initialiser_root_refuted as (e & H1 & H2). rewrite (H 1%N e H1) in H2. discriminate.
Qed.
Print Assumptions C05_initialiser_root_full_statement_false.

(* the positive theorem under the hypothesis that excludes exactly the finding's input class:
   expressions containing a node that can panic without being a call or a receive *)
Theorem C05_initialiser_root_partial : forall n e,
  may_panic e = false -> can_have_effect e = true -> var_is_root n e = true.
Proof. exact initialiser_root_excluding_panics. Qed.
Print Assumptions C05_initialiser_root_partial.

(* Non-vacuity: main (alive) uses type T and calls through interface I with unexported method m;
   T's exported method M needs only T; T.m needs BOTH "p.T" and "p.m()"; U.m has "p.m()" hit but
   "p.U" not, so it stays dead; an unnamed decl (package import) and a linkname target are roots;
   fuel suffices and the selection is {1,2,3,4,7,8} (listed in reverse pop order: 8, 7, 1 are popped first — LIFO). *)
Example C05_nonvacuous :
  let D id alive obj meth deps link :=
    {| d_id := id; d_alive := alive; d_obj := obj; d_meth := meth; d_deps := deps; d_link := link |} in
  let ds := [ D 1%N true  "p.main" "" ["p.T"; "p.I"; "p.m()"] false;
              D 2%N false "p.T" "" ["p.T"] false;
              D 3%N false "p.T" "" ["p.T"; "p.helper"] false;      (* func (T) M() *)
              D 4%N false "p.T" "p.m()" [] false;                  (* func (T) m() *)
              D 5%N false "p.U" "p.m()" [] false;                  (* func (U) m(): receiver dead *)
              D 6%N false "p.dead" "" ["p.U"] false;
              D 7%N false "" "" [] false;                          (* unnamed: always alive *)
              D 8%N false "p.linked" "" [] true ] in
  select ds = Some [2; 3; 4; 1; 7; 8]%N /\
  closed ds (Alive ds) /\
  (exists e, may_panic e = false /\ can_have_effect e = true).
Proof.
  cbv zeta. split; [vm_compute; reflexivity|]. split; [apply Alive_closed|].
  exists (ECall CNamedFunc EIdent []). vm_compute. split; reflexivity.
Qed.

(* The recording of DCE names and dependencies.  Model/C05_Record.v mirrors getFilters / filterGen (filters.go)
   and the DeclareDCEDep call sites for an abstract syntax of mentions: package-level functions and variables, named types (also through
   pointers, slices, maps, func types), generic instances, method calls/values through concrete
   receivers (promoted methods: the embedded type declares them), through interfaces, method
   expressions T.m / I.m, conversions (a type mention).  [compile p] is the Decl list handed to the
   Selector.  Proofs/C05_P4_Record.v defines, independently of any filter string, which declaration a
   mention needs, which method declarations a call can dispatch to (static selection / Go's
   method-set rule with types.Identical on signatures) and [Reach]: the declarations whose code can be
   executed or whose method can be reached by any dynamically possible call, a method body being
   executable only if some reachable code names the receiver type instance (values of a named type
   come into existence only in code that names the type). *)
From Verif Require Import Model.C05_Record Proofs.C05_P4_Record Proofs.C05_P4_Witness.

(* The method filter recorded at a call site (interface or concrete) equals the filter the implementing
   method declaration is named with whenever Go's rule says the call can reach it (identical
   signatures after substituting the receiver's type arguments), for alias-free spellings. *)
Theorem C05_method_filter_agrees : forall targs mp mn s s',
  sig_identical s' (sig_subst targs s) = true ->
  sig_canonical s' = true -> sig_canonical (sig_subst targs s) = true -> sig_wf s = true ->
  meth_filter [] mp mn s' = meth_filter (tys_filter [] targs) mp mn s.
Proof. intros targs mp mn s s' Hi _ _. apply method_filter_identical, Hi. Qed.
Print Assumptions C05_method_filter_agrees.

(* ... the witness of the finding dce-unexported-method-byte-uint8-spelling-mismatch (fixed in /repo by 757816d),
   write([]byte) rune / write([]uint8) int32, gets equal filters: filterGen.Type prints the canonical
   name of byte and rune.  (The statement above holds without its two spelling hypotheses as well:
   Proofs.C05_P4_Record.method_filter_identical.) *)
Theorem C05_method_filter_alias_witness_agrees :
  sig_identical sig_write_uint8 (sig_subst TNil sig_write_byte) = true /\ sig_wf sig_write_byte = true /\
  meth_filter [] "main" "write" sig_write_uint8 = meth_filter [] "main" "write" sig_write_byte.
Proof. split; [reflexivity|]. split; reflexivity. Qed.
Print Assumptions C05_method_filter_alias_witness_agrees.

(* filterGen's replacement map = printing the substituted signature (generic receivers) *)
Theorem C05_filter_subst : forall ta s, sig_wf s = true ->
  sig_filter (tys_filter [] ta) s = sig_filter [] (sig_subst ta s).
Proof. exact sig_filter_subst. Qed.
Print Assumptions C05_filter_subst.

(* The recorded dependencies cover the references: every reachable declaration of a program built by
   the mirrored recorder is in the least fixed point [Alive] of the selection rule — the third
   hypothesis of C05_select_sound_partial is discharged for the modelled syntax. *)
Theorem C05_recorded_deps_cover_references : forall p, prog_ok p = true ->
  forall g, Reach p g -> forall i, nth_error p i = Some g -> Alive (compile p) (mk_decl p i g).
Proof. intros p Hok. apply reach_alive_wf, prog_ok_wf, Hok. Qed.
Print Assumptions C05_recorded_deps_cover_references.

(* Soundness without the hypothesis: the real work-list algorithm, run on the recorded names and
   dependencies, selects every reachable declaration. *)
Theorem C05_select_sound : forall p, prog_ok p = true ->
  forall g i, Reach p g -> nth_error p i = Some g ->
  exists ids, select (compile p) = Some ids /\ In (N.of_nat i) ids.
Proof. intros p Hok. apply reach_selected_wf, prog_ok_wf, Hok. Qed.
Print Assumptions C05_select_sound.

(* Full statement (visible, NOT proved): the same without [prog_ok].  Of [prog_ok] the proof uses only that the
   variadic parameter of a declared method is a slice (Proofs.C05_P4_Record.reach_selected_wf), not the
   alias-free spelling: the programs of the findings dce-unexported-method-byte-uint8-spelling-mismatch and
   dce-generic-instance-byte-uint8-spelling-mismatch (both fixed in /repo by 757816d) are selected, as the two
   theorems after it say.  Without the variadic clause the statement fails in the model, on a
   signature go/types never produces: `m(xs ...T)` recorded with the parameter type T instead of []T and T
   instantiated by []int is named "m(...[]int)" at the declaration and "m(...int)" at an interface call. *)
Definition C05_select_sound_full_statement : Prop :=
  forall p g i, Reach p g -> nth_error p i = Some g ->
  exists ids, select (compile p) = Some ids /\ In (N.of_nat i) ids.

Theorem C05_select_sound_alias_witness_iface :
  Reach w1 w1_meth /\ exists ids, select (compile w1) = Some ids /\ In 2%N ids.
Proof.
  split; [exact w1_reach|]. refine (reach_selected_wf w1 _ w1_meth 2 w1_reach eq_refl).
  intros g mn s [<-|[<-|[<-|[]]]] E; inversion E. reflexivity.
Qed.
Print Assumptions C05_select_sound_alias_witness_iface.

Theorem C05_select_sound_alias_witness_instance :
  Reach w2 w2_inst /\ exists ids, select (compile w2) = Some ids /\ In 2%N ids.
Proof. exact select_sound_alias_witness_instance. Qed.
Print Assumptions C05_select_sound_alias_witness_instance.

(* Non-vacuity: a canonical program in which an unexported method of a generic instance is reached only
   through an interface call, and is selected *)
Example C05_p4_nonvacuous :
  prog_ok p4_example = true /\ Reach p4_example p4_example_method /\
  nth_error p4_example 3 = Some p4_example_method /\
  exists ids, select (compile p4_example) = Some ids /\ In 3%N ids /\ ~ In 5%N ids.
Proof. exact p4_example_ok. Qed.
