(* C06 — Fixed-width integer arithmetic is exact.
   This file holds ONLY the property theorems (each closed by a lemma of Proofs/ or a few lines from one) and their
   Print Assumptions.

   Layers:  Base/C06_JsNum.v (JS numbers: exact integers, -0, non-integer quotients, NaN/Inf, [Unk] for anything else inexact)
            Model/C06_Prelude64.v ($Int64/$Uint64 constructors, $mul64, $div64, shifts)
            Model/C06_Templates.v (expressions.go by hand, parametrised by the repair [variant])
            Gen/C06_Tables.v      (REGENERATED each run: the 631 templates as the real compiler emits them,
                                   the fixNumber table, is64Bit, the probed variant [current])
            Model/C06_Spec.v      (the Go specification, written independently).
   Tie:     C06_emitted_* below (conversion with the real compiler's output, re-proved every run) and
            harness/py/props/c06.py (helpers vs BigInt, compiled programs vs native Go, both vs the model).

   Values: a Go value v of a kind k of at most 32 bits is the JS number [Fin v].  [Ret (Fin w)] as a
   result states in addition that no intermediate was inexact (|z| <= 2^53) and that the result
   is not the negative zero. *)
From Coq Require Import ZArith Bool List Lia.
From Verif Require Import Base.C06_JsNum Model.C06_Prelude64 Model.C06_Spec Gen.C06_Tables Model.C06_Templates
  Proofs.C06_Arith Proofs.C06_Fix Proofs.C06_Tie Proofs.C06_Div32 Proofs.C06_Bits32 Proofs.C06_Shift32 Proofs.C06_Ops64 Proofs.C06_Bits64 Proofs.C06_Status
  Model.C06_P4_Conv Proofs.C06_P4_Shift64 Proofs.C06_P4_Div64a Proofs.C06_P4_Conv.
Import ListNotations.
Local Open Scope Z_scope.

(* the hand-written model is convertible with what the compiler emitted in this run, for every kind, operator and
   operand shape that was compiled *)
Theorem C06_emitted_bin32 : forall k o, is64 k = false -> g_bin32 k o = Some (bin32 current k o).
Proof. exact tie_bin32. Qed.
Print Assumptions C06_emitted_bin32.
Theorem C06_emitted_bin64 : forall k o, is64 k = true -> g_bin64 k o = Some (bin64 current k o).
Proof. exact tie_bin64. Qed.
Print Assumptions C06_emitted_bin64.
Theorem C06_emitted_cmp32 : forall k c, is64 k = false -> g_cmp32 k c = Some (cmp32 c).
Proof. exact tie_cmp32. Qed.
Print Assumptions C06_emitted_cmp32.
Theorem C06_emitted_cmp64 : forall k c, is64 k = true -> g_cmp64 k c = Some (cmp64 c).
Proof. exact tie_cmp64. Qed.
Print Assumptions C06_emitted_cmp64.
Theorem C06_emitted_un32 : forall k u, is64 k = false -> g_un32 k u = Some (un32 current k u).
Proof. exact tie_un32. Qed.
Print Assumptions C06_emitted_un32.
Theorem C06_emitted_un64 : forall k u, is64 k = true -> g_un64 k u = Some (un64 current k u).
Proof. exact tie_un64. Qed.
Print Assumptions C06_emitted_un64.
Theorem C06_emitted_shv32 : forall k s, is64 k = false -> g_shv32 k s = Some (shv32 k s).
Proof. exact tie_shv32. Qed.
Print Assumptions C06_emitted_shv32.
Theorem C06_emitted_shv64 : forall k s, is64 k = true -> g_shv64 k s = Some (sh64 current k s).
Proof. exact tie_shv64. Qed.
Print Assumptions C06_emitted_shv64.
Theorem C06_emitted_shc32 : forall k s, is64 k = false ->
  g_shc32 k s = map (fun c => (c, shc32 current k s c)) sample_counts.
Proof. exact tie_shc32. Qed.
Print Assumptions C06_emitted_shc32.
Theorem C06_emitted_shc64 : forall k s, is64 k = true ->
  g_shc64 k s = map (fun c => (c, fun x => sh64 current k s x (Fin c))) sample_counts.
Proof. exact tie_shc64. Qed.
Print Assumptions C06_emitted_shc64.
Theorem C06_emitted_conv_nn : forall k1 k2, is64 k1 = false -> is64 k2 = false -> k1 <> k2 ->
  g_conv_nn k1 k2 = Some (conv_nn k2).
Proof. exact tie_conv_nn. Qed.
Print Assumptions C06_emitted_conv_nn.
Theorem C06_emitted_conv_no : forall k1 k2, is64 k1 = false -> is64 k2 = true ->
  g_conv_no k1 k2 = Some (conv_no current k2).
Proof. exact tie_conv_no. Qed.
Print Assumptions C06_emitted_conv_no.
Theorem C06_emitted_conv_on : forall k1 k2, is64 k1 = true -> is64 k2 = false ->
  g_conv_on k1 k2 = Some (conv_on k1 k2).
Proof. exact tie_conv_on. Qed.
Print Assumptions C06_emitted_conv_on.
Theorem C06_emitted_conv_oo : forall k1 k2, is64 k1 = true -> is64 k2 = true -> k1 <> k2 ->
  g_conv_oo k1 k2 = Some (conv_oo current k2).
Proof. exact tie_conv_oo. Qed.
Print Assumptions C06_emitted_conv_oo.
(* the regenerated is64Bit agrees with the kind classification used by the specification *)
Theorem C06_is64bit_table : forall k, is64b k = is64 k.
Proof. destruct k; reflexivity. Qed.
Print Assumptions C06_is64bit_table.

(* fixNumber, through the regenerated suffix table, wraps any integer into the kind *)
Theorem C06_fixnumber_wraps : forall k z, is64 k = false -> fixnum k (Fin z) = Fin (wrap k z).
Proof. exact fixnum_fin. Qed.
Print Assumptions C06_fixnumber_wraps.

(* operators of the 9 kinds of at most 32 bits: every repair variant V, all in-range operands *)
Theorem C06_add_correct : forall V k x y, is64 k = false -> in_range k x -> in_range k y ->
  bin32 V k Add (Fin x) (Fin y) = embed (go_bin k Add x y).
Proof. exact add32_correct. Qed.
Print Assumptions C06_add_correct.
Theorem C06_sub_correct : forall V k x y, is64 k = false -> in_range k x -> in_range k y ->
  bin32 V k Sub (Fin x) (Fin y) = embed (go_bin k Sub x y).
Proof. exact sub32_correct. Qed.
Print Assumptions C06_sub_correct.
Theorem C06_mul_correct : forall V k x y, is64 k = false -> in_range k x -> in_range k y ->
  bin32 V k Mul (Fin x) (Fin y) = embed (go_bin k Mul x y).
Proof. exact mul32_correct. Qed.
Print Assumptions C06_mul_correct.
Theorem C06_and_correct : forall V k x y, is64 k = false -> in_range k x -> in_range k y ->
  bin32 V k And (Fin x) (Fin y) = embed (go_bin k And x y).
Proof. exact and32_correct. Qed.
Print Assumptions C06_and_correct.
Theorem C06_or_correct : forall V k x y, is64 k = false -> in_range k x -> in_range k y ->
  bin32 V k Or (Fin x) (Fin y) = embed (go_bin k Or x y).
Proof. exact or32_correct. Qed.
Print Assumptions C06_or_correct.
Theorem C06_xor_correct : forall V k x y, is64 k = false ->
  bin32 V k Xor (Fin x) (Fin y) = embed (go_bin k Xor x y).
Proof. exact xor32_correct. Qed.
Print Assumptions C06_xor_correct.
Theorem C06_andnot_correct : forall V k x y, is64 k = false ->
  bin32 V k AndNot (Fin x) (Fin y) = embed (go_bin k AndNot x y).
Proof. exact andnot32_correct. Qed.
Print Assumptions C06_andnot_correct.
Theorem C06_bitwise_results_in_range : forall k x y, in_range k x -> in_range k y ->
  in_range k (Z.land x y) /\ in_range k (Z.lor x y) /\ in_range k (Z.lxor x y).
Proof. exact (fun k x y Rx Ry => conj (land_in_range k x y Rx Ry) (conj (lor_in_range k x y Rx Ry) (lxor_in_range k x y Rx Ry))). Qed.
Print Assumptions C06_bitwise_results_in_range.
Theorem C06_cmp_correct : forall c x y, cmp32 c (Fin x) (Fin y) = Ret (Some (go_cmp c x y)).
Proof.
  intros c x y. destruct c; cbn [cmp32 go_cmp js_seq js_lt js_le js_gt js_ge jb_not option_map ext_of ext_eq ext_lt]; try reflexivity.
  - (* Leq *) rewrite Z.leb_antisym. reflexivity.
  - (* Geq *) rewrite Z.leb_antisym. reflexivity.
Qed.
Print Assumptions C06_cmp_correct.
Theorem C06_not_correct : forall V k x, is64 k = false -> un32 V k Not (Fin x) = Ret (Fin (go_un k Not x)).
Proof. exact not32_correct. Qed.
Print Assumptions C06_not_correct.
Theorem C06_conv_correct : forall k2 x, is64 k2 = false -> conv_nn k2 (Fin x) = Ret (Fin (go_conv k2 x)).
Proof. exact (fun k2 x H => f_equal Ret (fixnum_fin k2 x H)). Qed.
Print Assumptions C06_conv_correct.

(* Every binary and unary operator of the 9 kinds of at most 32 bits, for the code under test ([current] = the
   variant probed in this run; all repairs present), all in-range operands, no exclusions: wrap-around, truncated
   division and remainder, panic exactly on a zero divisor, no -0, no inexact intermediate.  With v_quo, v_rem or
   v_neg = false (the translation before the respective fix) these fail at int8/int16 MinInt / -1, at zero remainders
   of negative dividends, and at the negation of MinInt and of 0; Proofs/C06_Div32.v and C06_Bits32.v keep the
   refutations for those variants. *)
Theorem C06_binop_correct : forall k o x y, is64 k = false -> in_range k x -> in_range k y ->
  bin32 current k o (Fin x) (Fin y) = embed (go_bin k o x y).
Proof. exact (fun k o x y H Rx Ry => bin32_any current k o x y H Rx Ry (fun _ => or_introl eq_refl) (fun _ => or_introl eq_refl)). Qed.
Print Assumptions C06_binop_correct.
Theorem C06_unop_correct : forall k u x, is64 k = false -> in_range k x ->
  un32 current k u (Fin x) = Ret (Fin (go_un k u x)).
Proof. exact (fun k u x H R => un32_any current k u x H R (fun _ => or_introl eq_refl)). Qed.
Print Assumptions C06_unop_correct.
Theorem C06_binop_result_in_range : forall k o x y v, in_range k x -> in_range k y -> go_bin k o x y = GVal v -> in_range k v.
Proof. exact go_bin_in_range. Qed.
Print Assumptions C06_binop_result_in_range.
Theorem C06_unop_result_in_range : forall k u x, in_range k (go_un k u x).
Proof. intros k u x; destruct u; apply in_range_wrap. Qed.
Print Assumptions C06_unop_result_in_range.
(* the same for ANY variant that has the respective repair (so the statements do not silently depend on [current]) *)
Theorem C06_quo_repaired_full : forall V, v_quo V = true -> quo_full_statement V.
Proof. exact quo_repaired_full. Qed.
Print Assumptions C06_quo_repaired_full.
Theorem C06_rem_repaired_full : forall V, v_rem V = true -> rem_full_statement V.
Proof. exact rem_repaired_full. Qed.
Print Assumptions C06_rem_repaired_full.
Theorem C06_neg_repaired_full : forall V, v_neg V = true -> neg_full_statement V.
Proof. exact neg_repaired_full. Qed.
Print Assumptions C06_neg_repaired_full.

(* shifts by any non-negative count (variable count; constant count c, also beyond the sampled ones) *)
Theorem C06_shl_var_correct : forall k x n, is64 k = false -> 0 <= n ->
  shv32 k Shl (Fin x) (Fin n) = Ret (Fin (go_shift k Shl x n)).
Proof.
  intros k x n H Hn. cbn [shv32 go_shift]. rewrite js_lt_fin. destruct (Z.ltb_spec n 32); cbn [js_ite_num].
  - rewrite fix_shl by (assumption || lia). reflexivity.
  - rewrite fixnum_fin, shl_big_zero, (wrap_id k 0 (in_range_0 k)) by assumption. reflexivity.
Qed.
Print Assumptions C06_shl_var_correct.
Theorem C06_shr_var_correct : forall k x n, is64 k = false -> in_range k x -> 0 <= n ->
  shv32 k Shr (Fin x) (Fin n) = Ret (Fin (go_shift k Shr x n)).
Proof. exact shr32_var_correct. Qed.
Print Assumptions C06_shr_var_correct.
Theorem C06_shift_const_correct : forall k s c x, is64 k = false -> in_range k x -> 0 <= c ->
  shc32 current k s c (Fin x) = Ret (Fin (go_shift k s x c)).
Proof. exact (shc_repaired_full current eq_refl). Qed.
Print Assumptions C06_shift_const_correct.
Theorem C06_shift_const_repaired_full : forall V, v_shrc V = true -> shc_full_statement V.
Proof. exact shc_repaired_full. Qed.
Print Assumptions C06_shift_const_repaired_full.
Theorem C06_shift_result_in_range : forall k s x n, in_range k x -> 0 <= n -> in_range k (go_shift k s x n).
Proof. exact go_shift_in_range. Qed.
Print Assumptions C06_shift_result_in_range.
Theorem C06_shift_results_in_range : forall k x n, in_range k x -> 0 <= n -> in_range k (Z.shiftr x n).
Proof. exact shiftr_in_range. Qed.
Print Assumptions C06_shift_results_in_range.

(* 64-bit kinds: a value v is the object enc64 k v = ($high = v / 2^32, $low = v mod 2^32).
   [C06_int64_full_statement] holds for every operator ([C06_int64_binop_correct], after $div64 below);
   [C06_int64_binop_correct_partial] is its restriction to the operators other than / and %. *)
Definition C06_int64_full_statement (V : variant) : Prop :=
  forall k o x y, is64 k = true -> in_range k x -> in_range k y ->
  bin64 V k o (enc64 k x) (enc64 k y) =
  match go_bin k o x y with GVal v => Ret (enc64 k v) | GPanicDivide => Throw DivideByZero end.
Theorem C06_int64_binop_correct_partial : forall V k o x y, is64 k = true -> in_range k x -> in_range k y ->
  o <> Quo -> o <> Rem ->
  bin64 V k o (enc64 k x) (enc64 k y) =
  match go_bin k o x y with GVal v => Ret (enc64 k v) | GPanicDivide => Throw DivideByZero end.
Proof. exact (fun V k o x y H Rx Ry _ _ => bin64_full V k o x y H Rx Ry). Qed.
Print Assumptions C06_int64_binop_correct_partial.
Theorem C06_ctor64_normalises : forall tr sg h l, - two53 <= h + l / two32 <= two53 ->
  new64v tr sg (Fin h) (Fin l) = enc64 (k64 sg) (wrap (k64 sg) (h * two32 + l)).
Proof. exact new64_norm. Qed.
Print Assumptions C06_ctor64_normalises.
Theorem C06_add64_correct : forall V k x y, is64 k = true -> in_range k x -> in_range k y ->
  bin64 V k Add (enc64 k x) (enc64 k y) = Ret (enc64 k (wrap k (x + y))).
Proof. exact add64_correct. Qed.
Print Assumptions C06_add64_correct.
Theorem C06_sub64_correct : forall V k x y, is64 k = true -> in_range k x -> in_range k y ->
  bin64 V k Sub (enc64 k x) (enc64 k y) = Ret (enc64 k (wrap k (x - y))).
Proof. exact sub64_correct. Qed.
Print Assumptions C06_sub64_correct.
(* $mul64: schoolbook multiplication on 16-bit digits is the product modulo 2^64, for ALL operands
   (every intermediate is below 2^32 + 2^34, far below 2^53). *)
Theorem C06_mul64_correct : forall V k x y, is64 k = true ->
  bin64 V k Mul (enc64 k x) (enc64 k y) = Ret (enc64 k (wrap k (x * y))).
Proof. exact (fun V k x y H => f_equal Ret (mul64_correct (v_ctor V) k x y H)). Qed.
Print Assumptions C06_mul64_correct.
Theorem C06_mul64_helper_correct : forall tr sg sg' xh xl yh yl, 0 <= xl < two32 -> 0 <= yl < two32 ->
  mul64 tr (O64 sg xh xl) (O64 sg' yh yl) =
  enc64 (k64 sg) (wrap (k64 sg) (((xh mod two32) * two32 + xl) * ((yh mod two32) * two32 + yl))).
Proof. exact mul64_value. Qed.
Print Assumptions C06_mul64_helper_correct.
Theorem C06_and64_correct : forall V k x y, is64 k = true -> in_range k x -> in_range k y ->
  bin64 V k And (enc64 k x) (enc64 k y) = Ret (enc64 k (Z.land x y)).
Proof. exact and64_correct. Qed.
Print Assumptions C06_and64_correct.
Theorem C06_or64_correct : forall V k x y, is64 k = true -> in_range k x -> in_range k y ->
  bin64 V k Or (enc64 k x) (enc64 k y) = Ret (enc64 k (Z.lor x y)).
Proof. exact or64_correct. Qed.
Print Assumptions C06_or64_correct.
Theorem C06_xor64_correct : forall V k x y, is64 k = true -> in_range k x -> in_range k y ->
  bin64 V k Xor (enc64 k x) (enc64 k y) = Ret (enc64 k (wrap k (Z.lxor x y))).
Proof. exact (fun V k x y H _ _ => xor64_correct V k x y H). Qed.
Print Assumptions C06_xor64_correct.
Theorem C06_andnot64_correct : forall V k x y, is64 k = true ->
  bin64 V k AndNot (enc64 k x) (enc64 k y) = Ret (enc64 k (wrap k (Z.land x (Z.lnot y)))).
Proof. exact andnot64_correct. Qed.
Print Assumptions C06_andnot64_correct.
Theorem C06_not64_correct : forall V k x, is64 k = true -> in_range k x ->
  un64 V k Not (enc64 k x) = Ret (enc64 k (go_un k Not x)).
Proof. exact (fun V k x H _ => not64_correct V k x H). Qed.
Print Assumptions C06_not64_correct.
Theorem C06_conv_64to32_correct : forall k1 k2 x, is64 k1 = true -> is64 k2 = false -> in_range k1 x ->
  conv_on k1 k2 (enc64 k1 x) = Ret (Fin (go_conv k2 x)).
Proof. exact conv_on_correct. Qed.
Print Assumptions C06_conv_64to32_correct.
Theorem C06_neg64_correct : forall V k x, is64 k = true -> in_range k x ->
  un64 V k Neg (enc64 k x) = Ret (enc64 k (go_un k Neg x)).
Proof. exact neg64_correct. Qed.
Print Assumptions C06_neg64_correct.
Theorem C06_cmp64_correct : forall c k x y, cmp64 c (enc64 k x) (enc64 k y) = Ret (Some (go_cmp c x y)).
Proof. exact cmp64_correct. Qed.
Print Assumptions C06_cmp64_correct.
Theorem C06_conv_to64_correct : forall V k2 x, is64 k2 = true -> - two31 <= x < two32 ->
  conv_no V k2 (Fin x) = Ret (enc64 k2 (go_conv k2 x)).
Proof. intros V k2 x H B. apply conv_no_any; [assumption | unfold two31, two32, two53 in *; lia]. Qed.
Print Assumptions C06_conv_to64_correct.
Theorem C06_conv_64to64_correct : forall V k1 k2 x, is64 k1 = true -> is64 k2 = true -> in_range k1 x ->
  conv_oo V k2 (enc64 k1 x) = Ret (enc64 k2 (go_conv k2 x)).
Proof.
  intros V k1 k2 x _ H2 R. pose proof (in_range_64 k1 x R). destruct (enc64_words k1 x) as (hx & lx & -> & Ex & Lx).
  unfold conv_oo, N64, go_conv. cbn [o_hi o_lo].
  rewrite (new64_enc _ k2 _ _ x); [reflexivity | assumption | unfold two32, two53 in *; lia | f_equal; lia].
Qed.
Print Assumptions C06_conv_64to64_correct.

(* $div64, by the invariants of its two loops.
   A pair of 32-bit words (h, l) denotes val2 h l = h * 2^32 + l; qrep h l Q: the quotient register (a signed high
   word and an unsigned low word) represents Q modulo 2^64. *)
(* one `y <<= 1` of the first loop and one `y >>>= 1` of the second are exact on pairs *)
Theorem C06_div64_shl1_exact : forall yh yl, 0 <= yh < two31 -> 0 <= yl < two32 ->
  let yh' := to_uint32 (or32 (shl32 yh 1) (ushr32 yl 31)) in
  let yl' := to_uint32 (shl32 yl 1) in
  val2 yh' yl' = 2 * val2 yh yl /\ 0 <= yh' < two32 /\ 0 <= yl' < two32.
Proof. exact shl1_pair. Qed.
Print Assumptions C06_div64_shl1_exact.
Theorem C06_div64_shr1_exact : forall yh yl, 0 <= yh < two32 -> 0 <= yl < two32 ->
  let yh' := ushr32 yh 1 in
  let yl' := to_uint32 (or32 (ushr32 yl 1) (shl32 yh 31)) in
  val2 yh' yl' = val2 yh yl / 2 /\ 0 <= yh' < two32 /\ 0 <= yl' < two32.
Proof. exact shr1_pair. Qed.
Print Assumptions C06_div64_shr1_exact.
(* invariant of the normalisation loop `while (yHigh < 2^31 && x > y) { y <<= 1; n++ }`: y = y0 * 2^(n - n0); with fuel f
   such that y0 * 2^f >= 2^63 (64 suffices for any y0 >= 1) the loop left through its condition and x < 2 * y *)
Theorem C06_div64_norm_loop_invariant : forall f xh xl yh yl n,
  0 <= xl < two32 -> 0 <= yh < two32 -> 0 <= yl < two32 ->
  0 < val2 yh yl -> val2 xh xl < two64 -> two64 <= 2 * (val2 yh yl * 2 ^ Z.of_nat f) ->
  exists j : nat,
    snd (div_norm f xh xl yh yl n) = n + Z.of_nat j /\
    let yh' := fst (fst (div_norm f xh xl yh yl n)) in
    let yl' := snd (fst (div_norm f xh xl yh yl n)) in
    val2 yh' yl' = val2 yh yl * 2 ^ Z.of_nat j /\ 0 <= yh' < two32 /\ 0 <= yl' < two32 /\
    val2 xh xl < 2 * val2 yh' yl'.
Proof. exact div_norm_spec. Qed.
Print Assumptions C06_div64_norm_loop_invariant.
(* one iteration of the quotient loop: x' = x - b*y, q' = 2q + b (b = [y <= x]), y' = y / 2; the `low === 4294967296` carry is dead *)
Theorem C06_div64_step_invariant : forall s Q,
  0 <= d_xl s < two32 -> 0 <= d_yh s < two32 -> 0 <= d_yl s < two32 -> qrep (d_high s) (d_low s) Q ->
  let X := val2 (d_xh s) (d_xl s) in
  let Y := val2 (d_yh s) (d_yl s) in
  let b := if Y <=? X then 1 else 0 in
  let s' := div_step s in
  val2 (d_xh s') (d_xl s') = X - b * Y /\ 0 <= d_xl s' < two32 /\
  val2 (d_yh s') (d_yl s') = Y / 2 /\ 0 <= d_yh s' < two32 /\ 0 <= d_yl s' < two32 /\
  qrep (d_high s') (d_low s') (2 * Q + b).
Proof. exact (fun s Q Hxl Hyh Hyl Hq => div_step_rep s _ _ Q (conj eq_refl (conj Hxl (conj eq_refl (conj Hyh (conj Hyl Hq)))))). Qed.
Print Assumptions C06_div64_step_invariant.
(* the quotient loop: j+1 iterations from y = D * 2^j, x < 2y end with x = x0 mod D and q = q0 * 2^(j+1) + x0 / D *)
Theorem C06_div64_quot_loop_invariant : forall (j : nat) s D Q,
  0 < D ->
  0 <= d_xl s < two32 -> 0 <= d_yh s < two32 -> 0 <= d_yl s < two32 -> qrep (d_high s) (d_low s) Q ->
  val2 (d_yh s) (d_yl s) = D * 2 ^ Z.of_nat j ->
  0 <= val2 (d_xh s) (d_xl s) < 2 * (D * 2 ^ Z.of_nat j) ->
  let s' := div_iter (S j) s in
  val2 (d_xh s') (d_xl s') = val2 (d_xh s) (d_xl s) mod D /\ 0 <= d_xl s' < two32 /\
  qrep (d_high s') (d_low s') (Q * 2 ^ (Z.of_nat j + 1) + val2 (d_xh s) (d_xl s) / D).
Proof.
  intros j s D Q _ Hxl Hyh Hyl Hq HY HX.
  destruct (div_iter_run j s D _ Q HX (conj eq_refl (conj Hxl (conj HY (conj Hyh (conj Hyl Hq)))))) as (Ex & Rxl & _ & _ & _ & Rq).
  exact (conj Ex (conj Rxl Rq)).
Qed.
Print Assumptions C06_div64_quot_loop_invariant.
(* the helper: truncated quotient / remainder with the sign of the dividend, wrapped (MinInt64 / -1 = MinInt64), all operands *)
Theorem C06_div64_helper_correct : forall tr k x y rem, is64 k = true -> in_range k x -> in_range k y -> y <> 0 ->
  div64 tr (enc64 k x) (enc64 k y) rem = Ret (enc64 k (wrap k (if rem then Z.rem x y else Z.quot x y))).
Proof. exact div64_value. Qed.
Print Assumptions C06_div64_helper_correct.
Theorem C06_div64_zero_throws : forall tr k x rem, div64 tr (enc64 k x) (enc64 k 0) rem = Throw DivideByZero.
Proof. exact div64_throw. Qed.
Print Assumptions C06_div64_zero_throws.
Theorem C06_quo64_correct : forall V k x y, is64 k = true -> in_range k x -> in_range k y ->
  bin64 V k Quo (enc64 k x) (enc64 k y) =
  match go_bin k Quo x y with GVal v => Ret (enc64 k v) | GPanicDivide => Throw DivideByZero end.
Proof. exact (fun V k x y => div64_bin V k x y false). Qed.
Print Assumptions C06_quo64_correct.
Theorem C06_rem64_correct : forall V k x y, is64 k = true -> in_range k x -> in_range k y ->
  bin64 V k Rem (enc64 k x) (enc64 k y) =
  match go_bin k Rem x y with GVal v => Ret (enc64 k v) | GPanicDivide => Throw DivideByZero end.
Proof. exact (fun V k x y => div64_bin V k x y true). Qed.
Print Assumptions C06_rem64_correct.
(* MinInt64 / -1 and MinInt64 % -1 (the overflow case the Go specification singles out) *)
Theorem C06_div64_minint : forall V,
  bin64 V Int64 Quo (enc64 Int64 (-9223372036854775808)) (enc64 Int64 (-1)) = Ret (enc64 Int64 (-9223372036854775808)) /\
  bin64 V Int64 Rem (enc64 Int64 (-9223372036854775808)) (enc64 Int64 (-1)) = Ret (enc64 Int64 0).
Proof.
  intro V. assert (Rx : in_range Int64 (-9223372036854775808)) by (unfold in_range; cbn; lia).
  assert (Ry : in_range Int64 (-1)) by (unfold in_range; cbn; lia).
  exact (conj (div64_bin V Int64 _ _ false eq_refl Rx Ry) (div64_bin V Int64 _ _ true eq_refl Rx Ry)).
Qed.
Print Assumptions C06_div64_minint.
Theorem C06_int64_binop_correct : forall V, C06_int64_full_statement V.
Proof. exact bin64_full. Qed.
Print Assumptions C06_int64_binop_correct.
(* $shiftLeft64 / $shiftRightInt64 / $shiftRightUint64 for EVERY count n >= 0 (0, < 32, 32, 32..63, >= 64; unbounded) *)
Theorem C06_shl64_var_correct : forall V k x n, is64 k = true -> in_range k x -> 0 <= n ->
  sh64 V k Shl (enc64 k x) (Fin n) = Ret (enc64 k (go_shift k Shl x n)).
Proof. exact shl64_correct. Qed.
Print Assumptions C06_shl64_var_correct.
Theorem C06_shr64_var_correct : forall V k x n, is64 k = true -> in_range k x -> 0 <= n ->
  sh64 V k Shr (enc64 k x) (Fin n) = Ret (enc64 k (go_shift k Shr x n)).
Proof. exact shr64_correct. Qed.
Print Assumptions C06_shr64_var_correct.
(* constant counts are emitted as the same helper call with the literal count (C06_emitted_shc64), so: *)
Theorem C06_shift64_const_correct : forall V k s c x, is64 k = true -> in_range k x -> 0 <= c ->
  sh64 V k s (enc64 k x) (Fin c) = Ret (enc64 k (go_shift k s x c)).
Proof. exact (fun V k s c x => sh64_correct V k s x c). Qed.
Print Assumptions C06_shift64_const_correct.
Theorem C06_shift64_result_in_range : forall k s x n, is64 k = true -> in_range k x -> 0 <= n -> in_range k (go_shift k s x n).
Proof. exact (fun k s x n _ => go_shift_in_range k s x n). Qed.
Print Assumptions C06_shift64_result_in_range.

(* float64 <-> 64-bit kinds.  The emitted templates (regenerated each run) are the models: *)
Theorem C06_emitted_conv_float_to64 : forall k2, is64 k2 = true -> g_conv_fo k2 = Some (conv_fo current k2).
Proof. exact tie_conv_fo. Qed.
Print Assumptions C06_emitted_conv_float_to64.
Theorem C06_emitted_conv_64_to_float : forall k1, is64 k1 = true -> g_conv_of k1 = Some conv_of.
Proof. exact tie_conv_of. Qed.
Print Assumptions C06_emitted_conv_64_to_float.
(* float64 n/d -> int64/uint64 truncates toward zero for every value whose truncation is in range, when the constructor uses
   Math.trunc (v_ctor, probed per run); with Math.ceil (the tree before the repair) the statement is false: int64(4294967295.5) *)
Theorem C06_conv_float_to64_correct : forall V, v_ctor V = true -> conv_fo_full_statement V.
Proof.
  intros V HV k2 n d H Hd R. pose proof (in_range_64 k2 _ R) as B.
  (* the template is that of an integer operand (conv_no); the operand behaves as its truncation, which is in range *)
  transitivity (conv_no V k2 (Fin (Z.quot n d))); [unfold conv_fo, conv_no, N64; rewrite HV, new64_real_trunc; reflexivity |].
  rewrite conv_no_any by (assumption || (unfold two53, two32; lia)). unfold go_conv, go_conv_real. rewrite wrap_id by assumption. reflexivity.
Qed.
Print Assumptions C06_conv_float_to64_correct.
Theorem C06_conv_float_to64_ceil_refuted : forall V, v_ctor V = false -> ~ conv_fo_full_statement V.
Proof.
  (* Math.ceil(4294967295.5) = 2^32 carries into the high word: int64(4294967295.5) comes out as 8589934591 *)
  intros V HV F. specialize (F Int64 8589934591 2 eq_refl ltac:(lia)).
  assert (R : in_range Int64 (Z.quot 8589934591 2)) by (unfold in_range; cbn; lia).
  specialize (F R). unfold conv_fo in F. rewrite HV in F. vm_compute in F. discriminate F.
Qed.
Print Assumptions C06_conv_float_to64_ceil_refuted.
(* int64/uint64 -> float64 ($flatten64) is exact for |x| <= 2^53 (above, the result is a rounded double: outside the model, compared only) *)
Theorem C06_conv_64_to_float_exact : forall k x, is64 k = true -> in_range k x -> - two53 <= x <= two53 ->
  conv_of (enc64 k x) = Ret (Fin x).
Proof. exact (fun k x _ _ => conv_of_exact k x). Qed.
Print Assumptions C06_conv_64_to_float_exact.

(* Non-vacuity: concrete in-range operands through the emitted (regenerated) templates. *)
Example C06_nonvacuous :
  in_range Int8 (-128) /\ in_range Int8 127 /\
  (match g_bin32 Int8 Add with Some f => f (Fin 127) (Fin 127) | None => RUnk end) = Ret (Fin (-2)) /\
  (match g_bin32 Uint32 Mul with Some f => f (Fin 4294967295) (Fin 4294967295) | None => RUnk end) = Ret (Fin 1) /\
  (match g_bin32 Int16 Quo with Some f => f (Fin (-7)) (Fin 2) | None => RUnk end) = Ret (Fin (-3)) /\
  (match g_bin32 Int Rem with Some f => f (Fin (-7)) (Fin 0) | None => RUnk end) = Throw DivideByZero.
Proof. vm_compute. repeat split; intro; discriminate. Qed.
Example C06_nonvacuous_p4 :
  in_range Int64 (-9223372036854775808) /\ in_range Uint64 18446744073709551615 /\
  (match g_bin64 Int64 Quo with Some f => f (enc64 Int64 (-7)) (enc64 Int64 2) | None => RUnk end) = Ret (enc64 Int64 (-3)) /\
  (match g_bin64 Uint64 Rem with Some f => f (enc64 Uint64 18446744073709551615) (enc64 Uint64 10) | None => RUnk end) = Ret (enc64 Uint64 5) /\
  (match g_bin64 Int64 Rem with Some f => f (enc64 Int64 5) (enc64 Int64 0) | None => RUnk end) = Throw DivideByZero /\
  (match g_shv64 Int64 Shr with Some f => f (enc64 Int64 (-9223372036854775808)) (Fin 63) | None => RUnk end) = Ret (enc64 Int64 (-1)) /\
  (match g_shv64 Uint64 Shl with Some f => f (enc64 Uint64 3) (Fin 63) | None => RUnk end) = Ret (enc64 Uint64 9223372036854775808) /\
  (match g_conv_fo Int64 with Some f => f (jreal (-8589934591) 2) | None => RUnk end) = Ret (enc64 Int64 (-4294967295)) /\
  (match g_conv_of Uint64 with Some f => f (enc64 Uint64 9007199254740992) | None => RUnk end) = Ret (Fin 9007199254740992) /\
  v_ctor current = true.
Proof. vm_compute. repeat split; intro; discriminate. Qed.
