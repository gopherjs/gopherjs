(* C07 — Arrays and structs are values; pointers, slices and maps alias.
   This file holds ONLY the property theorems (each closed by a lemma of Proofs/ or a few lines from one) and their Print Assumptions.
   Model: Model/C07_Heap.v (type.zero / type.copy / $clone / $copyArray / $subslice / $append / $growSlice / $copySlice),
   Model/C07_Ops.v (op sequences + canonical snapshot used by the correspondence), Model/C07_Decision.v (where the
   translator emits $clone / T.copy).
   Tie: harness/py/props/c07.py runs the real prelude (node) and the model on the same op sequences, compares the copies
   the real compiler emits with Model/C07_Decision.v site by site, and runs compiled alias-probe programs against native Go.

   Reading guide: [R h t v d ns] = "in heap h, the value v of Go type shape t has deep value d and consists of the
   array/struct nodes ns" (references stored in fields are leaves of d: their identity, not their target). *)
From Coq Require Import List ZArith Bool Arith Lia.
From Verif Require Import Model.C07_Heap Model.C07_Ops Proofs.C07_Clone Proofs.C07_Slices Proofs.C07_Memmove.
From Verif Require Import Model.C07_Decision Proofs.C07_P4_Decision Proofs.C07_P4_Overlap.
Import ListNotations.

(* $clone(src, T) for ANY nested array/struct shape T: it succeeds, the clone's deep value is the source's, and the
   source still reads the same. *)
Theorem C07_clone_value_eq : forall t h src d nss,
  is_node t = true -> wf h -> R h t src d nss ->
  exists c h' nsc, clone t h src = Some (c, h') /\ R h' t c d nsc /\ R h' t src d nss.
Proof.
  intros t h src d nss Hn W RS. destruct (clone_ok t h src d nss Hn W RS) as (c & h' & nsc & C & G & RC).
  exists c, h', nsc. split; [exact C|]. split; [exact RC | exact (grown_R W G RS)].
Qed.
Print Assumptions C07_clone_value_eq.

(* no array/struct node of the clone is a node of ANYTHING that was readable before (in particular of the source),
   and everything readable before reads the same after *)
Theorem C07_clone_disjoint : forall t h src d nss c h',
  is_node t = true -> wf h -> R h t src d nss -> clone t h src = Some (c, h') ->
  exists nsc, R h' t c d nsc /\
    forall t' v' d' ns', R h t' v' d' ns' -> R h' t' v' d' ns' /\ (forall l, In l nsc -> ~ In l ns').
Proof.
  intros t h src d nss c h' Hn W RS C. destruct (clone_ok t h src d nss Hn W RS) as (c' & h2 & nsc & C' & G & RC).
  rewrite C in C'. inversion C'; subst. exists nsc. split; [exact RC|].
  intros t' v' d' ns' R'. split; [exact (grown_R W G R') | exact (grown_apart W G R')].
Qed.
Print Assumptions C07_clone_disjoint.

(* hence: ANY later heap that differs only inside the nodes of one side leaves the other side's deep value unchanged *)
Theorem C07_clone_frame : forall t h src d nss c h',
  is_node t = true -> wf h -> R h t src d nss -> clone t h src = Some (c, h') ->
  exists nsc, R h' t c d nsc /\ R h' t src d nss /\ (forall l, In l nsc -> ~ In l nss) /\
    (forall h'', (forall l, ~ In l nsc -> lookup h'' l = lookup h' l) -> R h'' t src d nss) /\
    (forall h'', (forall l, ~ In l nss -> lookup h'' l = lookup h' l) -> R h'' t c d nsc).
Proof.
  intros t h src d nss c h' Hn W RS C. destruct (C07_clone_disjoint t h src d nss c h' Hn W RS C) as (nsc & RC & Hall).
  destruct (Hall _ _ _ _ RS) as [RS' Dj]. exists nsc. split; [exact RC|]. split; [exact RS'|]. split; [exact Dj|]. split.
  - intros h'' F. apply (disjoint_frame _ _ _ _ _ _ RS'). intros l Hl. apply F. intro Hin. exact (Dj l Hin Hl).
  - intros h'' F. apply (disjoint_frame _ _ _ _ _ _ RC). intros l Hl. apply F. exact (Dj l Hl).
Qed.
Print Assumptions C07_clone_frame.

(* a store into a cell of a node that does not belong to a value does not change that value *)
Theorem C07_write_other_side : forall h t1 v1 d1 ns1 l i v h',
  R h t1 v1 d1 ns1 -> ~ In l ns1 -> set_cell h l i v = Some h' -> R h' t1 v1 d1 ns1.
Proof.
  intros h t1 v1 d1 ns1 l i v h' H Hl S. eapply disjoint_frame; [exact H|]. intros l' Hl'. eapply set_cell_other; eauto. intro; subst; auto.
Qed.
Print Assumptions C07_write_other_side.

(* T.copy(dst, src) (assignment to an existing variable / field / element): dst gets src's deep value, keeps its own
   nodes (pointers to its fields stay valid), nothing outside dst's nodes changes *)
Theorem C07_copy_makes_equal_keeps_disjoint : forall t h dst src d d0 nss nsd,
  is_node t = true -> wf h -> R h t src d nss -> R h t dst d0 nsd -> NoDup nsd -> (forall l, In l nsd -> ~ In l nss) ->
  exists h', copy t h dst src = Some h' /\ R h' t dst d nsd /\ R h' t src d nss /\
             (forall l, ~ In l nsd -> lookup h' l = lookup h l).
Proof.
  intros t h dst src d d0 nss nsd Hn W RS RD ND Dj.
  destruct (copy_ok_all t Hn h dst src d d0 nss nsd W RS RD ND Dj) as (h' & C & K & RD').
  exists h'. split; [exact C|]. split; [exact RD'|].
  split; [exact (confined_R K RS (fun l Hl Hin => Dj l Hin Hl)) | exact (confined_lookup K)].
Qed.
Print Assumptions C07_copy_makes_equal_keeps_disjoint.

(* pointers / slices / maps inside a copied struct still alias: equal deep values hold the same reference identity *)
Theorem C07_ptr_alias : forall h fs c s ds nc ns i,
  R h (TStruct fs) (VLoc c) (DNode ds) nc -> R h (TStruct fs) (VLoc s) (DNode ds) ns ->
  nth_error fs i = Some TRef ->
  get_cell h c i = get_cell h s i /\ exists z, get_cell h c i = Some (VNum z).
Proof.
  intros h fs c s ds nc ns i H1 H2 Hi. inversion H1 as [| | | |? ? ? ? ? L1 X1]; subst. inversion H2 as [| | | |? ? ? ? ? L2 X2]; subst.
  unfold get_cell. rewrite L1, L2. exact (RL_ref_field h fs _ _ ds _ _ X1 X2 i Hi).
Qed.
Print Assumptions C07_ptr_alias.

(* deep value and node set are functions of (heap, type, value) *)
Theorem C07_deep_value_unique : forall h t v d ns d' ns', R h t v d ns -> R h t v d' ns' -> d = d' /\ ns = ns'.
Proof. intros. eapply (proj1 (R_RL_det h)); eauto. Qed.
Print Assumptions C07_deep_value_unique.

(* $subslice accepts exactly 0 <= lo <= hi <= max <= cap and returns the window (same array) *)
Theorem C07_subslice_ok_iff : forall s lo hi mx,
  (exists s', subslice s lo hi mx = Some s') <->
  (0 <= lo /\ lo <= odef hi (slen s) /\ odef hi (slen s) <= odef mx (scap s) /\ odef mx (scap s) <= scap s)%Z.
Proof.
  intros s lo hi mx. unfold subslice. fold (odef hi (slen s)). fold (odef mx (scap s)). destruct (_ || _) eqn:E.
  - rewrite !orb_true_iff, !Z.ltb_lt in E. split; [intros [s' X]; discriminate | lia].
  - rewrite !orb_false_iff, !Z.ltb_ge in E. split; [lia | destruct s; eauto].
Qed.
Print Assumptions C07_subslice_ok_iff.

Theorem C07_subslice_window : forall a o l c lo hi mx s',
  subslice (SHdr a o l c) lo hi mx = Some s' -> s' = SHdr a (o + lo) (odef hi l - lo) (odef mx c - lo).
Proof.
  intros a o l c lo hi mx s'. unfold subslice, odef. simpl. destruct (_ || _); [discriminate|]. intro E; inversion E; reflexivity.
Qed.
Print Assumptions C07_subslice_window.

(* append, ANY element type (arrays and structs included: $growSlice clones them since fix 0872144).
   Within capacity: the result is a longer window onto the SAME backing array. *)
Theorem C07_append_in_place : forall e h a o l c src off n s' h',
  (0 < n)%Z -> (l + n <= c)%Z -> internal_append e h (SHdr a o l c) src off n = Some (s', h') -> s' = SHdr a o (l + n) c.
Proof.
  intros e h a o l c src off n s' h' Hpos Hfit. rewrite internal_append_fits by assumption.
  destruct (slice_array _ _ _); [destruct (copy_array _ _ _ _ _ _ _ _)|]; try discriminate. intro E; inversion E; reflexivity.
Qed.
Print Assumptions C07_append_in_place.

(* Beyond capacity: append succeeds; the result lives in a FRESH array whose capacity is the coded growth formula
   (>= needed); its cells are [own copies of the old window] ++ [the appended values] ++ [freshly built values of type e
   up to the capacity] (deep values dsw ++ dss ++ dz; that dz, the results of e.zero(), are zero values is not stated);
   every array/struct node it consists of is freshly allocated (so it shares nothing with the old array or with the
   appended operands), and nothing that existed before is modified.
   Hypotheses only say that the slice window (w2) and the appended values (sc2) are readable. *)
Theorem C07_append_realloc : forall e h a o l c src off n w1 w2 w3 dsw nsw st sc1 sc2 sc3 dss nss,
  wf h -> (0 <= o)%Z -> (0 <= l)%Z -> (0 <= off)%Z -> (0 < n)%Z -> (c < l + n)%Z ->
  lookup h a = Some (OArr (is_num e) (w1 ++ w2 ++ w3)) -> length w1 = Z.to_nat o -> length w2 = Z.to_nat l ->
  RL h (repeat e (Z.to_nat l)) w2 dsw nsw ->
  lookup h src = Some (OArr st (sc1 ++ sc2 ++ sc3)) -> (st = true -> is_node e = false) -> length sc1 = Z.to_nat off ->
  RL h (repeat e (Z.to_nat n)) sc2 dss nss ->
  let cap' := calc_new_cap (l + n) c in
  exists a' h' cells' dz nsn,
    internal_append e h (SHdr a o l c) src off n = Some (SHdr a' 0 (l + n) cap', h') /\
    (l + n <= cap')%Z /\ lookup h a' = None /\ wf h' /\
    (forall x, x < hnext h -> lookup h' x = lookup h x) /\
    lookup h' a' = Some (OArr (is_num e) cells') /\
    RL h' (repeat e (Z.to_nat l) ++ repeat e (Z.to_nat n) ++ repeat e (Z.to_nat (cap' - l) - Z.to_nat n)) cells' (dsw ++ dss ++ dz) nsn /\
    NoDup nsn /\ (forall x, In x nsn -> hnext h <= x).
Proof.
  intros e h a o l c src off n w1 w2 w3 dsw nsw st sc1 sc2 sc3 dss nss W _ _ _ Hn Hc La L1 L2 RW Ls Hst Ls1 RS.
  destruct (append_realloc e h a o l c src off n w1 w2 w3 dsw nsw st sc1 sc2 sc3 dss nss W Hn Hc La L1 L2 RW Ls Hst Ls1 RS)
    as (a' & h' & cells' & dz & nsn & IA & Hcap & (W' & _ & X & ND & B) & La' & RL').
  exists a', h', cells', dz, nsn. inversion ND; subst.
  repeat split; auto; [apply wf_fresh, B; [exact W | left; reflexivity] | intros x Hx; apply B; right; exact Hx].
Qed.
Print Assumptions C07_append_realloc.

(* [N]T(s) (fix 978c5d8): the array receives the deep values of the first N elements of the slice WINDOW (offset
   respected), into its own nodes; nothing else changes. A slice shorter than the array is a run-time error. *)
Theorem C07_arr_from_slice_ok : forall e h dst a o l c dc d0 nsd w1 w2 w3 dsw nsw,
  wf h -> dst <> a -> (0 <= o)%Z ->
  lookup h dst = Some (OArr (is_num e) dc) -> RL h (repeat e (length dc)) dc d0 nsd -> NoDup nsd ->
  lookup h a = Some (OArr (is_num e) (w1 ++ w2 ++ w3)) -> length w1 = Z.to_nat o -> length w2 = length dc ->
  RL h (repeat e (length dc)) w2 dsw nsw -> (Z.of_nat (length dc) <= l)%Z ->
  ~ In dst nsd -> ~ In a nsd -> ~ In dst nsw -> (forall x, In x nsd -> ~ In x nsw) ->
  exists h', copy_arr_from_slice e h dst (SHdr a o l c) = Done h' /\
             R h' (TArr (length dc) e) (VLoc dst) (DNode dsw) (dst :: nsd) /\
             (forall x, x <> dst -> ~ In x nsd -> lookup h' x = lookup h x).
Proof. intros. eapply arr_from_slice_ok; eassumption. Qed.
Print Assumptions C07_arr_from_slice_ok.

Theorem C07_arr_from_slice_too_short : forall e h dst s dt dc,
  lookup h dst = Some (OArr dt dc) -> (slen s < Z.of_nat (length dc))%Z -> copy_arr_from_slice e h dst s = Err.
Proof.
  intros e h dst s dt dc Ld Hl. unfold copy_arr_from_slice. rewrite Ld. destruct (Z.ltb_spec (slen s) (Z.of_nat (length dc))); [reflexivity | lia].
Qed.
Print Assumptions C07_arr_from_slice_too_short.

(* copy(dst, src) / append(s, s...) on ONE backing array with overlapping windows = memmove: every destination cell gets
   the ORIGINAL content of its source cell, everything else is unchanged (typed-array branch and both loop directions).
   PARTIAL: elements that are not arrays/structs (enode = false). For array/struct elements copied between two
   DIFFERENT arrays the deep-copy statement is proved (it is the engine of C07_append_realloc / C07_arr_from_slice_ok);
   the SAME-array overlapping case with array/struct elements (element nodes are overwritten in place in a
   direction-dependent order) is C07_copy_slice_overlap_nodes below. *)
Theorem C07_copy_slice_overlap_partial : forall cp h a ty cells dO sO n h',
  lookup h a = Some (OArr ty cells) -> (sO + n <= length cells)%nat -> (dO + n <= length cells)%nat ->
  copy_array cp false h a a dO sO n = Some h' ->
  exists cells', lookup h' a = Some (OArr ty cells') /\ length cells' = length cells /\
    forall p, nth_error cells' p =
              if (Nat.leb dO p && Nat.ltb p (dO + n))%bool then nth_error cells (sO + (p - dO)) else nth_error cells p.
Proof.
  intros cp h a ty cells dO sO n h' L Hs Hd E.
  destruct (copy_array_leaf_ok cp h a ty cells dO sO n L Hs Hd) as (h1 & cells' & E1 & L' & Len & P & _).
  rewrite E in E1. inversion E1; subst. exists cells'. split; [exact L'|]. split; [exact Len | exact P].
Qed.
Print Assumptions C07_copy_slice_overlap_partial.

(* copy(dst, src) / append(s, s[i:]...) on ONE backing array with overlapping windows, elements that ARE arrays or
   structs (closes what C07_copy_slice_overlap_partial leaves open): $copyArray succeeds, the array keeps its element
   objects (cells and node set ns unchanged, so pointers to elements stay valid) and it is memmove on DEEP VALUES —
   every destination element ends with the ORIGINAL deep value of its source element, in both loop directions, for
   any nesting of the element type; nothing outside the element nodes changes.  [NoDup ns] = the elements of the
   backing array own pairwise disjoint nodes (invariant of every array built by the prelude). *)
Theorem C07_copy_slice_overlap_nodes : forall e h a cells ds ns dO sO n,
  is_node e = true -> wf h ->
  lookup h a = Some (OArr false cells) ->
  RL h (repeat e (length cells)) cells ds ns -> NoDup ns -> ~ In a ns ->
  sO + n <= length cells -> dO + n <= length cells ->
  exists h' ds',
    copy_array (copy e) true h a a dO sO n = Some h' /\
    wf h' /\
    lookup h' a = Some (OArr false cells) /\
    RL h' (repeat e (length cells)) cells ds' ns /\
    length ds' = length ds /\
    (forall p, nth_error ds' p =
               if (Nat.leb dO p && Nat.ltb p (dO + n))%bool then nth_error ds (sO + (p - dO)) else nth_error ds p) /\
    (forall l, ~ In l ns -> lookup h' l = lookup h l).
Proof. exact copy_array_overlap_nodes. Qed.
Print Assumptions C07_copy_slice_overlap_nodes.

(* append WITHIN capacity refines Go's append for every element type (together with C07_append_in_place and
   C07_append_realloc this is the full refinement): it succeeds, the header is the longer window onto the same array,
   positions o+l .. o+l+n-1 receive the deep values of src[off .. off+n-1] (copied INTO the array's own element
   nodes ns), every other element keeps its deep value and nothing outside the array and its element nodes changes.
   src <> a: any element type (operands of append(s, v...) / another slice); src = a (append(s[:i], s[j:]...)): array
   or struct elements via C07_copy_slice_overlap_nodes; src = a with leaf elements is the next theorem. *)
Theorem C07_append_refines_in_place : forall e h a o l c src off n dt cells ds ns st scells dss nsrc,
  wf h -> (0 < n)%Z -> (l + n <= c)%Z ->
  lookup h a = Some (OArr dt cells) ->
  RL h (repeat e (length cells)) cells ds ns -> NoDup ns -> ~ In a ns ->
  lookup h src = Some (OArr st scells) -> (st = true -> is_node e = false) ->
  RL h (repeat e (length scells)) scells dss nsrc ->
  Z.to_nat (o + l) + Z.to_nat n <= length cells -> Z.to_nat off + Z.to_nat n <= length scells ->
  (src = a -> is_node e = true) ->
  (src <> a -> ~ In src ns /\ ~ In a nsrc /\ (forall x, In x ns -> ~ In x nsrc)) ->
  exists h' cells' ds',
    internal_append e h (SHdr a o l c) src off n = Some (SHdr a o (l + n) c, h') /\
    wf h' /\
    lookup h' a = Some (OArr dt cells') /\ length cells' = length cells /\
    RL h' (repeat e (length cells')) cells' ds' ns /\ length ds' = length ds /\
    (forall p, nth_error ds' p =
               if (Nat.leb (Z.to_nat (o + l)) p && Nat.ltb p (Z.to_nat (o + l) + Z.to_nat n))%bool
               then nth_error dss (Z.to_nat off + (p - Z.to_nat (o + l))) else nth_error ds p) /\
    (forall x, x <> a -> ~ In x ns -> lookup h' x = lookup h x).
Proof.
  intros e h a o l c src off n dt cells ds ns st scells dss nsrc W Hpos Hfit La RLa ND Ha Ls Hst RLs Hd Hs Hself Hother.
  destruct (copy_array_deep e h a src _ _ _ dt cells ds ns st scells dss nsrc W La RLa ND Ha Ls Hst RLs Hd Hs Hself Hother)
    as (h' & cells' & ds' & CA & Rest).
  exists h', cells', ds'. split; [|exact Rest]. rewrite internal_append_fits by assumption. unfold slice_array. rewrite La, CA. reflexivity.
Qed.
Print Assumptions C07_append_refines_in_place.

Theorem C07_append_refines_in_place_self_leaf : forall e h a o l c off n dt cells,
  is_node e = false -> (0 < n)%Z -> (l + n <= c)%Z ->
  lookup h a = Some (OArr dt cells) ->
  Z.to_nat (o + l) + Z.to_nat n <= length cells -> Z.to_nat off + Z.to_nat n <= length cells ->
  exists h' cells',
    internal_append e h (SHdr a o l c) a off n = Some (SHdr a o (l + n) c, h') /\
    lookup h' a = Some (OArr dt cells') /\ length cells' = length cells /\
    (forall p, nth_error cells' p =
               if (Nat.leb (Z.to_nat (o + l)) p && Nat.ltb p (Z.to_nat (o + l) + Z.to_nat n))%bool
               then nth_error cells (Z.to_nat off + (p - Z.to_nat (o + l))) else nth_error cells p) /\
    (forall x, x <> a -> lookup h' x = lookup h x).
Proof.
  intros e h a o l c off n dt cells En Hpos Hfit La Hd Hs.
  destruct (copy_array_leaf_ok (copy e) h a dt cells _ _ _ La Hs Hd) as (h' & cells' & CA & Rest).
  exists h', cells'. split; [|exact Rest].
  rewrite internal_append_fits by assumption. unfold slice_array. rewrite La, En, CA. reflexivity.
Qed.
Print Assumptions C07_append_refines_in_place_self_leaf.

(* the hypotheses of C07_copy_slice_overlap_nodes on the array (and so those of C07_append_refines_in_place on the array
   a, src = a) are satisfiable for every array/struct element type and every length *)
Theorem C07_overlap_hypotheses_satisfiable : forall e k,
  is_node e = true ->
  exists h a cells ds ns,
    wf h /\ lookup h a = Some (OArr false cells) /\ length cells = k /\
    RL h (repeat e (length cells)) cells ds ns /\ NoDup ns /\ ~ In a ns.
Proof. exact overlap_hypotheses_satisfiable. Qed.
Print Assumptions C07_overlap_hypotheses_satisfiable.

(* THE TRANSLATOR'S COPY DECISIONS (Model/C07_Decision.v mirrors translateAssign / translateImplicitConversionWithCloning /
   translateArgs / makeReceiver / CompositeLit / SendStmt / RangeStmt / translateResults; tied site by site to the
   JavaScript the real compiler emits).  Complete case analysis over the finite domain 45 contexts x 8 type shapes x
   13 expression classes.
   In every context where Go's semantics stores a copy of a struct/array value ([stores]) and the JavaScript object the
   source expression evaluates to may stay reachable ([may_alias]: variables, fields, elements, *p, m[k], i.(T), and
   call results because `return` does not clone), the translator emits a $clone or a T.copy or hands the value to a
   run-time helper that copies ($append) — outside the three recorded findings ([finding]). *)
Theorem C07_clone_decision_sound : forall c sh e,
  underlying_value sh = true -> stores c = true -> finding c = false -> may_alias e = true ->
  copies_value c sh e = true.
Proof. exact clone_decision_sound. Qed.
Print Assumptions C07_clone_decision_sound.

(* the unrestricted statement is kept visible; the faithful model refutes it with one witness per recorded finding *)
Definition C07_clone_decision_full_statement : Prop := forall c sh e,
  valid c sh e = true -> underlying_value sh = true -> stores c = true -> may_alias e = true -> copies_value c sh e = true.

(* `var i any = s` (box-into-interface-does-not-copy) *)
Theorem C07_clone_decision_box_refuted :
  valid CBoxAssign ShNamedStruct EVar = true /\ stores CBoxAssign = true /\ may_alias EVar = true /\
  copies_value CBoxAssign ShNamedStruct EVar = false /\ ~ C07_clone_decision_full_statement.
Proof.
  repeat split; try reflexivity. intro F. exact (diff_false_true (F CBoxAssign ShNamedStruct EVar eq_refl eq_refl eq_refl eq_refl)).
Qed.
(* `for i, v := range arr` (range-over-array-value-does-not-copy) *)
Theorem C07_clone_decision_range_refuted :
  valid CRangeExprArray ShNamedArray EVar = true /\ stores CRangeExprArray = true /\
  copies_value CRangeExprArray ShNamedArray EVar = false /\ ~ C07_clone_decision_full_statement.
Proof.
  repeat split; try reflexivity. intro F. exact (diff_false_true (F CRangeExprArray ShNamedArray EVar eq_refl eq_refl eq_refl eq_refl)).
Qed.
(* `var k I = &a; k.M()` with a value-receiver M (value-receiver-indirect-call-does-not-copy) *)
Theorem C07_clone_decision_receiver_refuted :
  valid CIfacePtrCall ShNamedStruct EDeref = true /\ stores CIfacePtrCall = true /\
  copies_value CIfacePtrCall ShNamedStruct EDeref = false /\ ~ C07_clone_decision_full_statement.
Proof.
  repeat split; try reflexivity. intro F. exact (diff_false_true (F CIfacePtrCall ShNamedStruct EDeref eq_refl eq_refl eq_refl eq_refl)).
Qed.
Print Assumptions C07_clone_decision_receiver_refuted.

(* the findings are exactly the storing contexts that never copy *)
Theorem C07_finding_iff_never_copies : forall c,
  stores c = true -> (finding c = true <-> forall sh e, copies_value c sh e = false).
Proof.
  intros c S; split.
  - intros F sh e. destruct c; try discriminate F; reflexivity.
  - intros H. destruct (finding c) eqn:F; [reflexivity|].
    rewrite <- (H ShStruct EVar). apply clone_decision_sound; auto.
Qed.

(* outside the findings a storing context omits the copy exactly for `x := T{...}` (a fresh literal); besides
   `x := T{...}` / `var x = T{...}` the list holds the define forms that cannot have a literal on the right *)
Theorem C07_clone_skip_exact : forall c sh e,
  underlying_value sh = true -> stores c = true -> finding c = false ->
  (copies_value c sh e = false <->
   e = ECompLit /\ In c [CDefine; CVarDecl; CVarDeclInfer; CTupleDefine; CCommaOk; CTypeSwitchBind;
                          CRangeValSlice; CRangeValArray; CRangeValPtrArray; CRangeValMap]).
Proof.
  intros c sh e U S F. rewrite <- literal_iff. destruct (is_composite_lit_node e) eqn:L.
  - unfold copies_value, decide, translate_assign, with_cloning. rewrite U, L.
    destruct c; try discriminate S; try discriminate F; simpl; intuition congruence.
  - rewrite sound_nonliteral by assumption. intuition discriminate.
Qed.
Print Assumptions C07_clone_skip_exact.

(* the aliasing half: for pointers, slices, maps and basic types no context ever emits a $clone or a copy *)
Theorem C07_reference_shapes_never_copied : forall c sh e,
  underlying_value sh = false -> site_counts c sh e = (0, 0) /\ copies_value c sh e = false.
Proof.
  intros c sh e U. unfold site_counts, copies_value. rewrite decide_reference, own_clones_reference by exact U.
  split; reflexivity.
Qed.
Print Assumptions C07_reference_shapes_never_copied.

(* unbounded: a value that reaches the context through ANY number of `return`s (none of which copies) is copied by
   the receiving context *)
Theorem C07_clone_decision_flow_sound : forall f c sh,
  underlying_value sh = true -> stores c = true -> finding c = false -> flow_aliases f = true ->
  flow_copied sh f || copies_value c sh (flow_head f) = true.
Proof.
  intros f c sh U S F A. apply orb_true_iff. right. apply clone_decision_sound; auto.
  destruct f; [exact A | reflexivity].
Qed.
Theorem C07_return_never_copies : forall f sh, flow_copied sh f = false.
Proof.
  induction f as [e|f IH]; intro sh; [reflexivity|].
  change (copies_value CReturn sh (flow_head f) || flow_copied sh f = false). rewrite IH. reflexivity.
Qed.
Print Assumptions C07_clone_decision_flow_sound.

(* decision + heap model: in a context that decides for $clone, the run-time clone yields the source's deep value in
   nodes disjoint from everything readable before (C07_clone_disjoint) *)
Theorem C07_decided_clone_independent : forall c sh e t h src d nss,
  underlying_value sh = true -> stores c = true -> finding c = false -> may_alias e = true ->
  em_copies (decide c sh e) = 0 -> em_runtime (decide c sh e) = false ->
  is_node t = true -> wf h -> R h t src d nss ->
  0 < em_clones (decide c sh e) /\
  exists cl h' nsc, clone t h src = Some (cl, h') /\ R h' t cl d nsc /\ R h' t src d nss /\
    forall t' v' d' ns', R h t' v' d' ns' -> R h' t' v' d' ns' /\ (forall l, In l nsc -> ~ In l ns').
Proof.
  intros c sh e t h src d nss Hv Hs Hf Ha Hc Hr Hn Hw HR. split.
  - exact (copies_by_clone c sh e (clone_decision_sound c sh e Hv Hs Hf Ha) Hc Hr).
  - destruct (clone_ok t h src d nss Hn Hw HR) as (cl & h' & nsc & C & G & RC).
    exists cl, h', nsc. split; [exact C|]. split; [exact RC|]. split; [exact (grown_R Hw G HR)|].
    intros t' v' d' ns' R'. split; [exact (grown_R Hw G R') | exact (grown_apart Hw G R')].
Qed.
Print Assumptions C07_decided_clone_independent.

Example C07_decision_nonvacuous :
  site_counts CDefine ShNamedStruct EVar = (1, 0) /\ site_counts CDefine ShNamedStruct ECompLit = (0, 0) /\
  site_counts CAssignField ShArray ECall = (0, 1) /\ site_counts CSend ShStruct EConvOther = (3, 0) /\
  site_counts CBoxArg ShNamedStruct EVar = (0, 0) /\ site_counts CArg ShSlice EVar = (0, 0).
Proof. vm_compute. repeat split. Qed.

(* Non-vacuity: for every array/struct shape the hypotheses of the clone theorems are satisfiable (the zero value
   in the empty heap), and a concrete nested shape evaluates. *)
Theorem C07_hypotheses_satisfiable : forall t,
  is_node t = true ->
  exists v h d ns, zero t empty_heap = (v, h) /\ wf h /\ R h t v d ns /\ NoDup ns /\
                   exists c h', clone t h v = Some (c, h').
Proof.
  intros t Hn. destruct (zero t empty_heap) as [v h] eqn:Z.
  destruct (zero_ok_all t empty_heap v h wf_empty Z) as (d & ns & (W & _ & _ & DV & _) & RV).
  destruct (clone_ok t h v d ns Hn W RV) as (c & h' & _ & C & _).
  exists v, h, d, ns. repeat split; auto. exists c, h'. exact C.
Qed.
Print Assumptions C07_hypotheses_satisfiable.

Example C07_nonvacuous :
  let t := TStruct [TArr 2 (TStruct [TNum; TRef]); TArr 3 TNum; TScalar] in
  let '(v, h) := zero t empty_heap in
  match clone t h v with
  | Some (c, h') => snapshot (mkState h' [(t, v); (t, c)] []) =
      ([SNode 0 2 [SNode 1 0 [SNode 2 2 [SLeaf 0; SLeaf 0]; SNode 3 2 [SLeaf 0; SLeaf 0]]; SNode 4 1 [SLeaf 0; SLeaf 0; SLeaf 0]; SLeaf 0];
        SNode 5 2 [SNode 6 0 [SNode 7 2 [SLeaf 0; SLeaf 0]; SNode 8 2 [SLeaf 0; SLeaf 0]]; SNode 9 1 [SLeaf 0; SLeaf 0; SLeaf 0]; SLeaf 0]], [])
  | None => False
  end.
Proof. vm_compute. reflexivity. Qed.

(* Non-vacuity of the append theorems: a reallocating append on a slice of structs evaluates, and the new backing
   array shares no node with the old one (no SSeen marker in the canonical snapshot). *)
Example C07_append_nonvacuous :
  let t := TStruct [TScalar; TArr 2 TNum] in
  snd (snapshot (fst (run init_state [OMake t 1 1; OSWrite 0 0 [0] 7; OZero t; OAppend 0 [IR 0 []]%nat]))) =
  [SSl (SNode 2 0 [SNode 3 2 [SLeaf 7; SNode 4 1 [SLeaf 0; SLeaf 0]]]) 0 1 1;
   SSl (SNode 5 0 [SNode 6 2 [SLeaf 7; SNode 7 1 [SLeaf 0; SLeaf 0]]; SNode 8 2 [SLeaf 0; SNode 9 1 [SLeaf 0; SLeaf 0]]]) 0 2 2]%Z.
Proof. vm_compute. reflexivity. Qed.
