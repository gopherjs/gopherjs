(* C08 — Panics, deferred calls, recover and run-time errors follow the spec.
   Theorems are stated for the CURRENT code; historic (unrepaired) shapes live in Model/Proofs only.
   ONLY property theorems (closed by a lemma of Proofs/ or a few lines from one) + Print Assumptions.
   Models: Model/C08_Guards.v, C08_Guards2.v (part A), Model/C08_Panic.v (part B).
   Tie: harness/py/props/c08.py. *)
From Coq Require Import List ZArith NArith Bool Arith Lia.
From Verif Require Import Model.C08_Guards Model.C08_Guards2 Model.C08_Panic Gen.C08_Consts Proofs.C08_Guards Proofs.C08_Panic.
From Verif Require Import Proofs.C08_P4_Once Proofs.C08_P4_Steps3 Proofs.C08_P4_Thms Proofs.C08_P4_Guards.
Import ListNotations.
Local Open Scope Z_scope.

(* part A: guard_fires_iff_spec *)

(* the constants in the source are the ones the model uses *)
Theorem C08_gen_consts_ok :
  gen_makeslice_len_max = MAXINT /\ gen_makeslice_cap_max = MAXINT /\
  gen_makechan_max = MAXINT /\ gen_makemap_max = MAXINT /\ gen_recover_delta = 2.
Proof. repeat split; reflexivity. Qed.
Print Assumptions C08_gen_consts_ok.

Theorem C08_index_guard_fires_iff_spec : forall i len, impl_index i len = spec_index i len.
Proof. exact index_guard_iff. Qed.
Print Assumptions C08_index_guard_fires_iff_spec.

Theorem C08_index_guard_throws_iff : forall i len, impl_index i len = GThrow <-> ~ (0 <= i < len).
Proof. intros. unfold impl_index. rewrite throws_iff. zb. Qed.
Print Assumptions C08_index_guard_throws_iff.

(* s[i] on a string: emitted through rangeCheck like any other index (a constant index is only
   left unchecked against a constant string, which go/types checks) *)
Theorem C08_string_index_guard_fires_iff_spec : forall i len, impl_index i len = spec_index i len.
Proof. exact index_guard_iff. Qed.
Print Assumptions C08_string_index_guard_fires_iff_spec.

(* constant index (a non-negative constant, checked by go/types) on a slice or string *)
Theorem C08_index_const_guard_fires_iff_spec : forall i len, 0 <= i -> impl_index_const i len = spec_index i len.
Proof. intros. apply guard_eq. zb. Qed.
Print Assumptions C08_index_const_guard_fires_iff_spec.

Theorem C08_subslice_guard_fires_iff_spec : forall offset len cap low high max,
  impl_subslice offset len cap low high max = spec_subslice offset len cap low high max.
Proof. exact subslice_guard_iff. Qed.
Print Assumptions C08_subslice_guard_fires_iff_spec.

Theorem C08_subslice_guard_throws_iff : forall offset len cap low h m,
  impl_subslice offset len cap low (Some h) (Some m) = GThrow <-> ~ (0 <= low <= h /\ h <= m <= cap).
Proof. intros. rewrite subslice_guard_iff. unfold spec_subslice. rewrite ok_throws_iff. zb. Qed.
Print Assumptions C08_subslice_guard_throws_iff.

(* $substring(str, low, high) with high defaulting to str.length: all three forms s[l:h], s[l:], s[:h] *)
Theorem C08_substring_guard_fires_iff_spec : forall len low high,
  impl_substring_fixed len low high = spec_substring len low high.
Proof. intros. apply guard_eq. zb. Qed.
Print Assumptions C08_substring_guard_fires_iff_spec.

Theorem C08_makeslice_guard_fires_iff_spec : forall len cap, impl_makeslice len cap = spec_makeslice len cap.
Proof. exact makeslice_guard_iff. Qed.
Print Assumptions C08_makeslice_guard_fires_iff_spec.

Theorem C08_makeslice_guard_throws_iff : forall len c,
  impl_makeslice len (Some c) = GThrow <-> (len < 0 \/ c < len \/ MAXINT < c).
Proof. intros. rewrite makeslice_guard_iff. unfold spec_makeslice, MAXINT. rewrite ok_throws_iff. zb. Qed.
Print Assumptions C08_makeslice_guard_throws_iff.

Theorem C08_makesize_guard_fires_iff_spec : forall n, impl_makesize n = spec_makesize n.
Proof. intros. apply guard_eq. unfold MAXINT. zb. Qed.
Print Assumptions C08_makesize_guard_fires_iff_spec.

Theorem C08_quo_guard_fires_iff_spec : forall signed x y, impl_quo signed x y = spec_quo signed x y.
Proof. exact quo_guard_iff. Qed.
Print Assumptions C08_quo_guard_fires_iff_spec.

Theorem C08_quo_guard_throws_iff : forall signed x y, impl_quo signed x y = GThrow <-> y = 0.
Proof. intros. rewrite quo_guard_iff. unfold spec_quo. rewrite throws_iff. zb. Qed.
Print Assumptions C08_quo_guard_throws_iff.

Theorem C08_rem_guard_fires_iff_spec : forall x y, impl_rem x y = spec_rem x y.
Proof. reflexivity. Qed.
Print Assumptions C08_rem_guard_fires_iff_spec.

Theorem C08_slice2arr_guard_fires_iff_spec : forall slen alen, impl_slice2arr slen alen = spec_slice2arr slen alen.
Proof. intros. apply guard_eq. zb. Qed.
Print Assumptions C08_slice2arr_guard_fires_iff_spec.

Theorem C08_quo_value_exact_signed : forall z, -2147483648 <= z <= 2147483647 -> wrap32 true z = z.
Proof. exact wrap32_id_signed. Qed.
Print Assumptions C08_quo_value_exact_signed.

(* part B: the unwinding machine.  ImplPanic has three variant flags (Model/C08_Panic.v [variant]), one per repaired finding; the
   check probes the source on every run and evaluates the shape it finds.  /repo HEAD has all three
   repairs: V_FULL.  Historic shapes (V_OLD, V_GOEXIT, V_REPAIRED) and their refutations live in
   Proofs/C08_Panic.v only. *)

(* defer_lifo, unbounded: for EVERY program, every amount of fuel and every variant, the events of
   each $deferred list replay as a stack ([pend] is defined, and what is still pending is exactly what
   is still in the list): a deferred call is run only when it is the most recently pushed pending call
   of its activation — LIFO order, each call at most once, on normal return, panic and Goexit alike. *)
Theorem C08_impl_defer_lifo_at_most_once : forall vr fuel p out s,
  impl_fun vr fuel p 0 0 wrapper j_init = Some (out, s) ->
  forall id, pend id (j_trace s) = Some (heights (length (list_get (j_lists s) id))).
Proof. exact impl_defer_lifo_at_most_once. Qed.
Print Assumptions C08_impl_defer_lifo_at_most_once.

(* recover_legal_iff, the part that is proved: the numeric stack-depth test of $recover succeeds
   exactly when recover is called directly by the deferred function which the $callDeferred
   invocation owning the current panic called (m = 0).  That invocation runs at JS depth D with
   $stackDepthOffset = o (after its own decrement) and records o + (D + 1).  $recover() is
   later called by a function at depth D + 1 + m: m = 0 is the deferred function this
   invocation called, m > 0 a function further up.  n of the m frames in between are nested,
   still running $callDeferred invocations, each of which decremented the offset once; the
   first frame above the invocation is the deferred Go function itself, so n < m whenever
   m > 0.  Missing for the full statement: the invariant that in every run $panicStackDepth,
   when not null, belongs to a still running invocation and that $stackDepthOffset equals
   minus the number of running invocations (checked only differentially, by the
   correspondence). *)
Theorem C08_recover_legal_iff_partial : forall D o n m s,
  (m = 0 /\ n = 0) \/ (0 <= n < m) ->
  j_psd s = Some (o + (D + 1)) -> j_offset s = o - n ->
  (fst (js_recover (D + 1 + m) s) = Some (j_pv s) <-> m = 0) /\
  (m <> 0 -> fst (js_recover (D + 1 + m) s) = None).
Proof.
  intros D o n m s Hn Hp Ho. unfold js_recover, get_stack_depth. rewrite Hp, Ho.
  destruct (Z.eqb_spec (o + (D + 1)) (o - n + (D + 1 + m + 2) - 2)) as [E|E]; cbn [negb fst].
  - assert (m = 0) by lia. split; [split; intros; [assumption | reflexivity] | intros; contradiction].
  - assert (m <> 0) by lia. split; [split; intros; [discriminate | contradiction] | intros; reflexivity].
Qed.
Print Assumptions C08_recover_legal_iff_partial.

(* Full statements (for a variant vr): ImplPanic refines SpecPanic on every defer program, and at
   the end of every run nothing is pending (each pushed deferred call ran exactly once). *)
Definition C08_impl_refines_spec_panic_full_statement (vr : variant) : Prop :=
  forall p, impl_refines_spec_on vr p.
Definition C08_defer_lifo_once_full_statement (vr : variant) : Prop :=
  forall fuel p out s, impl_fun vr fuel p 0 0 wrapper j_init = Some (out, s) ->
  forall id, pend id (j_trace s) = Some [].

(* impl_refines_spec_panic and defer_lifo_once, bounded: on the 334 408 exhaustively enumerated
   programs [enum_full] ImplPanic (current shape) and SpecPanic terminate with the same observable
   trace and final status, and every pushed deferred call has run exactly once.  The class: one
   function with <= 2 statements over 79 statement shapes or <= 5 statements over 11 shapes; two
   functions with call / defer and panics in caller and callee; Goexit in function bodies and in
   deferred calls across two functions, with deferred calls that call functions having defers while
   the goroutine exits; panics raised INSIDE deferred calls (replaced panics, re-panic after recover,
   panic in a helper of a deferred call, nested deferred recover; one function with <= 4 statements
   over 16 shapes, two functions that call / defer each other and both panic); Goexit mixed with
   panics in deferred calls.  Not unbounded: no simulation proof between the two machines exists
   (it needs the stack-shape invariant mentioned at recover_legal_iff); suspension is not modelled. *)
Theorem C08_impl_refines_spec_panic_partial : forall p, In p enum_full ->
  exists r, obs (spec_run ENUM_FUEL p) = Some r /\ obs (impl_run V_FULL ENUM_FUEL p) = Some r.
Proof. intros p H. exact (proj1 (good_full p H)). Qed.
Print Assumptions C08_impl_refines_spec_panic_partial.
Theorem C08_defer_lifo_once_partial : forall p, In p enum_full ->
  exists out s, impl_fun V_FULL ENUM_FUEL p 0 0 wrapper j_init = Some (out, s) /\
    forall id, (id < j_next s)%nat -> pend id (j_trace s) = Some [].
Proof. intros p H. exact (proj2 (good_full p H)). Qed.
Print Assumptions C08_defer_lifo_once_partial.

(* the minimal witnesses of the five repaired findings (Goexit swallowed, Goexit repair aborting a
   deferring callee, replaced panic resurrected, deferred call skipped, panic during Goexit swallowed)
   behave as in Go on the current shape *)
Theorem C08_repaired_witnesses :
  obs (impl_run V_FULL 100 wit_goexit) = obs (spec_run 100 wit_goexit) /\
  obs (impl_run V_FULL 100 wit_goexit_fixed) = obs (spec_run 100 wit_goexit_fixed) /\
  obs (impl_run V_FULL 100 wit_replaced) = obs (spec_run 100 wit_replaced) /\
  obs (impl_run V_FULL 100 wit_skipped) = obs (spec_run 100 wit_skipped) /\
  obs (impl_run V_FULL 100 wit_goexit_panic) = obs (spec_run 100 wit_goexit_panic) /\
  obs (spec_run 100 wit_goexit_panic) = Some ([], FFatal (PInt 2)) /\
  obs (spec_run 100 wit_skipped) = Some ([ERec (Some (PInt 2)); ERec None; ETrace 0; ETraceX 0 0], FNormal).
Proof.
  destruct witnesses_repaired as [_ [_ [_ [_ [H1 [H2 [H3 [H4 [H5 [H6 H7]]]]]]]]]].
  repeat split; assumption.
Qed.
Print Assumptions C08_repaired_witnesses.

Theorem C08_enumeration_sizes :
  N.of_nat (length enum_calm) = 226477%N /\ N.of_nat (length enum_all) = 329727%N /\ N.of_nat (length enum_full) = 334408%N.
Proof.
  destruct enum_lengths as (E1 & E2 & E3 & E4 & E5 & E6 & E7 & E8).
  unfold enum_full, enum_all, enum_calm. rewrite !app_length, !Nat2N.inj_add, E1, E2, E3, E4, E5, E6, E7, E8.
  repeat split.
Qed.
Print Assumptions C08_enumeration_sizes.

(* part A, continued: guards on the shape of a value (Model/C08_Guards2.v) *)
(* m[k] = v panics exactly when m is the nil map (`false`), otherwise it stores *)
Theorem C08_map_store_guard_fires_iff_spec : forall m k v, impl_map_store m k v = spec_map_store m k v.
Proof. intros [|kv] k v; reflexivity. Qed.
Print Assumptions C08_map_store_guard_fires_iff_spec.
Theorem C08_map_store_guard_throws_iff : forall m k v, impl_map_store m k v = GThrow <-> m = JMNil.
Proof. intros [|kv] k v; cbn; split; intro H; try reflexivity; discriminate H. Qed.
Print Assumptions C08_map_store_guard_throws_iff.
(* v, ok = m[k] through $mapIndex never panics, also on the nil map, and gives the stored entry / the zero value *)
Theorem C08_map_read_guard_fires_iff_spec : forall m k, impl_map_read m k = spec_map_read m k /\ impl_map_read m k <> GThrow.
Proof.
  intros m k. split; [destruct m; reflexivity|].
  unfold impl_map_read. destruct (impl_mapindex m k); discriminate.
Qed.
Print Assumptions C08_map_read_guard_fires_iff_spec.
(* p.f and p.f = v through a struct pointer: panic exactly when p is typ.ptr.nil (f one of the struct's fields) *)
Theorem C08_nil_ptr_get_guard_fires_iff_spec : forall p i, (i < ptr_nfields p)%nat ->
  impl_ptr_get p i = spec_ptr_get p i /\ (impl_ptr_get p i = GThrow <-> exists n, p = JPNil n).
Proof.
  intros [n|fs] i H; unfold impl_ptr_get, spec_ptr_get, ptr_nfields in *.
  - rewrite (proj2 (Nat.ltb_lt i n) H). split; [reflexivity|]. split; [eauto|reflexivity].
  - split; [reflexivity|]. split; [|intros [n E]; discriminate E].
    (* an object does not throw: field i exists *)
    destruct (nth_error fs i) eqn:E; [discriminate|]. destruct (Nat.lt_irrefl _ (Nat.lt_le_trans _ _ _ H (proj1 (nth_error_None _ _) E))).
Qed.
Print Assumptions C08_nil_ptr_get_guard_fires_iff_spec.
Theorem C08_nil_ptr_set_guard_fires_iff_spec : forall p i v, (i < ptr_nfields p)%nat ->
  impl_ptr_set p i v = spec_ptr_set p i v /\ (impl_ptr_set p i v = GThrow <-> exists n, p = JPNil n).
Proof.
  intros [n|fs] i v H; unfold impl_ptr_set, spec_ptr_set, ptr_nfields in *.
  - rewrite (proj2 (Nat.ltb_lt i n) H). split; [reflexivity|]. split; [eauto|reflexivity].
  - split; [reflexivity|]. split; [discriminate|intros [n E]; discriminate E].
Qed.
Print Assumptions C08_nil_ptr_set_guard_fires_iff_spec.
(* x.(T) panics exactly when the assertion does not hold (nil interface, other dynamic type, missing method) *)
Theorem C08_assert_guard_throws_iff : forall v t, impl_assert v t false = GThrow <-> ~ assert_holds v t.
Proof.
  intros v t. rewrite <- assert_ok_iff. unfold impl_assert.
  destruct (assert_ok v t) eqn:E.
  - destruct v as [|tid ms pl]; [cbn in E; discriminate E|]. cbn. split; [discriminate|]. intro H. exfalso. apply H. reflexivity.
  - cbn. split; [intros _ H; discriminate H|reflexivity].
Qed.
Print Assumptions C08_assert_guard_throws_iff.
(* v, ok := x.(T) never panics; ok iff the assertion holds; then v is the dynamic value, else the zero value *)
Theorem C08_assert_commaok_never_throws : forall v t,
  impl_assert v t true <> GThrow /\
  ((exists pl, impl_assert v t true = GOk [pl; 1]) <-> assert_holds v t) /\
  (~ assert_holds v t -> impl_assert v t true = GOk [0; 0]) /\
  (forall tid ms pl, v = JIVal tid ms pl -> assert_holds v t -> impl_assert v t true = GOk [pl; 1] /\ impl_assert v t false = GOk [pl]).
Proof. exact assert_commaok_iff. Qed.
Print Assumptions C08_assert_commaok_never_throws.

(* part B, continued: the stack-shape invariant of ImplPanic, UNBOUNDED (every program, every fuel, every JS depth) for every
   variant whose $callDeferred re-queues a panic only when the goroutine goes to sleep (the current code, V_FULL, and
   V_REPAIRED).  [Inv] (Proofs/C08_P4_Once.v): the deferStack has no duplicates, its ids are older than the id counter,
   every $deferred list that is not on the deferStack is empty, and no panic is queued while compiled Go code runs. *)

(* one activation of a compiled function, however it is left (normal return, panic, Goexit, recovered panic unwinding
   through it): invariant kept, $stackDepthOffset restored, deferStack cut back to a suffix (unchanged on normal return),
   and every list that does not belong to a still active frame is empty *)
Theorem C08_activation_restores_stack_shape : forall vr fuel p d cell body s out s',
  v_pushback_asleep_only vr = true -> Inv s ->
  impl_fun vr fuel p d cell body s = Some (out, s') ->
  Inv s' /\ j_offset s' = j_offset s /\ suffix (j_deferStack s') (j_deferStack s) /\
  ((forall e, out <> JThrow e) -> j_deferStack s' = j_deferStack s) /\
  (forall id, ~ In id (j_deferStack s) -> list_get (j_lists s') id = []).
Proof. exact fun_leaves_clean. Qed.
Print Assumptions C08_activation_restores_stack_shape.

(* an epilogue $callDeferred(deferred, err) finds its own $deferred array on top of the deferStack or not at all, and pops
   exactly that frame when it returns normally *)
Theorem C08_epilogue_pops_own_frame : forall vr fuel p d id jsErr s out s',
  v_pushback_asleep_only vr = true -> Inv s ->
  (In id (j_deferStack s) -> exists ds0, j_deferStack s = id :: ds0) ->
  impl_cd vr fuel p d (Some id) jsErr false s = Some (out, s') ->
  Inv s' /\ j_offset s' = j_offset s /\ ~ In id (j_deferStack s') /\
  ((forall e, out <> JThrow e) -> exists ds0, j_deferStack s = id :: ds0 /\ j_deferStack s' = ds0).
Proof. exact epilogue_pops_own_frame. Qed.
Print Assumptions C08_epilogue_pops_own_frame.

(* $panic(v) never returns to its caller *)
Theorem C08_panic_never_returns : forall vr fuel p d v s out s',
  v_pushback_asleep_only vr = true -> Inv s ->
  impl_cd vr fuel p d None None true (j_set_ps (v :: j_panicStack s) s) = Some (out, s') ->
  (exists e, out = JThrow e) /\ Inv s' /\ j_offset s' = j_offset s /\ suffix (j_deferStack s') (j_deferStack s).
Proof. exact panic_never_returns. Qed.
Print Assumptions C08_panic_never_returns.

(* defer_lifo_exactly_once, for the non-suspending machine: C08_defer_lifo_once_full_statement holds for
   the current code — for EVERY program and fuel, at the end of the goroutine every pushed deferred call has run exactly
   once, in LIFO order within its activation ([pend] replays push/run events as a stack and ends empty), whether the
   functions returned, panicked (recovered or fatal) or the goroutine exited *)
Theorem C08_defer_lifo_exactly_once : C08_defer_lifo_once_full_statement V_FULL.
Proof. exact (fun fuel p out s => defer_lifo_exactly_once V_FULL fuel p out s eq_refl). Qed.
Print Assumptions C08_defer_lifo_exactly_once.
Theorem C08_defer_lifo_exactly_once_any_asleep_only_variant : forall vr, v_pushback_asleep_only vr = true ->
  C08_defer_lifo_once_full_statement vr.
Proof. exact (fun vr Hv fuel p out s => defer_lifo_exactly_once vr fuel p out s Hv). Qed.
Print Assumptions C08_defer_lifo_exactly_once_any_asleep_only_variant.
(* ... and per activation, at the moment the activation is left (its own list has the fresh id j_next s) *)
Theorem C08_defer_exactly_once_per_activation : forall vr fuel p d cell body s out s',
  v_pushback_asleep_only vr = true -> Inv s -> inv s ->
  impl_fun vr fuel p d cell body s = Some (out, s') ->
  forall id, ~ In id (j_deferStack s) -> pend id (j_trace s') = Some [].
Proof. exact defer_exactly_once_per_activation. Qed.
Print Assumptions C08_defer_exactly_once_per_activation.
(* the final state of every run: nothing left on the deferStack, no queued panic, $stackDepthOffset back at 0, all lists empty *)
Theorem C08_run_ends_clean : forall vr fuel p out s,
  v_pushback_asleep_only vr = true ->
  impl_fun vr fuel p 0 0 wrapper j_init = Some (out, s) ->
  j_deferStack s = [] /\ j_panicStack s = [] /\ j_offset s = 0 /\ forall id, list_get (j_lists s) id = [].
Proof. exact run_ends_clean. Qed.
Print Assumptions C08_run_ends_clean.

(* partial: impl_refines_spec_panic (C08_impl_refines_spec_panic_full_statement) and recover_legal_iff.  The
   invariant above is the stack-shape half of the simulation; the other half — relating $panicStackDepth/$panicValue to
   SpecPanic's per-activation [l_rk] across the two machines' different recursion structure ($panic runs the callers'
   deferred calls from inside the callee) and their different cell numbering — is not proved. *)

(* Non-vacuity: guards on concrete boundary operands; the machines on a program with a
   recovered run-time error, a helper-level recover that must return nil, a named
   result changed after recover and a deferred call with its argument fixed at the defer. *)
Example C08_nonvacuous :
  impl_subslice 2 3 5 1 (Some 5) (Some 5) = GOk [3; 4; 4] /\
  impl_subslice 2 3 5 1 (Some 6) None = GThrow /\
  impl_makeslice 2147483647 None = GOk [0; 2147483647; 2147483647] /\
  impl_makeslice 2147483648 None = GThrow /\
  impl_quo true (-2147483648) (-1) = GOk [-2147483648] /\
  let p := [[SDeferClo [SRecover; SSetR 7]; SDeferClo [SCallClo [SRecover]]; SDefer 1%nat; SSetX 4; SPanic (PRt 0)]; [STraceX]] in
  obs (impl_run V_FULL 100 p) = Some ([ETraceX 0 0; ERec None; ERec (Some (PRt 0)); ETraceX 7 0], FNormal) /\
  obs (spec_run 100 p) = obs (impl_run V_FULL 100 p).
Proof. vm_compute. repeat split; reflexivity. Qed.

Example C08_phase4_nonvacuous :
  Inv j_init /\ v_pushback_asleep_only V_FULL = true /\
  impl_map_store JMNil 1 2 = GThrow /\ impl_map_store (JMMap [(1, 5)]) 1 2 = GOk [1; 2] /\
  impl_ptr_get (JPNil 2) 1 = GThrow /\ impl_ptr_get (JPObj [7; 8]) 1 = GOk [8] /\
  impl_assert (JIVal 3 [10; 11] 42) (TIface [11]) false = GOk [42] /\ impl_assert (JIVal 3 [10] 42) (TIface [11]) false = GThrow /\
  (exists out s, impl_fun V_FULL 100 [[SDeferClo [SRecover]; SDeferClo [SPanic (PInt 2)]; SPanic (PInt 1)]] 0 0 wrapper j_init = Some (out, s)).
Proof.
  split; [exact Inv_init|]. split; [reflexivity|].
  repeat (split; [vm_compute; reflexivity|]).
  vm_compute. eexists. eexists. reflexivity.
Qed.
