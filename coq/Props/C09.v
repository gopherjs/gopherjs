(* C09 - Dynamic types: identity, assertions, method sets, interface equality - theorems about the CURRENT code.
   ONLY property theorems (each closed by a lemma of Proofs/ or a few lines from one) + Print Assumptions.  Model: Model/C09_Types.v
   (types.js / prelude.js; one boolean per defect class, [flags_current] = the tree as it is now: struct key with
   embedded bit / package / escaped tag, memo tables and `seen` keyed by type id, same-depth ambiguity excluded;
   four recorded $methodSet classes still present); lemmas: Proofs/C09_Types.v, C09_P4_*.v (identity), C09_Mset*.v (method sets); tie: harness/py/props/c09.py (probes
   the real run-time with one witness per class on every run and compares with the variant it finds).

   FULL STATEMENTS (kept visible; what is proved below is weaker where the name says _partial): *)
From Coq Require Import List NArith Bool String Lia.
From Verif Require Import Model.C09_Types Corr.C09_Eval Proofs.C09_Types Proofs.C09_Mset_Fams.
From Verif Require Import Model.C09_P4_Wf Proofs.C09_P4_Strings Proofs.C09_P4_Keys Proofs.C09_P4_Canon Proofs.C09_P4_Ident.
Import ListNotations.
Local Open Scope N_scope.

(* for every environment and every sequence of canonicalisations, two types get the same run-time object iff identical *)
Definition C09_canon_full_statement : Prop :=
  forall env (ts : list ty) i j, let ids := fst (canon_list flags_current ts (load_env flags_current env)) in
    (i < List.length ts)%nat -> (j < List.length ts)%nat ->
    (nth i ids 0 = nth j ids 0 <-> identical (nth i ts (T (LBasic 0) [])) (nth j ts (T (LBasic 0) [])) = true).
(* for every family outside the four recorded classes, $methodSet / $assertType / $interfaceIsEqual answer every probe
   script as Go does *)
Definition C09_family_full_statement : Prop :=
  forall f : family, fam_clean f = true -> diff_from 0 (run_impl flags_current f) (run_spec f) = [].

(* ---- $assertType: the memo tables are state.  For EVERY type store and EVERY history of earlier assertions the
   answer is the memo-free answer (the tables are keyed by the type id, which identifies the dynamic type). *)
Theorem C09_assert_any_history : forall s hist c t,
  fst (assert_impl flags_current s c t (run_hist flags_current s hist memo0)) = pure_assert flags_current s c t.
Proof. intro s. exact (assert_history flags_current s (tkey_inj_repaired flags_current s eq_refl)). Qed.
Print Assumptions C09_assert_any_history.

(* the general form: any memo key that is injective on run-time types is sound (this is what failed when the key
   was the type string) *)
Theorem C09_assert_any_history_injective_key : forall fl s,
  (forall c c', tkey fl s c = tkey fl s c' -> c = c') ->
  forall hist c t, fst (assert_impl fl s c t (run_hist fl s hist memo0)) = pure_assert fl s c t.
Proof. exact assert_history. Qed.
Print Assumptions C09_assert_any_history_injective_key.

(* ---- identity.  PARTIAL (bounded): over the complete finite domain [dom] (two declarations that PRINT ALIKE, every
   type of constructor depth 1 over 4 leaves - pointers, slices, arrays, channels x3, maps, functions, structs over names
   x embedded x tags incl. a '$' tag forged to imitate a two-field key x both packages, interfaces with exported and
   per-package unexported methods - plus a depth-2 layer incl. variadic functions; > 500 types), canonicalised in one
   state, in the given and in the reverse order: same run-time object iff identical.  Both are instances of
   the unbounded theorem below (in the form [canon_pairs] of Proofs/C09_P4_Ident.v): [dom] is well-formed ([dom_wf]). *)
Theorem C09_canon_iff_identical_bounded_partial :
  forall x y, let z := zip (fst (canon_list flags_current dom (load_env flags_current dom_env))) dom in
  In x z -> In y z -> (fst x = fst y <-> identical (snd x) (snd y) = true).
Proof. exact (canon_agree_spec flags_current dom_env dom (proj1 canon_agree_current)). Qed.
Print Assumptions C09_canon_iff_identical_bounded_partial.
Theorem C09_canon_iff_identical_reverse_order_bounded_partial :
  forall x y, let z := zip (fst (canon_list flags_current (rev dom) (load_env flags_current dom_env))) (rev dom) in
  In x z -> In y z -> (fst x = fst y <-> identical (snd x) (snd y) = true).
Proof. exact (canon_agree_spec flags_current dom_env (rev dom) (proj2 canon_agree_current)). Qed.

(* ---- identity, UNBOUNDED.  For EVERY environment of declarations and EVERY sequence of type terms of ANY
   depth that are well-formed ([wfb], Model/C09_P4_Wf.v: constructor arities, indices in range, identifiers and package
   paths without , $ \ , exported = ASCII upper-case initial, struct package "" iff no unexported field, no chan that is
   both send-only and receive-only; TAGS ARBITRARY), canonicalised one after the other in one state by the model of
   $ptrType/$sliceType/$arrayType/$chanType/$mapType/$funcType/$structType/$interfaceType after $newType/init of all
   declarations: two of them get the same run-time object iff they are identical by Go's rules.  By structural
   induction over type terms and over the sequence (hash-consing invariant [Inv] + injectivity of the typeKey strings). *)
Definition C09_canon_wf_full_statement : Prop :=
  forall env (ts : list ty) i j, forallb (wfb (N.of_nat (List.length env))) ts = true ->
    let ids := fst (canon_list flags_current ts (load_env flags_current env)) in
    (i < List.length ts)%nat -> (j < List.length ts)%nat ->
    (nth i ids 0 = nth j ids 0 <-> identical (nth i ts (T (LBasic 0) [])) (nth j ts (T (LBasic 0) [])) = true).
Theorem C09_canon_iff_identical : C09_canon_wf_full_statement.
Proof.
  intros env ts i j W ids Hi Hj.
  destruct (canon_list flags_current ts (load_env flags_current env)) as [ids0 s] eqn:E. subst ids. cbn [fst].
  destruct (canon_env env ts ids0 s E) as [I [ND R]]. specialize (R W).
  assert (Wn : forall n, (n < List.length ts)%nat -> wfb (nd_of s) (nth n ts (T (LBasic 0) [])) = true).
  { intros n Hn. rewrite ND. rewrite forallb_forall in W. apply W. now apply nth_In. }
  apply (rep_unique s I (nth i ts (T (LBasic 0) [])) (nth j ts (T (LBasic 0) []))); auto; now apply (Forall2_nth (rep s)).
Qed.
Print Assumptions C09_canon_iff_identical.

(* [C09_canon_full_statement] (no well-formedness hypothesis) is false, but only for junk terms that
   no compiler output contains: a declaration index out of range falls back to object 0 (= bool) *)
Theorem C09_canon_full_statement_junk_refuted : ~ C09_canon_full_statement.
Proof.
  intro H. specialize (H [] [T (LNamed 5) []; T (LBasic 0) []] 0%nat 1%nat). cbv zeta in H.
  pose proof canon_junk_refuted as J. cbv zeta in J. destruct J as (E & N & _).
  destruct H as [H _]; [cbn; lia..|]. rewrite N in H. discriminate (H E).
Qed.

(* the hash-consing invariant after any environment and any sequence (no well-formedness needed for [Inv]: cache
   entries point to fresh objects, never to a predeclared / declared type, no object has two keys), and every
   well-formed term's object REPRESENTS it (component-wise, through the caches) *)
Theorem C09_canon_hashcons_invariant : forall env ts ids s,
  canon_list flags_current ts (load_env flags_current env) = (ids, s) ->
  Inv s /\ (forallb (wfb (N.of_nat (List.length env))) ts = true -> Forall2 (rep s) ids ts).
Proof. intros env ts ids s E. destruct (canon_env env ts ids s E) as [I [_ R]]. auto. Qed.
(* ... and it stays the representative after arbitrarily many later canonicalisations (so [rep_unique] in the later
   state relates a type canonicalised early to one canonicalised late) *)
Theorem C09_canon_stable_later : forall env ts1 ts2 ids1 s1 ids2 s2,
  forallb (wfb (N.of_nat (List.length env))) ts1 = true ->
  canon_list flags_current ts1 (load_env flags_current env) = (ids1, s1) ->
  canon_list flags_current ts2 s1 = (ids2, s2) -> Forall2 (rep s2) ids1 ts1.
Proof.
  intros env ts1 ts2 ids1 s1 ids2 s2 W E1 E2.
  destruct (canon_env env ts1 ids1 s1 E1) as [I1 [_ R1]].
  destruct (canon_list_all ts2 _ ids2 s2 I1 E2) as [_ [X2 _]].
  eapply Forall2_rep_mono; eauto.
Qed.

(* the typeKey strings (cache, key) are injective over well-formed labels and component ids - all eight constructors *)
Theorem C09_typekey_injective : forall nd l ids l' ids' ck,
  composite l = true -> composite l' = true ->
  lab_wf nd l (List.length ids) = true -> lab_wf nd l' (List.length ids') = true ->
  key_of l ids = Some ck -> key_of l' ids' = Some ck -> l = l' /\ ids = ids'.
Proof. intros nd l ids l' ids' ck _ _. exact (key_inj nd l ids l' ids' ck). Qed.
Print Assumptions C09_typekey_injective.
(* the tag escaping s.replace(/\\/g,"\\\\").replace(/\$/g,"\\$") is prefix-free w.r.t. the separator: an escaped string followed by
   end-of-key or by the separator determines the string and the rest *)
Theorem C09_tag_escape_prefix_free : forall x, x <> c_bslash -> forall a b r r',
  tail_ok x r -> tail_ok x r' -> escape x a ++ r = escape x b ++ r' -> a = b /\ r = r'.
Proof. exact esc_tok_inj. Qed.
(* one representative per Go type in ANY state satisfying the invariant *)
Theorem C09_representative_unique : forall s, Inv s -> forall t u i j,
  wfb (nd_of s) t = true -> wfb (nd_of s) u = true -> rep s i t -> rep s j u -> (i = j <-> identical t u = true).
Proof. exact rep_unique. Qed.

(* ---- method sets and assertions.  PARTIAL (bounded): over ALL 19683 families of four struct types (every embedding
   by value / by pointer of earlier types, every value/pointer-receiver placement of M on T0..T2, optional field M),
   every family outside the four recorded classes ([fam_clean]: 8725 of them) gets Go's method sets (names and owners)
   for T2,*T2,T3,*T3 and Go's answers for their assertion to interface{M()}.  It is an instance of [fam_agree_current]
   (Proofs/C09_Mset_Fams.v): the same for EVERY family of legal declarations (any number of them, any embedding graph, any
   methods; embedded fields are type names or pointers to them, receivers are neither pointer nor interface types) whose
   script asks for the method sets of declared types and pointers to them - by induction over the levels of the two
   searches (Proofs/C09_Mset.v).  [C09_family_full_statement] above does not hold as stated: [fam_clean] reads the
   declarations, not the struct and interface literals of the universe (where A has M, the literal struct{A; M int} has M
   for $methodSet and not for Go). *)
Theorem C09_method_set_impl_eq_spec_bounded_partial :
  forall f, In f mset_fams -> fam_clean f = true -> diff_from 0 (run_impl flags_current f) (run_spec f) = [].
Proof. intros f H. exact (fam_agree_current f (mset_fams_ok f H) (mset_fams_dyn f H)). Qed.
Print Assumptions C09_method_set_impl_eq_spec_bounded_partial.

(* the four recorded classes: each witness is outside [fam_clean] and refutes the unrestricted statement; the
   witnesses of the classes repaired in the tree now agree with Go *)
Theorem C09_method_set_recorded_classes_refuted :
  map (differs flags_current) [wit_field; wit_mpkg; wit_pshadow; wit_diamond] = [true; true; true; true] /\
  map fam_clean [wit_field; wit_mpkg; wit_pshadow; wit_diamond] = [false; false; false; false] /\
  map (differs flags_current) [wit_emb; wit_pkg; wit_tag; wit_memo; wit_ambig; wit_ifdup] = [false; false; false; false; false; false].
Proof. exact remaining_classes_refuted. Qed.
Print Assumptions C09_method_set_recorded_classes_refuted.

(* were the four classes repaired as modelled ([flags_fixed]), every one of the 19683 families would agree (an instance
   of [fam_agree]: every legal family, also with struct and interface literals in the universe) *)
Theorem C09_method_set_repaired_design_bounded_partial :
  forall f, In f mset_fams -> diff_from 0 (run_impl flags_fixed f) (run_spec f) = [].
Proof. intros f H. exact (fam_agree f (mset_fams_ok f H)). Qed.

(* ---- interface equality: the dynamic type decides first (different types: false, never a panic);
   same uncomparable type: panic (None) *)
Theorem C09_iface_eq_type_first_partial : forall s c c' a b, c <> c' -> iface_eq_impl s (VIface c a) (VIface c' b) = Some false.
Proof. exact iface_eq_types_differ. Qed.
Theorem C09_iface_eq_uncomparable_panics : forall s c a b, r_comparable (get s c) = false -> iface_eq_impl s (VIface c a) (VIface c b) = None.
Proof. exact iface_eq_uncomparable. Qed.
Print Assumptions C09_iface_eq_uncomparable_panics.

(* Non-vacuity *)
Example C09_nonvacuous :
  (500 <=? N.of_nat (List.length dom)) = true /\ N.of_nat (List.length mset_fams) = 19683 /\
  N.of_nat (List.length (filter fam_clean mset_fams)) = 8725.
Proof. split; [exact dom_size|exact (conj (f_equal fst mset_fams_count) (f_equal snd mset_fams_count))]. Qed.
(* the well-formedness hypothesis admits deep terms with hostile tags (forged separators, backslashes) *)
Example C09_wf_nonvacuous : forallb (wfb 2) p4_nasty = true.
Proof. exact p4_nasty_wf. Qed.
