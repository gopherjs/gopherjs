(* C10 — Packages are linked and initialised in Go order; linknames resolve.
   Models: Model/C10_Order.v (ImportDependencies, Sources.Sort, importDecls order, the
   $init recursion and its flattened resumable form), Model/C10_Linkname.v (linkname.go).
   Tie: harness/py/props/c10.py runs the real code and the models on the same inputs. *)
From Coq Require Import List NArith Arith Bool Permutation Sorted String.
From Verif Require Import Model.C10_Order Model.C10_Linkname
  Proofs.C10_Order Proofs.C10_Deps Proofs.C10_Init Proofs.C10_Linkname Corr.C10_Eval.
Import ListNotations.

(* For EVERY closed acyclic import graph (any rank function witnessing acyclicity), any
   root and any order of the import lists: ImportDependencies succeeds with the fuel
   "number of packages", lists every package reachable from runtime or the root's imports
   exactly once and nothing else, every package after all its imports, the root last. *)
Theorem C10_import_deps_topological : forall g rank root root_imports,
  closed g -> ranked g rank ->
  (forall q, In q (RUNTIME :: root_imports) -> exists imps, lookup g q = Some imps) ->
  lookup g root = None ->
  exists l, import_deps g root root_imports = Some (l ++ [root]) /\
    NoDup (l ++ [root]) /\
    (forall x, In x l <-> exists q, In q (RUNTIME :: root_imports) /\ reach g q x) /\
    (forall p q, In p l -> edge g p q -> before q p (l ++ [root])) /\
    (forall q, In q root_imports -> before q root (l ++ [root])).
Proof. exact import_deps_topological. Qed.
Print Assumptions C10_import_deps_topological.

(* For EVERY program whose import graph (imports sorted by path, as importDecls emits them)
   is closed and acyclic and in which nobody imports the main package: the run-time $init
   recursion ends, and its trace is exactly the concatenation of the packages' own
   initialisation sequences [own] along a list that contains every reachable package exactly
   once (NoDup inside [topo]), every package after all its imports, the main package last. *)
Theorem C10_run_init_once_and_ordered : forall prog main rank,
  ranked (pkg_graph prog) rank -> closed (pkg_graph prog) ->
  (exists i, lookup (pkg_graph prog) RUNTIME = Some i) ->
  (exists i, lookup (pkg_graph prog) main = Some i) ->
  (forall p, ~ edge (pkg_graph prog) p main) -> main <> RUNTIME ->
  exists l, run_program prog main = Some (evs prog main l ++ own prog main main) /\
    topo (pkg_graph prog) (l ++ [main]) /\
    (forall x, In x (l ++ [main]) <-> reach (pkg_graph prog) RUNTIME x \/ reach (pkg_graph prog) main x).
Proof. intros prog main rank Hrk Hcl HR HM Hno _. apply (run_program_main_last prog main rank); assumption. Qed.
Print Assumptions C10_run_init_once_and_ordered.

(* the same without the assumption on main: every package's sequence comes after the
   sequences of the packages it imports *)
Theorem C10_init_after_imports : forall prog main rank,
  closed (pkg_graph prog) -> ranked (pkg_graph prog) rank ->
  (exists i, lookup (pkg_graph prog) RUNTIME = Some i) ->
  (exists i, lookup (pkg_graph prog) main = Some i) ->
  exists order, run_program prog main = Some (evs prog main order) /\ NoDup order /\
    forall p q, In p order -> edge (pkg_graph prog) p q ->
      exists t1 t2 t3, evs prog main order = t1 ++ own prog main q ++ t2 ++ own prog main p ++ t3.
Proof. exact init_after_imports. Qed.
Print Assumptions C10_init_after_imports.

Theorem C10_main_main_last : forall prog main rank pk,
  closed (pkg_graph prog) -> ranked (pkg_graph prog) rank ->
  (exists i, lookup (pkg_graph prog) RUNTIME = Some i) ->
  lookup (pkg_table prog) main = Some pk -> pk_is_main pk = true ->
  (forall p, ~ edge (pkg_graph prog) p main) -> main <> RUNTIME ->
  exists t, run_program prog main = Some (t ++ [EMain main]).
Proof. intros prog main rank pk Hcl Hrk HR HT Hm Hno _. apply (main_main_last prog main rank pk); assumption. Qed.
Print Assumptions C10_main_main_last.

(* Within a package: zero values, then the variables in the order go/types' InitOrder gives
   (an INPUT of the model — that InitOrder respects the dependencies between initialisers is
   go/types' contract and is not proved here, hence _partial), then the init functions in
   source order, the files taken in the order of Sources.Sort, then main.main. *)
Theorem C10_package_sequence_partial : forall main pk,
  own_events main pk =
    map (EZero (pk_path pk)) (pk_zero pk) ++
    flat_map (item_events (pk_path pk)) (map (fun xb => (IVar (fst xb), snd xb)) (pk_initorder pk)) ++
    flat_map (item_events (pk_path pk))
      (flat_map (fun f => map (fun kb => (IFn (fst f) (fst kb), snd kb)) (snd f)) (sort_files (pk_files pk))) ++
    main_events main pk.
Proof. intros main pk. unfold own_events, own_items. rewrite flat_map_app, <- !app_assoc. reflexivity. Qed.
Print Assumptions C10_package_sequence_partial.

(* NOT proved: the flattened, resumable $init ([run_machine]: frames with a saved $s,
   suspension inside a blocking initialiser, re-entry from the outermost frame) yields the
   same trace as the direct recursion.  It is checked by evaluation on every generated
   program (Corr/C10_Eval.case_ok) and on the example below. *)
Definition C10_init_not_overtaken_full_statement : Prop :=
  forall prog main rank, ranked (pkg_graph prog) rank -> closed (pkg_graph prog) ->
    run_machine prog main = run_program prog main.

Theorem C10_file_order_depends_only_on_names : forall B (fs fs' : list (str * B)),
  Permutation fs fs' -> NoDup (map fst fs) -> sort_files fs = sort_files fs'.
Proof.
  intros B fs fs' P ND.
  apply (sort_by_unique _ fst str_gtb_order); [exact P|exact (Base.Lists.NoDup_map_inj fst fs ND)].
Qed.
Print Assumptions C10_file_order_depends_only_on_names.

Theorem C10_sorted_file_names : forall B (fs : list (str * B)),
  map fst (sort_files fs) = sort_by (fun a c => str_ltb c a) (map fst fs).
Proof.
  unfold sort_files. induction fs as [|x r IH]; simpl; auto.
  rewrite map_fst_insert. rewrite IH. reflexivity.
Qed.
Print Assumptions C10_sorted_file_names.

Theorem C10_import_order_depends_only_on_names : forall l l',
  Permutation l l' -> NoDup l -> sort_paths l = sort_paths l'.
Proof. exact (fun l l' P _ => sort_paths_canonical l l' P). Qed.
Print Assumptions C10_import_order_depends_only_on_names.

(* "//go:linkname" <ws> local <ws> dir base "." name <ws>: the target is split at the first
   dot after the last slash, for all ASCII strings of that shape (name may itself contain
   dots and parentheses: T.M, ( *T).M) *)
Theorem C10_parse_linkname_spec : forall pkg ws0 local ws1 dir base name ws2,
  allspace ws0 -> allspace ws1 -> ws1 <> [] -> allspace ws2 ->
  nospace local -> local <> [] ->
  nospace dir -> nospace base -> nospace name ->
  (dir = [] \/ exists d, dir = d ++ [SLASH]) ->
  index_byte SLASH base = None -> index_byte DOT base = None -> index_byte SLASH name = None ->
  local <> dir ++ base ++ DOT :: name ->
  read_linkname pkg (PREFIX ++ ws0 ++ local ++ ws1 ++ (dir ++ base ++ DOT :: name) ++ ws2)
  = PLink {| l_ref := (pkg, local); l_impl := (dir ++ base, name) |}.
Proof. exact parse_linkname_spec. Qed.
Print Assumptions C10_parse_linkname_spec.

Theorem C10_read_linkname_shapes : forall pkg text,
  has_prefix PREFIX text = true ->
  match fields text with
  | [_; _] => read_linkname pkg text = PNone
  | [_; l; e] => if str_eqb l e then read_linkname pkg text = PNone
                 else exists impl, read_linkname pkg text = PLink {| l_ref := (pkg, l); l_impl := impl |}
  | _ => read_linkname pkg text = PErr
  end.
Proof. exact read_linkname_shapes. Qed.
Print Assumptions C10_read_linkname_shapes.

(* unsupported uses are errors (tables of mitigated names: Gen/C10_Tables.v, regenerated) *)
Theorem C10_unsupported_uses_rejected : forall pkg decls text l,
  read_linkname pkg text = PLink l ->
  process_comment pkg false decls text = VError ENoUnsafe /\
  (lookup_node decls (snd (l_ref l)) = None -> process_comment pkg true decls text = VError ENotFound) /\
  (lookup_node decls (snd (l_ref l)) = Some NodeOther -> mitigated_var (l_ref l) = false ->
     process_comment pkg true decls text = VError ENotFunc) /\
  (lookup_node decls (snd (l_ref l)) = Some (NodeFunc true) -> mitigated_insert (l_ref l) = false ->
     process_comment pkg true decls text = VError EInsert).
Proof. exact unsupported_uses_rejected. Qed.
Print Assumptions C10_unsupported_uses_rejected.

Theorem C10_accepted_only_if_supported : forall pkg u decls text l,
  process_comment pkg u decls text = VLink l ->
  u = true /\ read_linkname pkg text = PLink l /\ lookup_node decls (snd (l_ref l)) = Some (NodeFunc false).
Proof. exact accepted_only_if_supported. Qed.
Print Assumptions C10_accepted_only_if_supported.

(* Full statement (holds for the current code, fix cecde06): for EVERY list of per-package
   directive lists, if no reference is given twice the aggregation loop of WriteProgramCode
   succeeds, every directive resolves to exactly the implementation it names, the named
   implementation is kept alive / exported, unrelated symbols are untouched; and if some
   reference is given two implementations the build is rejected. *)
Theorem C10_resolve_functional : forall pkgs,
  (NoDup (refs (List.concat pkgs)) ->
     link_program pkgs = Some (program_gls pkgs) /\
     (forall e, In e (List.concat pkgs) ->
        gls_find (program_gls pkgs) (l_ref e) = Some (l_impl e) /\ gls_is_impl (program_gls pkgs) (l_impl e) = true) /\
     (forall s, ~ In s (refs (List.concat pkgs)) -> gls_find (program_gls pkgs) s = None)) /\
  (~ NoDup (refs (List.concat pkgs)) -> link_program pkgs = None).
Proof. exact resolve_full. Qed.
Print Assumptions C10_resolve_functional.

(* GoLinknameSet.Add reports a duplicated reference wherever it occurs in one list *)
Theorem C10_add_reports_conflict : forall es1 e es2 g,
  In (l_ref e) (refs es1) -> snd (gls_add (es1 ++ e :: es2) g) = true.
Proof.
  intros es1 e es2 g Hin. destruct (snd (gls_add (es1 ++ e :: es2) g)) eqn:E; [reflexivity |].
  apply gls_add_no_conflict in E. destruct E as [ND _]. unfold refs in ND. rewrite map_app in ND.
  apply NoDup_remove_2 in ND. exfalso. apply ND, in_or_app. left. exact Hin.
Qed.
Print Assumptions C10_add_reports_conflict.

(* the witness of the finding that cecde06 fixed (f linked to q.tgt and q.two, g to q.three) is rejected *)
Example C10_conflict_witness_rejected :
  link_program [[ {| l_ref := (b "vp", b "f"); l_impl := (b "vp/q", b "tgt") |};
                  {| l_ref := (b "vp", b "f"); l_impl := (b "vp/q", b "two") |};
                  {| l_ref := (b "vp", b "g"); l_impl := (b "vp/q", b "three") |} ]] = None.
Proof. vm_compute. reflexivity. Qed.

Definition ex_graph : graph :=
  [(b "runtime", [b "js"]); (b "js", []); (b "vp/a", [b "vp/b"; b "js"]); (b "vp/b", [])].
Definition ex_rank : list (str * nat) := [(b "runtime", 1); (b "js", 0); (b "vp/a", 1); (b "vp/b", 0)].

Example C10_nonvacuous_deps :
  closed ex_graph /\ ranked ex_graph (rank_of ex_rank) /\ lookup ex_graph (b "vp") = None /\
  import_deps ex_graph (b "vp") [b "vp/b"; b "vp/a"] = Some [b "js"; b "runtime"; b "vp/b"; b "vp/a"; b "vp"].
Proof.
  split; [apply closedb_sound; vm_compute; reflexivity |].
  split; [apply rankedb_sound; vm_compute; reflexivity |].
  split; vm_compute; reflexivity.
Qed.

(* two packages, a blocking initialiser, files given in the "wrong" order: recursion and
   flattened machine agree, b before a, z.go before a.go, main.main last *)
Definition ex_prog : program :=
  [ {| pk_path := b "vp"; pk_is_main := true; pk_imports := [b "vp/b"]; pk_zero := [b "z"];
       pk_initorder := [(b "x", true); (b "y", false)];
       pk_files := [(b "a.go", [(0, false)]); (b "z.go", [(0, true); (1, false)])] |};
    {| pk_path := b "runtime"; pk_is_main := false; pk_imports := []; pk_zero := []; pk_initorder := []; pk_files := [] |};
    {| pk_path := b "vp/b"; pk_is_main := false; pk_imports := []; pk_zero := [];
       pk_initorder := [(b "v", true)]; pk_files := [(b "b.go", [(0, false)])] |} ]%nat.

Example C10_nonvacuous_init :
  closed (pkg_graph ex_prog) /\
  ranked (pkg_graph ex_prog) (rank_of [(b "vp", 1); (b "runtime", 0); (b "vp/b", 0)]%nat) /\
  run_machine ex_prog (b "vp") = run_program ex_prog (b "vp") /\
  option_map (filter observable) (run_program ex_prog (b "vp")) =
  Some [ EStart (b "vp/b") (IVar (b "v")); EWake (b "vp/b") (IVar (b "v")); EStart (b "vp/b") (IFn (b "b.go") 0);
         EStart (b "vp") (IVar (b "x")); EWake (b "vp") (IVar (b "x")); EStart (b "vp") (IVar (b "y"));
         EStart (b "vp") (IFn (b "z.go") 0); EWake (b "vp") (IFn (b "z.go") 0); EStart (b "vp") (IFn (b "z.go") 1);
         EStart (b "vp") (IFn (b "a.go") 0); EMain (b "vp") ]%nat.
Proof.
  split; [apply closedb_sound; vm_compute; reflexivity |].
  split; [apply rankedb_sound; vm_compute; reflexivity |].
  split; vm_compute; reflexivity.
Qed.

Example C10_nonvacuous_linkname :
  read_linkname (b "vp") (b "//go:linkname  loc3	vp/a/q.(*T3).Pm ") =
    PLink {| l_ref := (b "vp", b "loc3"); l_impl := (b "vp/a/q", b "(*T3).Pm") |} /\
  sort_files [(b "m10.go", tt); (b "B.go", tt); (b "m2.go", tt)] = [(b "m2.go", tt); (b "m10.go", tt); (b "B.go", tt)].
Proof. split; vm_compute; reflexivity. Qed.
