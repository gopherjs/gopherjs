(* C11 — Go and JavaScript values convert as documented and round-trip.
   Model: Model/C11_JsMapping.v ($externalize/$internalize of compiler/prelude/jsmapping.js, $decodeRune/$encodeRune,
   $flatten64 and the 64-bit constructors, fc.internalize of compiler/expressions.go, $externalizeFunction's cache, $block).
   Tie: harness/py/props/c11.py replays generated conversions on the real prelude (node) and on the model, and runs
   compiled programs.

   The model follows /repo after commit 0509738, which repaired four defects (sign of zero lost by $internalize, unpaired
   high surrogates, nil map -> empty map, nil struct pointer -> TypeError); the theorems below are the full statements. *)
From Coq Require Import List ZArith Bool Lia.
From Verif Require Import Model.C11_JsMapping Proofs.C11_Strings Proofs.C11_Numbers.
Import ListNotations.
Local Open Scope Z_scope.

(* Go -> JS -> Go is the identity on every valid UTF-8 string (any scalar values, non-BMP included), and the JS string
   in between is the UTF-16 encoding of the same scalar values. *)
Theorem C11_string_roundtrip : forall s, valid_utf8 s -> int_string (ext_string s) = s.
Proof. intros s [rs [H ->]]. rewrite ext_string_utf8 by exact H. apply int_string_utf16. exact H. Qed.
Print Assumptions C11_string_roundtrip.

Theorem C11_string_transcoding : forall rs, Forall scalar rs ->
  ext_string (utf8 rs) = utf16 rs /\ int_string (utf16 rs) = utf8 rs.
Proof. intros rs H. split; [exact (ext_string_utf8 rs H) | exact (int_string_utf16 rs H)]. Qed.
Print Assumptions C11_string_transcoding.

(* the model's encoder is UTF-8 as defined by the Unicode standard (table 3-6) *)
Theorem C11_encoder_is_utf8 : forall r, scalar r -> encode_rune r = utf8_spec r.
Proof. exact encode_rune_is_utf8. Qed.
Print Assumptions C11_encoder_is_utf8.

(* JS -> Go -> JS is the identity on every well-formed UTF-16 string *)
Theorem C11_utf16_roundtrip : forall u, wellformed_utf16 u -> ext_string (int_string u) = u.
Proof. intros u [rs [H ->]]. rewrite int_string_utf16 by exact H. apply ext_string_utf8. exact H. Qed.
Print Assumptions C11_utf16_roundtrip.

(* invalid UTF-8: a byte that cannot start a sequence, or a lead byte without its continuation, becomes U+FFFD and
   decoding resumes at the next byte *)
Theorem C11_invalid_utf8_lead : forall c rest, (0x80 <= c < 0xC0 \/ 0xF8 <= c) ->
  ext_loop 0 (c :: rest) = 0xFFFD :: ext_loop 0 rest.
Proof. exact ext_invalid_lead. Qed.
Print Assumptions C11_invalid_utf8_lead.

Theorem C11_invalid_utf8_truncated : forall c c1 rest, 0xC0 <= c -> cont_bad c1 = true ->
  ext_loop 0 (c :: c1 :: rest) = 0xFFFD :: ext_loop 0 (c1 :: rest).
Proof. exact ext_truncated. Qed.
Print Assumptions C11_invalid_utf8_truncated.

(* ill-formed UTF-16: EVERY JS string converts like Go's unicode/utf16.Decode followed by UTF-8 encoding
   (unpaired surrogates, high or low, become U+FFFD and nothing else is consumed) *)
Theorem C11_utf16_degradation : forall u, Forall (fun c => 0 <= c) u ->
  int_string u = utf8 (utf16_decode u).
Proof.
  intros u Hu. rewrite int_string_loop by exact Hu. apply int_loop_decode.
Qed.
Print Assumptions C11_utf16_degradation.

(* every non-64-bit integer kind, every value of its range: Go -> JS is the same number, JS -> Go gives it back *)
Theorem C11_int_roundtrip : forall k lo hi z, int_range k = Some (lo, hi) -> lo <= z <= hi ->
  externalize (TB k) (GNum (NumZ z)) = Ok (JNum (NumZ z)) /\
  internalize (TB k) (JNum (NumZ z)) = Ok (GNum (NumZ z)).
Proof. exact int_roundtrip. Qed.
Print Assumptions C11_int_roundtrip.

(* the accessor o.Int() / js-tagged integer fields ($parseInt + fixNumber) *)
Theorem C11_compiled_int_roundtrip : forall k lo hi z, int_range k = Some (lo, hi) -> lo <= z <= hi ->
  compiled_internalize (TB k) (JNum (NumZ z)) = Ok (GNum (NumZ z)).
Proof.
  intros k lo hi z Hk Hz. rewrite compiled_is_internalize. rewrite <- int_range_sized in Hk.
  exact (proj2 (int_roundtrip _ _ _ _ Hk Hz)).
Qed.
Print Assumptions C11_compiled_int_roundtrip.

(* 64-bit integers in normal form ($high int32 / uint32, $low uint32) below 2^53 in magnitude *)
Theorem C11_int64_roundtrip : forall hi lo,
  - two31 <= hi < two31 -> 0 <= lo < two32 -> Z.abs (hi * two32 + lo) < two53 ->
  externalize (TB KInt64) (G64 hi lo) = Ok (JNum (NumZ (hi * two32 + lo))) /\
  internalize (TB KInt64) (JNum (NumZ (hi * two32 + lo))) = Ok (G64 hi lo).
Proof.
  intros hi lo Hh Hl Hv. split.
  - cbn [externalize]. unfold flatten64. rewrite round53_small by exact Hv. reflexivity.
  - cbn [internalize int_basic to_number bind]. rewrite (new64_halves true) by assumption. reflexivity.
Qed.
Print Assumptions C11_int64_roundtrip.

Theorem C11_uint64_roundtrip : forall hi lo,
  0 <= hi < two32 -> 0 <= lo < two32 -> hi * two32 + lo < two53 ->
  externalize (TB KUint64) (G64 hi lo) = Ok (JNum (NumZ (hi * two32 + lo))) /\
  internalize (TB KUint64) (JNum (NumZ (hi * two32 + lo))) = Ok (G64 hi lo).
Proof.
  intros hi lo Hh Hl Hv. split.
  - cbn [externalize]. unfold flatten64. rewrite round53_small by (unfold two32, two53 in *; lia). reflexivity.
  - cbn [internalize int_basic to_number bind]. rewrite (new64_halves false) by assumption. reflexivity.
Qed.
Print Assumptions C11_uint64_roundtrip.

(* every number: NaN, the infinities, denormals and -0 included *)
Theorem C11_float_roundtrip : forall k n, (k = KFloat32 \/ k = KFloat64) ->
  externalize (TB k) (GNum n) = Ok (JNum n) /\ internalize (TB k) (JNum n) = Ok (GNum n).
Proof. intros k n Hk. destruct Hk; subst k; split; reflexivity. Qed.
Print Assumptions C11_float_roundtrip.

(* ... and through interface{} (the Number row of the table) *)
Theorem C11_float_through_interface : forall n,
  internalize TIface (JNum n) = Ok (GIface (Some (TB KFloat64, GNum n))).
Proof. reflexivity. Qed.
Print Assumptions C11_float_through_interface.

(* o.Float() and js-tagged float fields go through $parseFloat, which returns numbers unchanged: they keep the sign of
   zero *)
Theorem C11_compiled_float_roundtrip : forall k n, (k = KFloat32 \/ k = KFloat64) ->
  compiled_externalize (TB k) (GNum n) = Ok (JNum n) /\ compiled_internalize (TB k) (JNum n) = Ok (GNum n).
Proof. intros k n Hk. destruct Hk; subst k; split; reflexivity. Qed.
Print Assumptions C11_compiled_float_roundtrip.

Theorem C11_bool_roundtrip : forall b,
  externalize (TB KBool) (GBool b) = Ok (JBool b) /\ internalize (TB KBool) (JBool b) = Ok (GBool b).
Proof. intros b. split; [reflexivity | destruct b; reflexivity]. Qed.
Print Assumptions C11_bool_roundtrip.

(* the interface{} table of js/js.go: bool -> bool, numbers -> float64, string -> string *)
Theorem C11_interface_table_scalars : forall k v j g,
  externalize (TB k) v = Ok j -> internalize TIface j = Ok g -> iface_type g = table_row (TB k).
Proof. exact table_scalars. Qed.
Print Assumptions C11_interface_table_scalars.

(* []int8 -> []int8, ..., []int32 and []int -> []int, []uint32 and []uint -> []uint, other slices -> []interface{} *)
Theorem C11_interface_table_slices : forall e l j g,
  externalize (TSlice e) (GSlice (Some l)) = Ok j -> internalize TIface j = Ok g ->
  iface_type g = table_row (TSlice e).
Proof. exact table_slices. Qed.
Print Assumptions C11_interface_table_slices.

(* maps and structs -> map[string]interface{} *)
Theorem C11_interface_table_maps : forall e kvs j g,
  externalize (TMap e) (GMap (Some kvs)) = Ok j -> internalize TIface j = Ok g ->
  iface_type g = table_row (TMap e).
Proof. exact table_maps. Qed.
Print Assumptions C11_interface_table_maps.

Theorem C11_interface_table_structs : forall fs vs j g,
  search_js_object 8 (TStruct fs) (GStruct vs) = None ->
  externalize (TStruct fs) (GStruct vs) = Ok j -> internalize TIface j = Ok g ->
  iface_type g = table_row (TStruct fs).
Proof. exact table_structs. Qed.
Print Assumptions C11_interface_table_structs.

(* nil slices / maps / pointers / interfaces <-> null *)
Theorem C11_nil_is_null : forall t v,
  (v = GSlice None \/ v = GMap None \/ v = GPtr None \/ v = GIface None) ->
  forall j, externalize t v = Ok j -> j = JNull /\ internalize TIface j = Ok (GIface None).
Proof. exact table_nil. Qed.
Print Assumptions C11_nil_is_null.

(* typed round trip of nil values: a nil slice / map / pointer / interface{} of ANY type becomes null and comes back as
   itself.  (An interface type with methods is excluded because $internalize rejects such types altogether, by design.) *)
Theorem C11_nil_roundtrip : forall t v, t <> TIfaceM -> is_nil v ->
  externalize t v = Ok JNull -> internalize t JNull = Ok v.
Proof. exact nil_roundtrip. Qed.
Print Assumptions C11_nil_roundtrip.

(* the same Go function externalizes to the same JS function, whatever else is externalized in between *)
Theorem C11_wrapper_identity : forall s f gs,
  fst (externalize_function (run_ext (snd (externalize_function s (Some f))) gs) (Some f)) =
  fst (externalize_function s (Some f)).
Proof.
  intros s f gs. destruct (ext_fun_registers s f) as [w [H1 H2]]. rewrite H1.
  pose proof (wrapper_preserved_run gs _ _ _ H2) as H3.
  unfold externalize_function at 1. rewrite H3. reflexivity.
Qed.
Print Assumptions C11_wrapper_identity.

(* externalizing again changes nothing (idempotence of the cache) *)
Theorem C11_wrapper_cached : forall s f,
  let '(j1, s1) := externalize_function s (Some f) in externalize_function s1 (Some f) = (j1, s1).
Proof. exact wrapper_cached. Qed.
Print Assumptions C11_wrapper_cached.

(* different Go functions get different JS functions *)
Theorem C11_wrapper_injective : forall s f g,
  cache_ok s -> f <> g ->
  fst (externalize_function s (Some f)) <>
  fst (externalize_function (snd (externalize_function s (Some f))) (Some g)).
Proof. exact wrapper_injective. Qed.
Print Assumptions C11_wrapper_injective.

(* blocking with no current goroutine (a JavaScript callback) raises the error and leaves the scheduler state untouched *)
Theorem C11_callback_guard : forall s, cur s = None -> block s = GuardError s.
Proof. exact callback_guard. Qed.
Print Assumptions C11_callback_guard.

(* "A😀é" + U+10FFFF: valid UTF-8, non-BMP; the hypotheses of the round trips are satisfiable and the conversion computes *)
Example C11_nonvacuous :
  let s := [0x41; 0xF0; 0x9F; 0x98; 0x80; 0xC3; 0xA9; 0xF4; 0x8F; 0xBF; 0xBF] in
  valid_utf8 s /\
  externalize (TB KString) (GStr s) = Ok (JStr [0x41; 0xD83D; 0xDE00; 0xE9; 0xDBFF; 0xDFFF]) /\
  internalize (TB KString) (JStr [0x41; 0xD83D; 0xDE00; 0xE9; 0xDBFF; 0xDFFF]) = Ok (GStr s) /\
  int_range KInt8 = Some (-128, 127) /\
  internalize (TB KInt8) (JNum (NumZ 200)) = Ok (GNum (NumZ (-56))) /\
  internalize (TB KInt64) (JNum (NumZ (-5))) = Ok (G64 (-1) 4294967291) /\
  internalize (TB KFloat64) (JNum NegZero) = Ok (GNum NegZero) /\
  int_string [0xD800; 0x41] = [0xEF; 0xBF; 0xBD; 0x41] /\
  internalize (TMap (TB KInt)) JNull = Ok (GMap None) /\
  cache_ok {| wrappers := []; next_js := 0 |}.
Proof.
  cbv zeta. split.
  - exists [0x41; 0x1F600; 0xE9; 0x10FFFF]. split; [|reflexivity].
    repeat constructor; unfold scalar; cbn; intuition; try discriminate; try (intro; discriminate).
  - repeat split; try reflexivity; cbn; intros; try contradiction; discriminate.
Qed.
