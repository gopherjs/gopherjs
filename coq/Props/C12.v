(* C12 — Standard-library overlays merge exactly as the directives say.
   Model: Model/C12_Merge.v (build/build.go: augmentOverlayFile, augmentOriginalImports,
   augmentOriginalFile, pruneImports, finalizeRemovals, glue of parseAndAugment;
   compiler/astutil: FuncKey, FuncReceiverKey, ImportName, directive regexp).
   Law (specification): Model/C12_Law.v.  Tables from the source: Gen/C12_Tables.v.
   Tie: harness/py/props/c12.py runs the real functions and the model on the same printed packages. *)
From Coq Require Import List String Bool ZArith.
From Verif Require Import Gen.C12_Tables Model.C12_Merge Model.C12_Law Proofs.C12_Merge Proofs.C12_Consts Proofs.C12_Imports.
Import ListNotations.
Local Open Scope string_scope.

(* The result declares every override declaration, every original declaration whose name is
   not overridden, and nothing else — for every code variant [cb], import path and pair of
   well-formed file lists:
   - the overrides map is exactly what the overlay's declarations and directives say
     (later entry of the same key wins, "init" never overrides);
   - each overlay file declares what it declared minus purged declarations/specs and
     override-signature stubs;
   - each original file declares, item by item and in order, [law_item] of what it declared:
     overridden funcs/methods/types/vars/consts are gone, keep-original keeps the body under
     keep_prefix ++ name, override-signature keeps the body under the overlay's signature,
     methods of a purged type are gone, everything else is untouched. *)
Theorem C12_merge_declares : forall cb path ovs origs,
  forallb wf_file ovs = true -> forallb wf_file origs = true ->
  let '(ov, ovs', origs') := merge cb path ovs origs in
  (forall k, lookup k ov =
             if String.eqb k "init" then None else lookup_after k (flat_map file_entries ovs) None) /\
  map declared ovs' = map overlay_law ovs /\
  map declared origs' = map (fun f => flat_map (law_item ov) (declared f)) origs.
Proof. exact merge_declares. Qed.
Print Assumptions C12_merge_declares.

(* Surviving original declarations form a subsequence of the original ones, in original order. *)
Theorem C12_merge_preserves_order : forall cb ov f,
  wf_file f = true ->
  exists l, sublist l (declared f) /\ Forall2 same_origin l (declared (rewrite_original_file cb ov f)).
Proof. intros. rewrite rewrite_original_file_law by auto. apply law_preserves_order. Qed.
Print Assumptions C12_merge_preserves_order.

(* A method whose receiver type is purged survives only through an override of its own. *)
Theorem C12_purge_removes_methods : forall cb ov f tname info fd',
  wf_file f = true ->
  lookup tname ov = Some info -> o_purge info = true -> tname <> "" ->
  In (DIFunc fd') (declared (rewrite_original_file cb ov f)) ->
  func_receiver_key fd' = tname ->
  exists fd, In (DIFunc fd) (declared f) /\ has_key (func_key fd) ov = true /\ law_func ov fd = [DIFunc fd'].
Proof.
  intros cb ov f tname info fd' W L P NE HIn RK.
  rewrite rewrite_original_file_law in HIn by exact W.
  apply in_flat_map in HIn. destruct HIn as (it & I1 & I2).
  destruct (law_purged_method ov it tname info fd' L P NE I2 RK) as (fd & -> & K & E).
  exists fd. auto.
Qed.
Print Assumptions C12_purge_removes_methods.

(* Imports: in a file that is not import-only (or carries a go:linkname directive) and whose import names are
   distinct, an import survives iff it is blank/dot, or still used, or required by a directive (then it is made
   blank); what the file declares does not change.  An import-only file without go:linkname loses everything. *)
Theorem C12_imports_law : forall f,
  (is_only_imports f && negb (has_directive_prefix f linkname_prefix)) = false ->
  NoDup (filter (fun n => negb (String.eqb n "")) (map import_name (file_imports f))) ->
  file_imports (prune_imports f) = flat_map (law_import f) (file_imports f) /\
  declared (prune_imports f) = declared f.
Proof. exact imports_law. Qed.
Print Assumptions C12_imports_law.

Theorem C12_imports_law_import_only : forall f,
  (is_only_imports f && negb (has_directive_prefix f linkname_prefix)) = true -> prune_imports f = [].
Proof. intros f H. unfold prune_imports. rewrite H. reflexivity. Qed.
Print Assumptions C12_imports_law_import_only.

(* No overlay: the package is the original one (up to the sync -> nosync substitution of the
   listed packages). *)
Theorem C12_merge_idempotent_on_empty_overlay : forall cb path origs,
  merge cb path [] origs = ([], [], map (augment_original_imports path) origs) /\
  (mem path nosync_pkgs = false -> merge cb path [] origs = ([], [], origs)).
Proof.
  intros. split.
  - reflexivity.
  - intros H. unfold merge. simpl. unfold augment_original_imports. rewrite H. rewrite map_id. reflexivity.
Qed.
Print Assumptions C12_merge_idempotent_on_empty_overlay.

(* "Initial values are untouched", for constants: every constant that is not overridden keeps
   its value (Go's iota / implicit-repetition rules: Model.C12_Merge.file_consts), for every
   overrides map and every file in which unparenthesised declarations hold one spec (as
   go/parser produces them).  The code blanks overridden names of a parenthesised const group
   instead of deleting their specs (fix 1220791); [C12_current_variant] ties the theorem to the
   tree: the variant is probed on the real augmentOriginalFile on every run.  (The earlier
   variant, refuted by `const (A = iota; B; C)` with B overridden, is kept in
   Proofs/C12_Consts.v: untouched_values_refuted / untouched_values_partial.) *)
Theorem C12_current_variant : const_group_blanking = true.
Proof. reflexivity. Qed.
Print Assumptions C12_current_variant.

Theorem C12_untouched_values : forall ov f,
  wf_paren f = true -> consts_preserved ov f (rewrite_original_file const_group_blanking ov f).
Proof. rewrite C12_current_variant. exact untouched_values_blanking. Qed.
Print Assumptions C12_untouched_values.

(* The directive regexp the model implements is the one in astutil.go. *)
Theorem C12_directive_regex_tied : directive_regex = "^\/(?:\/|\*)gopherjs:([\w-]+)".
Proof. reflexivity. Qed.
Print Assumptions C12_directive_regex_tied.

(* The prefix used for keep-original is the one doc/pargma.md documents (the check also reads the doc). *)
Theorem C12_keep_prefix_documented : keep_prefix = "_gopherjs_original_".
Proof. reflexivity. Qed.
Print Assumptions C12_keep_prefix_documented.

(* Non-vacuity: a pair exercising replace, keep-original, override-signature, purge with
   methods, a single-call spec and import pruning; hypotheses of the theorems hold on it. *)
Example C12_nonvacuous :
  let T0 := DGen (mkg TType false [] [SType (mkt "T" 0 (mkpart "M1" []) [] [])]) in
  let m0 := DFunc (mkf "M" (Some (mkrecv "r" true 0 "T")) None (mkpart "p2" []) None (Some (mkpart "2" ["alpha"])) []) in
  let f0 := DFunc (mkf "f" None None (mkpart "p3" []) None (Some (mkpart "3" [])) []) in
  let g0 := DFunc (mkf "g" None None (mkpart "p4" ["alpha"]) None (Some (mkpart "4" [])) []) in
  let v0 := DGen (mkg TVar false [] [SValue (mkv ["a"; "b"] false [VCall "beta" "F2"] [] [])]) in
  let imp := DGen (mkg TImport true [] [SImport (mki None "p/alpha" [] []); SImport (mki None "q/beta" [] [])]) in
  let orig := [imp; T0; m0; f0; g0; v0] in
  let ovl := [DGen (mkg TType false ["//gopherjs:purge"] [SType (mkt "T" 0 (mkpart "M9" []) [] [])]);
              DFunc (mkf "f" None None (mkpart "p5" []) None (Some (mkpart "5" [])) ["//gopherjs:keep-original"]);
              DFunc (mkf "g" None None (mkpart "p6" []) None None ["//gopherjs:override-signature"]);
              DGen (mkg TVar false [] [SValue (mkv ["a"] false [VLit 1] [] [])])] in
  forallb wf_file [ovl] = true /\ forallb wf_file [orig] = true /\
  let '(ov, ovs', origs') := merge const_group_blanking "x/p" [ovl] [orig] in
  map (fun e => fst e) ov = ["T"; "f"; "g"; "a"] /\
  map declared origs' =
    [[DIFunc (mkf "_gopherjs_original_f" None None (mkpart "p3" []) None (Some (mkpart "3" [])) []);
      DIFunc (mkf "g" None None (mkpart "p6" []) None (Some (mkpart "4" [])) []);
      DIValue TVar "b" false None]] /\
  map file_imports origs' = [[mki None "q/beta" [] []]].
Proof. vm_compute. repeat split; reflexivity. Qed.
