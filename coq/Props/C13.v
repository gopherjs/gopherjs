(* C13 — JavaScript-backed standard-library overrides equal the Go originals.
   Models: Model/C13_{Bits,Unicode,Nosync,Float,Atomic}.v.  Tie: harness/py/props/c13.py
   runs the GopherJS-compiled overrides, native Go and these models on the same inputs. *)
From Coq Require Import ZArith List Bool Lia.
From Verif Require Import Model.C13_Bits Model.C13_Unicode Model.C13_Nosync Model.C13_Float Model.C13_Atomic.
From Verif Require Import Proofs.C13_Bits Proofs.C13_Unicode Proofs.C13_UnicodeTable Proofs.C13_Nosync Proofs.C13_Float Proofs.C13_FloatCurrent Proofs.C13_Atomic.
From Verif Require Import Gen.C13_CaseRanges Gen.C13_Variants.
Import ListNotations.
Local Open Scope Z_scope.

(* The float half of the property as stated, kept visible.  It holds for the current code (math.Trunc = Math.trunc,
   math.Modf = (Trunc f, Copysign(f - Trunc f, f)); fixes 453201c, b662087) EXCEPT for the sign of a NaN operand of
   Signbit/Copysign, which is a recorded finding: C13_float_current_correct below proves everything else and
   C13_signbit_copysign_nan_sign_refuted exhibits the remaining class. *)
Definition C13_float_full_statement : Prop :=
  forall a b, 0 <= a -> 0 <= b ->
    js_trunc trunc_impl (decode b) = go_trunc (decode b) /\
    obs2 (js_modf_impl modf_impl trunc_impl (decode b)) = obs2 (go_modf (decode b)) /\
    js_signbit (decode b) = go_signbit (decode b) /\
    obs (js_copysign (decode a) (decode b)) = obs (go_copysign (decode a) (decode b)).

(* math/bits: all uint32 arguments, panics included *)
Theorem C13_mul32_correct : forall x y, u32 x -> u32 y -> mul32 x y = go_mul32 x y.
Proof. exact mul32_correct. Qed.
Print Assumptions C13_mul32_correct.

Theorem C13_add32_correct : forall x y c, u32 x -> u32 y -> (c = 0 \/ c = 1) -> add32 x y c = go_add32 x y c.
Proof. exact add32_correct. Qed.
Print Assumptions C13_add32_correct.

(* go_div32 = upstream: panics with the overflow error when y <= hi (y <> 0), the divide error when y = 0,
   else (z / y, z mod y) for z = hi * 2^32 + lo *)
Theorem C13_div32_correct : forall hi lo y, u32 hi -> u32 lo -> u32 y -> div32 hi lo y = go_div32 hi lo y.
Proof. exact div32_correct. Qed.
Print Assumptions C13_div32_correct.

Theorem C13_rem32_correct : forall hi lo y, u32 hi -> u32 lo -> u32 y -> rem32 hi lo y = go_rem32 hi lo y.
Proof. exact rem32_correct. Qed.
Print Assumptions C13_rem32_correct.

(* on EVERY table the override's search equals upstream's search *)
Theorem C13_to_js_eq_go : forall tab c r, to_js tab c r = to_go tab c r.
Proof. exact to_js_eq_go. Qed.
Print Assumptions C13_to_js_eq_go.

(* on sorted, non-overlapping tables it is the first-match scan (UpperLower rule and bad _case included) *)
Theorem C13_to_eq_linear : forall tab c r, table_sorted tab = true -> to_js tab c r = to_linear tab c r.
Proof. exact to_eq_linear. Qed.
Print Assumptions C13_to_eq_linear.

(* ... instantiated with the real unicode.CaseRanges regenerated from GOROOT on every run *)
Theorem C13_to_caseranges_correct : forall c r,
  to_js CaseRanges c r = to_go CaseRanges c r /\ to_js CaseRanges c r = to_linear CaseRanges c r.
Proof. intros. split; [apply to_js_eq_go | apply to_eq_linear; exact caseranges_sorted]. Qed.
Print Assumptions C13_to_caseranges_correct.

(* nosync against sync, on every history of fewer than 2^31 calls on a fresh object: each nosync call returns what
   single-goroutine sync returns, or panics exactly when sync blocks, panics or dies; the sync-side history ends at
   the first blocked/fatal call.  The bound is the int32 reader count. *)
Theorem C13_nosync_refines_sync : forall (k : Z) (h : list op),
  Z.of_nat (length h) < 2147483648 ->
  agree_prefix (srun (abs (ninit k)) h) (nrun (ninit k) h) = true.
Proof.
  intros k h Hlen. apply (refines_from h 0); [| lia].
  unfold ninit. destruct (k =? 0); [exact I|]. destruct (k =? 1); [cbn; lia|]. destruct (k =? 2); [exact I | reflexivity].
Qed.
Print Assumptions C13_nosync_refines_sync.

(* sync/atomic: the integer operations.  Add returns the new cell content, which is the unique value of the type
   congruent to cell + delta *)
Theorem C13_atomic_add_correct : forall t cell d, std t ->
  let '(new, ret) := add t cell d in
  ret = new /\ in_range t new /\ (new - (cell + d)) mod 2 ^ width t = 0.
Proof. intros t cell d Ht. split; [reflexivity | apply wrap_spec, std_width, Ht]. Qed.
Print Assumptions C13_atomic_add_correct.

Theorem C13_atomic_cas_correct : forall cell old new,
  (cell = old -> cas cell old new = (new, true)) /\ (cell <> old -> cas cell old new = (cell, false)).
Proof. intros. unfold cas. destruct (Z.eqb_spec cell old); split; intros; try reflexivity; contradiction. Qed.
Print Assumptions C13_atomic_cas_correct.

Theorem C13_atomic_swap_correct : forall cell new, swap cell new = (new, cell).
Proof. reflexivity. Qed.
Print Assumptions C13_atomic_swap_correct.

(* For EVERY 64-bit pattern b (and a), for the code as it is in /repo (trunc_impl / modf_impl are regenerated from
   math.go on every run; of the shapes before the fixes the statement is false: Proofs.C13_Float.trunc_int32_refuted,
   modf_via_mod_refuted):
   Trunc and Modf equal upstream (signed zeros, denormals, NaN, +-Inf, magnitudes >= 2^31 included; NaNs compared
   canonicalised), IsNaN/IsInf are the IEEE classification, and Signbit/Copysign equal upstream whenever the operand
   whose sign is read is not a NaN. *)
Theorem C13_float_current_correct : forall b, 0 <= b ->
  js_trunc trunc_impl (decode b) = go_trunc (decode b) /\
  obs2 (js_modf_impl modf_impl trunc_impl (decode b)) = obs2 (go_modf (decode b)) /\
  (js_isnan (decode b) = false -> js_signbit (decode b) = go_signbit (decode b)) /\
  (forall a, 0 <= a -> js_isnan (decode b) = false ->
     obs (js_copysign (decode a) (decode b)) = obs (go_copysign (decode a) (decode b))) /\
  js_isnan (decode b) = (match decode b with FNaN _ => true | _ => false end) /\
  (forall s, js_isinf (decode b) s = match decode b with FInf false => 0 <=? s | FInf true => s <=? 0 | _ => false end).
Proof. exact float_current_correct. Qed.
Print Assumptions C13_float_current_correct.

(* the same two facts over the abstract values (no bit patterns) *)
Theorem C13_trunc_correct : forall x, js_trunc TruncViaMathTrunc x = go_trunc x.
Proof. exact trunc_math_trunc_correct. Qed.
Print Assumptions C13_trunc_correct.

Theorem C13_modf_correct : forall x, wf x ->
  obs2 (js_modf_via_trunc TruncViaMathTrunc x) = obs2 (go_modf x).
Proof. exact modf_via_trunc_correct. Qed.
Print Assumptions C13_modf_correct.

(* Signbit/Copysign: `_partial` because of the one recorded class (findings math-signbit-negative-nan and
   math-copysign-nan-sign-operand: JavaScript cannot observe the sign of a NaN): hypothesis = that operand is not a NaN *)
Theorem C13_signbit_agrees_partial : forall x, wf x -> js_isnan x = false -> js_signbit x = go_signbit x.
Proof. exact signbit_agrees. Qed.
Print Assumptions C13_signbit_agrees_partial.

Theorem C13_copysign_agrees_partial : forall x y, wf x -> wf y -> js_isnan y = false ->
  obs (js_copysign x y) = obs (go_copysign x y).
Proof. exact copysign_agrees. Qed.
Print Assumptions C13_copysign_agrees_partial.

(* the negative NaN 0xFFF8000000000001: Signbit; Copysign(+0, negative NaN) *)
Theorem C13_signbit_copysign_nan_sign_refuted :
  js_signbit (decode 18444492273895866369) <> go_signbit (decode 18444492273895866369) /\
  obs (js_copysign (decode 0) (decode 18444492273895866369)) <> obs (go_copysign (decode 0) (decode 18444492273895866369)).
Proof. vm_compute. split; discriminate. Qed.
Print Assumptions C13_signbit_copysign_nan_sign_refuted.

Theorem C13_decode_wf : forall b, 0 <= b -> wf (decode b).
Proof. exact decode_wf. Qed.
Print Assumptions C13_decode_wf.

Example C13_nonvacuous :
  div32 1 0 3 = inl (1431655765, 1) /\ div32 5 0 3 = inr OverflowError /\ rem32 7 1 0 = inr DivideError /\
  mul32 4294967295 4294967295 = (4294967294, 1) /\ add32 4294967295 1 1 = (1, 1) /\
  table_sorted CaseRanges = true /\ to_js CaseRanges 0 97 = (65, true) /\ to_js CaseRanges 1 0x100 = (0x101, true) /\
  nrun (ninit 1) [RWRLock; RWLock; RWRUnlock; RWLock; RWRLock] = [NOk 0; NPanic 0; NOk 0; NOk 0; NPanic 0] /\
  srun (abs (ninit 1)) [RWRLock; RWLock; RWRUnlock] = [SRet 0; SBlock] /\
  wf (decode 4756540486875873280) /\
  obs (js_trunc trunc_impl (decode 4756540486875873280)) = 4756540486875873280 /\                 (* Trunc(1e10) = 1e10 *)
  obs (js_trunc trunc_impl (decode 9223372036854775809)) = 9223372036854775808 /\                 (* Trunc(-5e-324) = -0 *)
  obs2 (js_modf_impl modf_impl trunc_impl (decode 13826050856027422720)) = (9223372036854775808, 13826050856027422720). (* Modf(-0.5) = (-0, -0.5) *)
Proof. vm_compute. repeat split; reflexivity || discriminate. Qed.
