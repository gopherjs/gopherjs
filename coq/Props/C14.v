(* C14 — Strings are byte sequences with Go's UTF-8 behaviour.
   Model: Model/C14_Utf8.v (prelude.js $decodeRune/$encodeRune/$stringToRunes/$runesToString/
   $stringToBytes/$bytesToString/$copyString/$substring, the emitted range loop, s[i],
   string(int64)), Model/C14_Literal.v (utils.go encodeString + the JS reading of its escapes) and
   Model/C14_Ops.v (len, +, the six comparisons, s[i], s[i:j], the []byte/[]rune/string conversions,
   string(int64), map[string] access and the string switch AS EMITTED: a deep embedding of the emitted
   JavaScript templates with an evaluator over the helper models).
   Specification: Unicode Table 3-6/3-7, no bit operations (spec_decode, spec_encode).
   Tie: harness/py/props/c14.py runs the real prelude in node, the real encodeString and compiled
   programs (vs native Go) and the model on the same inputs; the templates are regenerated from the
   compiler's real output on every run (Gen/C14_Templates.v) and equal the hand-written T_* by
   conversion (C14_templates_as_emitted). *)
From Coq Require Import List NArith ZArith Bool Arith Lia.
From Verif Require Import Model.C14_Utf8 Model.C14_Literal.
From Verif Require Import Proofs.C14_Decode Proofs.C14_Encode Proofs.C14_Strings Proofs.C14_Literal.
From Verif Require Import Model.C14_Ops Gen.C14_Templates Proofs.C14_P4_Ops Proofs.C14_P4_Tie.
Import ListNotations.
Local Open Scope N_scope.

(* For EVERY list of code units (bytes or not) and EVERY position (inside or past the end) the
   bit-twiddling decoder returns what the table-driven specification returns: the scalar value
   and length of a well-formed sequence, (U+FFFD, 1) for every truncated, overlong, surrogate,
   > U+10FFFF or otherwise ill-formed one. *)
Theorem C14_decode_eq_spec : forall s pos, decode_rune s pos = spec_decode (skipn pos s).
Proof. exact decode_eq_spec. Qed.
Print Assumptions C14_decode_eq_spec.

Theorem C14_decode_rune_facts : forall s pos r w,
  (pos < length s)%nat -> decode_rune s pos = (r, w) ->
  (1 <= w <= 4)%nat /\ (pos + w <= length s)%nat /\ valid_scalar (Z.of_N r) = true /\
  ((r, w) = ERR \/ encode_rune (Z.of_N r) = firstn w (skipn pos s)).
Proof. exact decode_rune_facts. Qed.
Print Assumptions C14_decode_rune_facts.

Theorem C14_encode_eq_spec : forall r : Z, encode_rune r = spec_string_of_rune r.
Proof. exact encode_eq_spec. Qed.
Print Assumptions C14_encode_eq_spec.

Theorem C14_decode_encode : forall pre r rest, valid_scalar r = true ->
  decode_rune (pre ++ encode_rune r ++ rest) (length pre) = (Z.to_N r, length (encode_rune r)).
Proof. exact decode_encode. Qed.
Print Assumptions C14_decode_encode.

Theorem C14_encode_invalid : forall r, valid_scalar r = false -> encode_rune r = [0xEF; 0xBF; 0xBD].
Proof. exact encode_invalid. Qed.
Print Assumptions C14_encode_invalid.

Theorem C14_encode_rune_bytes : forall r, is_bytes (encode_rune r) = true.
Proof. exact encode_rune_bytes. Qed.
Print Assumptions C14_encode_rune_bytes.

Theorem C14_spec_runes_unfold : forall s, s <> [] ->
  spec_runes s = spec_decode s :: spec_runes (skipn (snd (spec_decode s)) s).
Proof. exact spec_runes_unfold. Qed.
Print Assumptions C14_spec_runes_unfold.

(* the emitted loop (the fuel = length is enough) visits exactly the rune/width sequence of the
   specification, each index being the sum of the widths before it ... *)
Theorem C14_range_loop_spec : forall s, range_loop s = with_offsets 0 (spec_runes s).
Proof. exact range_loop_spec. Qed.
Print Assumptions C14_range_loop_spec.

(* ... and the widths add up to the length: no byte skipped, none visited twice *)
Theorem C14_range_covers : forall s, sum_widths (spec_runes s) = length s.
Proof. exact range_covers. Qed.
Print Assumptions C14_range_covers.

(* []rune(string(rs)) = rs for valid code points *)
Theorem C14_runes_of_encoded : forall rs, Forall (fun r => valid_scalar r = true) rs ->
  string_to_runes (runes_to_string rs 0 (length rs)) = map Z.to_N rs.
Proof. exact runes_of_encoded. Qed.
Print Assumptions C14_runes_of_encoded.

(* string([]rune(s)) = s on well-formed UTF-8 *)
Theorem C14_runes_roundtrip : forall s, valid_utf8 s -> back s = s.
Proof.
  intros s (rs & Hv & ->). rewrite <- encoded_is_spec, <- r2s_all by assumption. unfold back.
  rewrite runes_of_encoded, of_N_to_N by assumption. reflexivity.
Qed.
Print Assumptions C14_runes_roundtrip.

(* well-formed (a concatenation of encodings of scalar values) = the decoder never reports an error
   = Go's utf8.ValidString *)
Theorem C14_valid_iff_no_error : forall s,
  valid_utf8 s <-> Forall (fun rw => rw <> ERR) (spec_runes s).
Proof. intros s. split; [apply valid_no_error|apply no_error_valid]. Qed.
Print Assumptions C14_valid_iff_no_error.

(* replacement law for arbitrary byte strings: string([]rune(s)) is well formed and has the runes of s *)
Theorem C14_back_valid : forall s, valid_utf8 (back s).
Proof.
  intros s. unfold back. rewrite r2s_all.
  exists (map Z.of_N (string_to_runes s)).
  split; [|apply encoded_is_spec]; apply string_to_runes_valid.
Qed.
Print Assumptions C14_back_valid.

Theorem C14_runes_of_back : forall s, string_to_runes (back s) = string_to_runes s.
Proof.
  intros s. unfold back. rewrite runes_of_encoded.
  - rewrite map_map. rewrite <- (map_id (string_to_runes s)) at 2. apply map_ext. intros. apply N2Z.id.
  - apply string_to_runes_valid.
Qed.
Print Assumptions C14_runes_of_back.

(* for every chunk size (the code uses 10000) the chunked conversion is the window of the array *)
Theorem C14_bytes_to_string_any_chunk : forall k arr off len, (0 < k)%nat ->
  bytes_to_string_k k arr off len = window arr off len.
Proof. exact bytes_to_string_k_spec. Qed.
Print Assumptions C14_bytes_to_string_any_chunk.

Theorem C14_bytes_roundtrip : forall b, is_bytes b = true ->
  string_to_bytes (bytes_to_string b 0 (length b)) = b.
Proof. intros b H. rewrite bytes_to_string_all. apply string_to_bytes_id, H. Qed.
Print Assumptions C14_bytes_roundtrip.

Theorem C14_string_bytes_roundtrip : forall s, is_bytes s = true ->
  bytes_to_string (string_to_bytes s) 0 (length (string_to_bytes s)) = s.
Proof. intros s H. rewrite bytes_to_string_all. apply string_to_bytes_id, H. Qed.
Print Assumptions C14_string_bytes_roundtrip.

Theorem C14_copy_string_spec : forall arr off len src,
  (off + len <= length arr)%nat -> is_bytes src = true ->
  let n := Nat.min (length src) len in
  fst (copy_string arr off len src) = n /\
  snd (copy_string arr off len src) = firstn off arr ++ firstn n src ++ skipn (off + n) arr /\
  length (snd (copy_string arr off len src)) = length arr.
Proof.
  intros arr off len src H Hb n. unfold copy_string. fold n. cbn [fst snd].
  assert (Hm : map (fun c => c mod 256) (firstn n src) = firstn n src).
  { apply (string_to_bytes_id (firstn n src)). apply (is_bytes_split n src Hb). }
  rewrite Hm. repeat split.
  rewrite !app_length, firstn_length, firstn_length, skipn_length. lia.
Qed.
Print Assumptions C14_copy_string_spec.

(* s[lo:hi]: defined exactly when 0 <= lo <= hi <= len(s), and then the right bytes *)
Theorem C14_substring_three_arg : forall s lo hi, substring s lo (Some hi) = spec_slice s lo hi.
Proof. exact substring_three_arg. Qed.
Print Assumptions C14_substring_three_arg.

(* s[lo:] is s[lo:len(s)] for EVERY lo (a low bound beyond the length panics) *)
Theorem C14_substring_low_only : forall s lo,
  substring s lo None = spec_slice s lo (Z.of_nat (length s)).
Proof. exact substring_low_only. Qed.
Print Assumptions C14_substring_low_only.

(* s[i] as emitted through rangeCheck: the byte when 0 <= i < len(s), the run-time panic otherwise —
   for every string and index; [c] = the index is a constant (then the type checker guarantees 0 <= i
   and only the upper bound is tested at run time) *)
Theorem C14_index_emitted_spec : forall c s i, (c = true -> 0 <= i)%Z ->
  index_emitted c s i = spec_index s i.
Proof. exact index_emitted_spec. Qed.
Print Assumptions C14_index_emitted_spec.

(* constant index into a constant string: range verified by the type checker, bare charCodeAt emitted *)
Theorem C14_index_unchecked_in_range : forall s i, (0 <= i < Z.of_nat (length s))%Z ->
  Some (index_unchecked s i) = spec_index s i.
Proof. exact index_unchecked_in_range. Qed.
Print Assumptions C14_index_unchecked_in_range.

(* for EVERY integer x (in particular every int64/uint64): the encoding of x when it is a valid code
   point, EF BF BD otherwise *)
Theorem C14_string_of_int64_spec : forall x, string_of_int64 x = spec_string_of_rune x.
Proof. exact string_of_int64_spec. Qed.
Print Assumptions C14_string_of_int64_spec.

(* every byte string survives compilation: the emitted literal reads back as exactly the
   constant and ends exactly at its closing quote, whatever follows it *)
Theorem C14_literal_roundtrip : forall s tl, is_bytes s = true ->
  js_unescape (encode_string s ++ tl) = Some (s, tl).
Proof. exact literal_roundtrip_ctx. Qed.
Print Assumptions C14_literal_roundtrip.

(* the emitted text is printable ASCII ... *)
Theorem C14_encode_string_safe : forall s, is_bytes s = true ->
  forallb printable (encode_string s) = true.
Proof. exact encode_string_safe. Qed.
Print Assumptions C14_encode_string_safe.

(* ... hence never contains the source-map hint byte 0x08 (assumption of C19) ... *)
Theorem C14_encode_string_no_magic : forall s, is_bytes s = true ->
  forallb (fun x => negb (x =? 8)) (encode_string s) = true.
Proof.
  intros s H. eapply forallb_impl; [|apply encode_string_safe, H].
  intros x. unfold printable. destruct (N.eqb_spec x 8) as [->|]; [discriminate|reflexivity].
Qed.
Print Assumptions C14_encode_string_no_magic.

(* ... nor a raw line terminator *)
Theorem C14_encode_string_no_newline : forall s, is_bytes s = true ->
  forallb (fun x => negb ((x =? 10) || (x =? 13))) (encode_string s) = true.
Proof.
  intros s H. eapply forallb_impl; [|apply encode_string_safe, H].
  intros x. unfold printable. destruct (N.eqb_spec x 10) as [->|]; [discriminate|].
  destruct (N.eqb_spec x 13) as [->|]; [discriminate|reflexivity].
Qed.
Print Assumptions C14_encode_string_no_newline.

(* a well-formed string with 1-, 2-, 3- and 4-byte sequences exists and round-trips; an ill-formed
   one (overlong C0 80, lone continuation, surrogate ED A0 80, F4 90 > U+10FFFF, truncated E2 82)
   decodes to U+FFFD per byte *)
Example C14_nonvacuous :
  valid_utf8 [0x41; 0xC3; 0xA9; 0xE2; 0x82; 0xAC; 0xF0; 0x9F; 0x98; 0x80] /\
  string_to_runes [0x41; 0xC3; 0xA9; 0xE2; 0x82; 0xAC; 0xF0; 0x9F; 0x98; 0x80] = [0x41; 0xE9; 0x20AC; 0x1F600] /\
  range_loop [0xC0; 0x80; 0xED; 0xA0; 0x80; 0xE2; 0x82] =
    [(0%nat, 0xFFFD, 1%nat); (1%nat, 0xFFFD, 1%nat); (2%nat, 0xFFFD, 1%nat); (3%nat, 0xFFFD, 1%nat); (4%nat, 0xFFFD, 1%nat); (5%nat, 0xFFFD, 1%nat); (6%nat, 0xFFFD, 1%nat)] /\
  decode_rune [0xF4; 0x90; 0x80; 0x80] 0 = ERR /\
  substring [97; 98; 99] 4 None = None /\ index_emitted false [97; 98; 99] 3 = None /\
  string_of_int64 4294967361 = [0xEF; 0xBF; 0xBD] /\
  is_bytes [0; 8; 10; 34; 92; 200] = true /\
  encode_string [0; 8; 10; 34; 92; 200] =
    [34; 92;120;48;48; 92;98; 92;110; 92;34; 92;92; 92;120;67;56; 34].
Proof.
  split; [|vm_compute; repeat split; reflexivity].
  exists [0x41; 0xE9; 0x20AC; 0x1F600]%Z. split; [|reflexivity].
  repeat constructor.
Qed.

(* every template regenerated from the real compiler's output of the table program equals the hand-written
   template the theorems on [run] are about (also for named string / byte-slice types) *)
Theorem C14_templates_as_emitted :
  t_Add = T_Add /\ t_Eql = T_Eql /\ t_Neq = T_Neq /\ t_Lss = T_Lss /\ t_Leq = T_Leq /\ t_Gtr = T_Gtr /\ t_Geq = T_Geq /\
  t_Len = T_Len /\ t_Idx = T_Idx /\ t_Sl2 = T_Sl2 /\ t_SlLo = T_SlLo /\ t_SlHi = T_SlHi /\
  t_ToBytes = T_ToBytes /\ t_FromBytes = T_FromBytes /\ t_ToRunes = T_ToRunes /\ t_FromRunes = T_FromRunes /\
  t_FromRune = T_FromRune /\ t_FromI64 = T_FromI64 /\ t_MapGet = T_MapGet /\
  t_MyAdd = T_Add /\ t_MyLss = T_Lss /\ t_MyEql = T_Eql /\ t_MyLen = T_Len /\ t_MyToBytes = T_ToBytes /\ t_MyFromBytes = T_FromBytes.
Proof. exact templates_as_emitted. Qed.
Print Assumptions C14_templates_as_emitted.

Theorem C14_key_prefix_as_in_prelude : forall s, STRING_KEY_PREFIX ++ s = key_for s.
Proof. exact key_prefix_as_in_prelude. Qed.
Print Assumptions C14_key_prefix_as_in_prelude.

Theorem C14_chunk_as_in_prelude : B2S_CHUNK = 10000 /\ N.to_nat B2S_CHUNK = CHUNK.
Proof. exact chunk_as_in_prelude. Qed.
Print Assumptions C14_chunk_as_in_prelude.

Theorem C14_switch_as_emitted : SWITCH_EMITTED = SWITCH_SOURCE.
Proof. exact switch_as_emitted. Qed.
Print Assumptions C14_switch_as_emitted.

(* len(s) = x.length = the number of bytes, for every string *)
Theorem C14_len_spec : forall s, run T_Len [VStr s] = Ok (VNum (Z.of_nat (length s))).
Proof. exact len_spec. Qed.
Print Assumptions C14_len_spec.

Theorem C14_concat_spec : forall a b,
  run T_Add [VStr a; VStr b] = Ok (VStr (a ++ b)) /\
  run T_Len [VStr (a ++ b)] = Ok (VNum (Z.of_nat (length a) + Z.of_nat (length b))) /\
  (is_bytes a = true -> is_bytes b = true -> is_bytes (a ++ b) = true).
Proof. exact concat_spec. Qed.
Print Assumptions C14_concat_spec.

Theorem C14_concat_assoc_unit : forall a b c,
  run T_Add [VStr (a ++ b); VStr c] = run T_Add [VStr a; VStr (b ++ c)] /\
  run T_Add [VStr []; VStr a] = Ok (VStr a) /\ run T_Add [VStr a; VStr []] = Ok (VStr a).
Proof. intros a b c. unfold run. cbn. rewrite app_assoc, app_nil_r. auto. Qed.
Print Assumptions C14_concat_assoc_unit.

(* ECMAScript's IsLessThan on two strings (prefix tests, then the first differing code unit) is Go's
   lexical byte-wise order, for EVERY pair of code-unit lists *)
Theorem C14_js_compare_is_lexicographic : forall a b, js_str_lt a b = true <-> bytes_lt a b.
Proof. exact js_str_lt_iff. Qed.
Print Assumptions C14_js_compare_is_lexicographic.

(* all six operators as emitted (=== , !(===), <, <=, >, >=) against the Go meaning, and each always
   evaluates to a boolean *)
Theorem C14_compare_iff_bytes_compare : forall a b,
  (holds T_Eql a b <-> a = b) /\ (holds T_Neq a b <-> a <> b) /\
  (holds T_Lss a b <-> bytes_lt a b) /\ (holds T_Leq a b <-> bytes_lt a b \/ a = b) /\
  (holds T_Gtr a b <-> bytes_lt b a) /\ (holds T_Geq a b <-> bytes_lt b a \/ b = a) /\
  (forall t, In t [T_Eql; T_Neq; T_Lss; T_Leq; T_Gtr; T_Geq] -> holds t a b \/ fails t a b).
Proof. exact compare_iff_bytes_compare. Qed.
Print Assumptions C14_compare_iff_bytes_compare.

Theorem C14_bytes_lt_strict_total_order :
  (forall a, ~ bytes_lt a a) /\ (forall a b c, bytes_lt a b -> bytes_lt b c -> bytes_lt a c) /\
  (forall a b, bytes_lt a b \/ a = b \/ bytes_lt b a) /\ (forall a b, bytes_lt a b -> ~ bytes_lt b a).
Proof. repeat split; [apply bytes_lt_irrefl|apply bytes_lt_trans|apply bytes_lt_trichotomy|apply bytes_lt_asym]. Qed.
Print Assumptions C14_bytes_lt_strict_total_order.

Theorem C14_index_template_spec : forall s i, run T_Idx [VStr s; VNum i] = idx_res (spec_index s i).
Proof. exact idx_spec. Qed.
Print Assumptions C14_index_template_spec.

Theorem C14_index_of_concat : forall a b i, (0 <= i)%Z ->
  run T_Idx [VStr (a ++ b); VNum i] =
  if (i <? Z.of_nat (length a))%Z then run T_Idx [VStr a; VNum i] else run T_Idx [VStr b; VNum (i - Z.of_nat (length a))].
Proof. exact idx_of_concat. Qed.
Print Assumptions C14_index_of_concat.

Theorem C14_slice_template_spec : forall s lo hi, run T_Sl2 [VStr s; VNum lo; VNum hi] = sub_res (spec_slice s lo hi).
Proof. exact sl2_spec. Qed.
Print Assumptions C14_slice_template_spec.

Theorem C14_slice_low_template_spec : forall s lo, run T_SlLo [VStr s; VNum lo] = sub_res (spec_slice s lo (Z.of_nat (length s))).
Proof. exact sllo_spec. Qed.
Print Assumptions C14_slice_low_template_spec.

Theorem C14_slice_high_template_spec : forall s hi, run T_SlHi [VStr s; VNum hi] = sub_res (spec_slice s 0 hi).
Proof. exact slhi_spec. Qed.
Print Assumptions C14_slice_high_template_spec.

(* (a + b)[:len(a)] = a, (a + b)[len(a):] = b, (a + b)[0:len(a)] = a *)
Theorem C14_slice_of_concat : forall a b,
  run T_SlHi [VStr (a ++ b); VNum (Z.of_nat (length a))] = Ok (VStr a) /\
  run T_SlLo [VStr (a ++ b); VNum (Z.of_nat (length a))] = Ok (VStr b) /\
  run T_Sl2 [VStr (a ++ b); VNum 0; VNum (Z.of_nat (length a))] = Ok (VStr a).
Proof.
  intros a b.
  assert (L : (Z.of_nat (length a) <= Z.of_nat (length (a ++ b)))%Z) by (rewrite app_length; lia).
  rewrite slhi_spec, sllo_spec, sl2_spec, !spec_slice_in by lia.
  rewrite Z.sub_0_r, !Nat2Z.id. cbn [Z.to_nat skipn sub_res].
  rewrite Base.Lists.firstn_app_exact, Base.Lists.skipn_app_exact. repeat split.
  rewrite app_length. replace (Z.to_nat (Z.of_nat (length a + length b) - Z.of_nat (length a))) with (length b) by lia.
  rewrite firstn_all. reflexivity.
Qed.
Print Assumptions C14_slice_of_concat.

(* s[:i] + s[i:j] + s[j:] = s with the right lengths, for every 0 <= i <= j <= len(s) *)
Theorem C14_concat_of_slices : forall s i j, (0 <= i <= j)%Z -> (j <= Z.of_nat (length s))%Z ->
  exists p m q,
    run T_SlHi [VStr s; VNum i] = Ok (VStr p) /\ run T_Sl2 [VStr s; VNum i; VNum j] = Ok (VStr m) /\
    run T_SlLo [VStr s; VNum j] = Ok (VStr q) /\
    p ++ m ++ q = s /\ Z.of_nat (length p) = i /\ Z.of_nat (length m) = (j - i)%Z.
Proof. exact concat_of_slices. Qed.
Print Assumptions C14_concat_of_slices.

(* slicing never looks beyond its bounds: a slice of the left part is not affected by what is appended *)
Theorem C14_slice_left_of_concat : forall a b lo hi, (0 <= lo <= hi)%Z -> (hi <= Z.of_nat (length a))%Z ->
  run T_Sl2 [VStr (a ++ b); VNum lo; VNum hi] = run T_Sl2 [VStr a; VNum lo; VNum hi].
Proof.
  intros a b lo hi H1 H2. rewrite !sl2_spec, !spec_slice_in by (try rewrite app_length; lia). do 2 f_equal.
  rewrite skipn_app, firstn_app, skipn_length.
  replace (Z.to_nat (hi - lo) - (length a - Z.to_nat lo))%nat with 0%nat by lia.
  replace (Z.to_nat lo - length a)%nat with 0%nat by lia. cbn [firstn skipn]. apply app_nil_r.
Qed.
Print Assumptions C14_slice_left_of_concat.

(* string(b) for EVERY byte slice (any backing array, offset, length, capacity; any number of 10000-element
   chunks) is exactly b's window, is a Go string of length len(b), and []byte of it is a fresh slice with
   offset 0 and length = capacity = len(b) holding those bytes *)
Theorem C14_bytes_conv_roundtrip : forall arr off len cap, is_bytes arr = true -> (off + len <= length arr)%nat ->
  run T_FromBytes [VBytes arr off len cap] = Ok (VStr (window arr off len)) /\
  is_bytes (window arr off len) = true /\
  run T_Len [VStr (window arr off len)] = Ok (VNum (Z.of_nat len)) /\
  run T_ToBytes [VStr (window arr off len)] = Ok (VBytes (window arr off len) 0 len len).
Proof.
  intros arr off len cap Hb Hl. unfold run. cbn [jeval T_FromBytes T_ToBytes T_Len X0 nth_error bind call1 new_slice fld_eval].
  rewrite bytes_to_string_spec, string_to_bytes_id by (apply is_bytes_window, Hb).
  rewrite window_length by exact Hl. repeat split. apply is_bytes_window, Hb.
Qed.
Print Assumptions C14_bytes_conv_roundtrip.

Theorem C14_string_conv_roundtrip : forall s, is_bytes s = true ->
  run T_ToBytes [VStr s] = Ok (VBytes s 0 (length s) (length s)) /\
  run T_FromBytes [VBytes s 0 (length s) (length s)] = Ok (VStr s).
Proof.
  intros s Hb. unfold run. cbn [jeval T_FromBytes T_ToBytes X0 nth_error bind call1 new_slice].
  rewrite string_to_bytes_id by exact Hb. split; [reflexivity|].
  apply f_equal, f_equal, bytes_to_string_all.
Qed.
Print Assumptions C14_string_conv_roundtrip.

Theorem C14_bytes_to_string_chunk_indep : forall k arr off len, (0 < k)%nat ->
  bytes_to_string_k k arr off len = bytes_to_string arr off len.
Proof. intros k arr off len Hk. rewrite bytes_to_string_k_spec, bytes_to_string_spec by exact Hk. reflexivity. Qed.
Print Assumptions C14_bytes_to_string_chunk_indep.

Theorem C14_runes_templates : forall s rs off len cap r hi lo,
  run T_ToRunes [VStr s] =
    Ok (VRunes (map Z.of_N (string_to_runes s)) 0 (length (string_to_runes s)) (length (string_to_runes s))) /\
  run T_FromRunes [VRunes rs off len cap] = Ok (VStr (runes_to_string rs off len)) /\
  run T_FromRune [VNum r] = Ok (VStr (spec_string_of_rune r)) /\
  run T_FromI64 [VI64 hi lo] = Ok (VStr (encode_rune (if (hi =? 0)%Z then lo else (-1)%Z))).
Proof. exact runes_templates. Qed.
Print Assumptions C14_runes_templates.

(* string(x) for EVERY integer x given as the (high, low) pair of the 64-bit representation *)
Theorem C14_string_of_int64_template : forall x,
  run T_FromI64 [VI64 (x / 4294967296) (x mod 4294967296)] = Ok (VStr (spec_string_of_rune x)).
Proof.
  (* the last conjunct of [runes_templates]; the six arguments given belong to the other three *)
  intros x. rewrite <- string_of_int64_spec. apply (runes_templates [] [] 0 0 0 0).
Qed.
Print Assumptions C14_string_of_int64_template.

(* every string-producing template gives a well-formed representation (all code units < 256) again *)
Theorem C14_results_wellformed :
  (forall a b, is_bytes a = true -> is_bytes b = true -> exists r, run T_Add [VStr a; VStr b] = Ok (VStr r) /\ is_bytes r = true) /\
  (forall s lo hi r, is_bytes s = true -> run T_Sl2 [VStr s; VNum lo; VNum hi] = Ok (VStr r) -> is_bytes r = true) /\
  (forall s lo r, is_bytes s = true -> run T_SlLo [VStr s; VNum lo] = Ok (VStr r) -> is_bytes r = true) /\
  (forall s hi r, is_bytes s = true -> run T_SlHi [VStr s; VNum hi] = Ok (VStr r) -> is_bytes r = true) /\
  (forall arr off len cap, is_bytes arr = true -> exists r, run T_FromBytes [VBytes arr off len cap] = Ok (VStr r) /\ is_bytes r = true) /\
  (forall rs off len cap, exists r, run T_FromRunes [VRunes rs off len cap] = Ok (VStr r) /\ is_bytes r = true) /\
  (forall x, exists r, run T_FromRune [VNum x] = Ok (VStr r) /\ is_bytes r = true) /\
  (forall hi lo, exists r, run T_FromI64 [VI64 hi lo] = Ok (VStr r) /\ is_bytes r = true) /\
  (forall s, exists arr n, run T_ToBytes [VStr s] = Ok (VBytes arr 0 n n) /\ is_bytes arr = true /\ n = length s /\ length arr = n) /\
  (forall s, is_bytes s = true -> is_bytes (key_for s) = true).
Proof. exact results_wellformed. Qed.
Print Assumptions C14_results_wellformed.

Theorem C14_key_injective : forall a b, key_for a = key_for b -> a = b.
Proof. exact key_injective. Qed.
Print Assumptions C14_key_injective.

(* after m[k] = v, m[k'] is (v, true) exactly when k' has the bytes of k, and is unchanged otherwise, whatever
   the bytes are ('$', NUL, invalid UTF-8): distinct Go strings never share a Map key, equal ones always do *)
Theorem C14_map_get_set : forall m k v k',
  go_map_get2 (go_map_set m k v) k' = if units_eqb k k' then (v, true) else go_map_get2 m k'.
Proof.
  intros m k v k'. unfold go_map_get2, go_map_set. rewrite map_get_set, key_eqb. destruct (units_eqb k k'); reflexivity.
Qed.
Print Assumptions C14_map_get_set.

Theorem C14_units_eqb_eq : forall a b, units_eqb a b = true <-> a = b.
Proof. exact units_eqb_eq. Qed.
Print Assumptions C14_units_eqb_eq.

(* the emitted m[k] expression reads the same value *)
Theorem C14_map_get_template : forall m k, run T_MapGet [VMap m; VStr k] = Ok (VNum (fst (go_map_get2 m k))).
Proof.
  intros m k. unfold run, go_map_get2. cbn [jeval T_MapGet X0 X1 nth_error bind call1 call2].
  destruct (map_get m (key_for k)) as [[k0 v]|]; reflexivity.
Qed.
Print Assumptions C14_map_get_template.

(* the emitted if / else-if chain enters the FIRST clause that lists the tag's bytes ... *)
Theorem C14_switch_first_match : forall tag cls i j, switch_emitted tag cls i = Some j ->
  exists n cl, j = (i + n)%nat /\ nth_error cls n = Some cl /\ In tag cl /\
               forall n' cl', (n' < n)%nat -> nth_error cls n' = Some cl' -> ~ In tag cl'.
Proof. exact switch_some. Qed.
Print Assumptions C14_switch_first_match.

(* ... and falls through to the default only when no clause lists them *)
Theorem C14_switch_no_match : forall tag cls i, switch_emitted tag cls i = None -> forall cl, In cl cls -> ~ In tag cl.
Proof. exact switch_none. Qed.
Print Assumptions C14_switch_no_match.

(* non-vacuity: invalid UTF-8, NUL and '$' in operands; a prefix is smaller; FF sorts after every ASCII byte
   (UTF-16 code-unit order = byte order); the key of "$a" differs from the key of "a" *)
Example C14_p4_nonvacuous :
  holds T_Lss [0x61] [0x61; 0] /\ holds T_Lss [0x7A; 0x7A] [0xFF] /\ fails T_Lss [0xC3; 0xA9] [0xC3; 0xA9] /\
  holds T_Geq [0xFF] [0xC3; 0xA9] /\ holds T_Neq [0x24; 0x61] [0x61] /\
  run T_Idx [VStr [0x61; 0xFF]; VNum 2] = Panic MSG_INDEX /\ run T_Idx [VStr [0x61; 0xFF]; VNum 1] = Ok (VNum 255) /\
  run T_Sl2 [VStr [0x61; 0xFF; 0x62]; VNum 1; VNum 4] = Panic MSG_SLICE /\
  run T_FromBytes [VBytes [1; 2; 3; 4; 5] 1 3 4] = Ok (VStr [2; 3; 4]) /\
  go_map_get2 (go_map_set (go_map_set [] [0x61] 1) [0x24; 0x61] 2) [0x61] = (1%Z, true) /\
  switch_emitted [0x62; 0xFF] SWITCH_EMITTED 0 = Some 1%nat /\ switch_emitted [0x7A] SWITCH_EMITTED 0 = None.
Proof. vm_compute. repeat split; reflexivity. Qed.
