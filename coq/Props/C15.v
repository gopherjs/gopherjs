(* C15 — Maps use Go key equality for every comparable key type.
   This file holds ONLY the property theorems (each closed by a lemma of Proofs/ or a few lines from one), their
   Print Assumptions and non-vacuity examples.
   Model: Model/C15_Keys.v (the keyFor family of compiler/prelude/types.js, $floatKey of numeric.js),
          Model/C15_JsMap.v (JS Map, the emitted map operations, the emitted range loop) — the code AFTER
          the fix commits 861b016 (interface keys by type id), cb04f65 (NaN in complex / float-array keys,
          zero-length arrays of unhashable elements), 1eafc63 (blank struct fields).
   Tie: harness/py/props/c15.py runs the real prelude type constructors / keyFor functions with the
   EMITTED map operations, and compiled programs vs native Go, against the model on every run; the
   variant of $ifaceKeyFor is probed on the real runtime (Gen.C15_Tables.c15_iface_by_id).

   All theorems are full strength for the prelude code as it is now (after 0da9cd0: $ifaceKeyFor throws for
   an uncomparable dynamic type).  One assumption of the model is NOT true of every compiled program: the
   type objects' `comparable` flags are taken to be exact.  A composite type ([n]B, struct{x B}) built over a
   named struct type before that type's init() has run keeps a stale `comparable = true` and does not panic
   as a key (known finding stale-comparable-flag-no-panic, probed by a compiled program; the node driver
   initialises types in dependency order, where the flags are exact). *)
From Coq Require Import List ZArith NArith Bool String.
From Verif Require Import Model.C15_Keys Model.C15_JsMap Proofs.C15_Escape Proofs.C15_Keys Proofs.C15_More
                          Proofs.C15_Map Proofs.C15_Range Proofs.C15_RangeOnce Proofs.C15_Tables Gen.C15_Tables.
Import ListNotations.

(* Escape/join injectivity, in general over lists of strings (fixed arity) *)
Theorem C15_join_escape_injective : forall l l' : list str,
  List.length l = List.length l' -> join (map escape l) = join (map escape l') -> l = l'.
Proof. exact join_escape_inj. Qed.
Print Assumptions C15_join_escape_injective.

Theorem C15_decimal_injective : forall a b, dec a = dec b -> a = b.
Proof. exact dec_inj. Qed.
Print Assumptions C15_decimal_injective.

(* key_iff_eq, full strength: for EVERY key type (bool, ints, floats incl. NaN and +-0, 64-bit,
   complex incl. NaN parts, strings, pointers/channels by identity, interfaces by dynamic type and
   value, arrays, structs incl. blank fields, nested arbitrarily) and any two well-typed keys of it whose
   keys were computed at ANY two moments of a run: the JS Map identifies them iff Go's == holds.
   Hypotheses: the trusted number printer (4 facts about V8's Number::toString), and that the
   universe D holds one record per type id (true by construction of $typeIDCounter). *)
Theorem C15_key_iff_eq : forall (nts : Z -> str),
  (forall x y, is_zero_bits x = false -> is_zero_bits y = false -> nts x = nts y -> x = y) ->
  (forall x, is_zero_bits x = false -> nts x <> of_string "0") ->
  (forall x, nts x <> of_string "NaN") ->
  (forall x, plain (nts x)) ->
  forall t a b D s0 ka s1 s2 kb s3,
    (forall d d', In d D -> In d' D -> d_id d = d_id d' -> d = d') -> incl (dyns a) D -> incl (dyns b) D ->
    wt t a = true -> wt t b = true ->
    wf s0 -> key_for nts true t a s0 = (Some ka, s1) -> sle s1 s2 -> wf s2 -> key_for nts true t b s2 = (Some kb, s3) ->
    (jskey_eqb ka kb = true <-> go_eq t a b = true).
Proof.
  intros nts N1 N2 N3 N4 t a b D s0 ka s1 s2 kb s3 U.
  exact (key_iff_eq nts true N1 N2 N3 N4 t a b D s0 ka s1 s2 kb s3 (univ_ok_by_id D U)).
Qed.
Print Assumptions C15_key_iff_eq.

(* the theorem above speaks about the variant of $ifaceKeyFor that the real runtime has on this run *)
Theorem C15_runtime_keys_interfaces_by_type_id : c15_iface_by_id = true.
Proof. exact eq_refl. Qed.
Print Assumptions C15_runtime_keys_interfaces_by_type_id.

(* NaN keys are never equal, whenever the two keys are computed (instance, also inside complex/arrays by key_iff_eq) *)
Theorem C15_nan_never_equal : forall nts by_id s ka s1 s2 kb s3,
  key_for nts by_id TFloat (VFloat FNaN) s = (Some ka, s1) -> sle s1 s2 ->
  key_for nts by_id TFloat (VFloat FNaN) s2 = (Some kb, s3) -> jskey_eqb ka kb = false.
Proof.
  intros nts by_id s ka s1 s2 kb s3 H1 [L _] H2. rewrite K_float, float_key_nan in H1, H2.
  injection H1 as <- <-. injection H2 as <- <-.
  apply not_true_is_false. intros E. apply str_eqb_eq in E. exact (nan_key_fresh nts s s2 L E).
Qed.
Print Assumptions C15_nan_never_equal.

(* map_refines: EVERY history of set / get / comma-ok / delete / len / literal / nil-assignment run
   with the emitted operations on the JS representation shows, operation by operation, the same
   observation and the same contents as the abstract Go map (association by ==, nil map, panics on
   unhashable keys and on a store into a nil map).  Keys: any well-typed values whose dynamic types are in D. *)
Theorem C15_map_refines :
  forall (nts : Z -> str) (by_id : bool),
    (forall x y, is_zero_bits x = false -> is_zero_bits y = false -> nts x = nts y -> x = y) ->
    (forall x, is_zero_bits x = false -> nts x <> of_string "0") ->
    (forall x, nts x <> of_string "NaN") ->
    (forall x, plain (nts x)) ->
  forall t, comparable t = true -> forall D, univ_ok by_id D ->
  forall ops m am s,
    wf s -> Rm nts by_id t D s m am -> Forall (op_ok t D) ops ->
    map js_view (run nts by_id t ops m s) = a_run t ops am.
Proof. exact map_refines. Qed.
Print Assumptions C15_map_refines.

(* nil map: reads as empty, len 0, delete is a no-op, a store panics *)
Theorem C15_nil_map :
  forall (nts : Z -> str) (by_id : bool) t, comparable t = true -> forall D k v s,
    kok t D k -> wf s -> hashable t k = true ->
    fst (fst (step nts by_id t (OGet k) None s)) = RVal 0 /\
    fst (fst (step nts by_id t (OGet2 k) None s)) = RVal2 0 false /\
    fst (fst (step nts by_id t (ODel k) None s)) = RUnit /\ snd (fst (step nts by_id t (ODel k) None s)) = None /\
    fst (fst (step nts by_id t OLen None s)) = RLen 0 /\
    fst (fst (step nts by_id t (OSet k v) None s)) = RNilMapPanic /\ snd (fst (step nts by_id t (OSet k v) None s)) = None.
Proof. intros nts by_id t C D k v s [W _] _. exact (nil_map nts by_id t C k v s W). Qed.
Print Assumptions C15_nil_map.

(* a comparable static key type and a hashable value always have a key (no spurious throw) *)
Theorem C15_hashable_has_key : forall nts by_id x ty s,
  wt ty x = true -> comparable ty = true -> hashable ty x = true ->
  exists k s', key_for nts by_id ty x s = (Some k, s').
Proof. exact hashable_has_key. Qed.
Print Assumptions C15_hashable_has_key.

(* unhashable dynamic key types throw: for every comparable static key type (the only ones the type
   checker admits) and every key Go refuses to hash — slices, maps, funcs, arrays of any length and structs
   containing them, also only in blank fields, at any depth, behind interfaces *)
Theorem C15_unhashable_throws : forall nts by_id x t s,
  wt t x = true -> comparable t = true -> hashable t x = false -> fst (key_for nts by_id t x s) = None.
Proof. exact unhashable_throws. Qed.
Print Assumptions C15_unhashable_throws.

Theorem C15_blank_unhashable_throws :
  wt TIface (VDyn blank_slice (VStruct [VInt 1; VOpaque])) = true /\
  hashable TIface (VDyn blank_slice (VStruct [VInt 1; VOpaque])) = false /\
  fst (key_for nts_dummy true TIface (VDyn blank_slice (VStruct [VInt 1; VOpaque])) st0) = None.
Proof. repeat split; reflexivity. Qed.
Print Assumptions C15_blank_unhashable_throws.

Theorem C15_zero_length_array_throws : forall nts by_id n l s,
  key_for nts by_id (TArray n TNoKey) (VArr l) s = (None, s).
Proof. reflexivity. Qed.
Print Assumptions C15_zero_length_array_throws.

(* Range over a map whose body mutates it, for EVERY body script (any function from
   the loop's own state and the entry handed over to a list of Map mutations):
     - every entry handed to the body is in the map at that moment with its current value, so an
       entry deleted before the iterator reaches it is never visited;
     - the map after the loop is the initial map with exactly the body's mutations;
     - an entry present at loop start whose key the body never deletes is visited EXACTLY ONCE.
   [nodup]: live keys pairwise distinct - holds for every Map reachable from `new Map()`
   (C15_reachable_map_nodup); [keq] is SameValueZero on the keys that occur (C15_jskey_eqb_spec). *)
Theorem C15_range_law :
  forall (K E St : Type) (keq : K -> K -> bool), (forall a b, keq a b = true <-> a = b) ->
  forall (body : St -> K -> E -> St * list (mop K E)) m s ev m' s',
    nodup K E m -> range_over keq body m s = (ev, m', s') ->
    trace_ok K E keq m ev /\ m' = replay K E keq m ev /\
    forall k, m_get keq m k <> None -> (forall k', In (EMut (MDel k')) ev -> keq k' k = false) ->
              count_k K E keq k ev = 1%nat.
Proof.
  intros K E St keq Hk body m s ev m' s' N H.
  destruct (range_over_law K E St keq body m s ev m' s' H) as (A & B & _).
  exact (conj A (conj B (fun k => range_visits_once K E St keq Hk body k m s ev m' s' N H))).
Qed.
Print Assumptions C15_range_law.

Theorem C15_reachable_map_nodup :
  forall (K E : Type) (keq : K -> K -> bool), (forall a b, keq a b = true <-> a = b) ->
  forall ops : list (mop K E), nodup K E (fold_left (apply_mop keq) ops []).
Proof. intros K E keq Hk ops. exact (nodup_fold K E keq Hk ops [] (nodup_nil K E)). Qed.
Print Assumptions C15_reachable_map_nodup.

Theorem C15_jskey_eqb_spec : forall a b, jskey_eqb a b = true <-> a = b.
Proof. exact jskey_eqb_spec. Qed.
Print Assumptions C15_jskey_eqb_spec.

(* the model's branches are those of the source as found on this run *)
Theorem C15_tables_tied :
  c15_keyfor_class = expected_keyfor_class /\ c15_native_array_kinds = expected_native /\
  c15_floatkey_as_modelled = true /\ c15_idkey_as_modelled = true /\ c15_ifacekey_as_modelled = true.
Proof. exact tables_tied. Qed.
Print Assumptions C15_tables_tied.

(* non-vacuity: well-typed hashable keys and the keys computed for them exist, and both answers occur, on
   adversarial pairs: struct{a,b string} keys ("a$","b") and ("a","$b") through an interface; a complex key
   with a NaN part against itself; struct keys that differ only in a blank field.  None of them makes
   key_for call the number printer: nts_dummy is constant and does NOT satisfy the printer hypotheses. *)
Definition ex_t : dyn := {| d_id := 3; d_str := of_string "struct { a string; b string }";
                            d_shape := TStruct [(false, TString); (false, TString)] |}.
Definition ex_a := VDyn ex_t (VStruct [VString [97; 36]%N; VString [98]%N]).
Definition ex_b := VDyn ex_t (VStruct [VString [97]%N; VString [36; 98]%N]).
Example C15_nonvacuous :
  wt TIface ex_a = true /\ wt TIface ex_b = true /\ hashable TIface ex_a = true /\ wf st0 /\
  (exists ka s1 kb s3, key_for nts_dummy true TIface ex_a st0 = (Some ka, s1) /\
                       key_for nts_dummy true TIface ex_b s1 = (Some kb, s3) /\
                       jskey_eqb ka kb = false /\ go_eq TIface ex_a ex_b = false) /\
  (exists ka s1 kb s3, key_for nts_dummy true TComplex (VComplex FNaN (FNum 0)) st0 = (Some ka, s1) /\
                       key_for nts_dummy true TComplex (VComplex FNaN (FNum 0)) s1 = (Some kb, s3) /\
                       jskey_eqb ka kb = false /\ go_eq TComplex (VComplex FNaN (FNum 0)) (VComplex FNaN (FNum 0)) = false) /\
  (let t := TStruct [(false, TInt); (true, TInt)] in
   exists ka s1 kb s3, key_for nts_dummy true t (VStruct [VInt 1; VInt 2]) st0 = (Some ka, s1) /\
                       key_for nts_dummy true t (VStruct [VInt 1; VInt 3]) s1 = (Some kb, s3) /\
                       jskey_eqb ka kb = true /\ go_eq t (VStruct [VInt 1; VInt 2]) (VStruct [VInt 1; VInt 3]) = true).
Proof.
  split; [reflexivity|]. split; [reflexivity|]. split; [reflexivity|]. split; [cbn; split; intros; discriminate|].
  split; [|split]; do 4 eexists; repeat split; vm_compute; reflexivity.
Qed.

(* non-vacuity of map_refines' hypotheses: an empty non-nil map, the adversarial pair above as keys *)
Example C15_map_refines_nonvacuous :
  comparable TIface = true /\ Rm nts_dummy true TIface [ex_t] st0 (Some []) (Some []) /\
  Forall (op_ok TIface [ex_t]) [OSet ex_a 1; OSet ex_b 2; OLen; OGet2 ex_a; ODel ex_a; OLen] /\
  map js_view (run nts_dummy true TIface [OSet ex_a 1; OSet ex_b 2; OLen; OGet2 ex_a; ODel ex_a; OLen] (Some []) st0) =
  [(RUnit, [(ex_a, 1%Z)]); (RUnit, [(ex_a, 1%Z); (ex_b, 2%Z)]); (RLen 2, [(ex_a, 1%Z); (ex_b, 2%Z)]);
   (RVal2 1 true, [(ex_a, 1%Z); (ex_b, 2%Z)]); (RUnit, [(ex_b, 2%Z)]); (RLen 1, [(ex_b, 2%Z)])].
Proof.
  split; [reflexivity|]. split; [constructor|]. split; [|vm_compute; reflexivity].
  assert (Ka : kok TIface [ex_t] ex_a).
  { split; [reflexivity|]. intros d [<-|[]]. now left. }
  assert (Kb : kok TIface [ex_t] ex_b).
  { split; [reflexivity|]. intros d [<-|[]]. now left. }
  repeat (apply Forall_cons; [first [exact Ka | exact Kb | exact I]|]). apply Forall_nil.
Qed.

(* non-vacuity of C15_range_law: map {1,2,3}; visiting 1 deletes 1 and 3 and re-inserts 1; the iterator then
   visits 2 and the re-created 1 (a NEW entry, Go allows producing it); 2 is present throughout: once *)
Example C15_range_law_nonvacuous :
  let m := fold_left (apply_mop Nat.eqb) [MSet 1 10; MSet 2 20; MSet 3 30]%nat ([] : jsmap nat nat) in
  let body := fun (s : unit) (k v : nat) => (s, if Nat.eqb k 1 then [MDel 1; MDel 3; MSet 1 11]%nat else []) in
  nodup nat nat m /\
  fst (fst (range_over Nat.eqb body m tt)) =
    [EVisit 1 10; EMut (MDel 1); EMut (MDel 3); EMut (MSet 1 11); EVisit 2 20; EVisit 1 11;
     EMut (MDel 1); EMut (MDel 3); EMut (MSet 1 11)]%nat /\
  count_k nat nat Nat.eqb 2%nat (fst (fst (range_over Nat.eqb body m tt))) = 1%nat.
Proof.
  cbn zeta. split; [|split; vm_compute; reflexivity].
  apply (C15_reachable_map_nodup nat nat Nat.eqb Nat.eqb_eq).
Qed.
