(* C16 - Minification preserves behaviour.
   This file holds ONLY the property theorems (each closed by a lemma of Proofs/ or a few lines from one), their
   Print Assumptions, and non-vacuity examples.
   Models: Model/C16_RemoveWs.v (removeWhitespace), Model/C16_Lex.v (lexical structure and the
   side condition well_lexed), Model/C16_Alloc.v (newVariable / nestedFunctionContext / newRootCtx).
   Generated table: Gen/C16_Keywords.v (reservedKeywords of compiler/compiler.go, regenerated on
   every run).  Tie: harness/py/props/c16.py runs the real removeWhitespace / Decl.minify /
   newVariable and the models on the same inputs, and checks well_lexed on every real Decl blob.

   Full property (informal): for every Go program the -m build behaves like
   the plain build.  What is PROVED here is the part that is about the two minification
   mechanisms themselves; that the translator only emits blobs satisfying [well_lexed], and the
   behavioural equality of whole programs, are checked on generated programs (not proved):
   hence the suffix _partial on the token theorem. *)
From Coq Require Import List NArith Arith Bool.
From Verif Require Import Base.Lists Model.C16_RemoveWs Model.C16_Lex Model.C16_Alloc Gen.C16_Keywords.
From Verif Require Import Proofs.C16_RemoveWs Proofs.C16_Alloc.
Import ListNotations.
Local Open Scope N_scope.

(* The statement one would like without any hypothesis; it is false (see C16_hypothesis_needed). *)
Definition C16_tokens_unconditional : Prop :=
  forall b o, remove_ws b = Some o -> tokenize o = tokenize b.

(* Whitespace/comment removal keeps the token stream (no two tokens merge, nothing but
   whitespace and comments disappears, strings are tokens), and does not panic, for EVERY blob
   satisfying the decidable side condition [well_lexed].
   Missing for the full property: a proof that the code generator emits only such blobs
   (checked on every Decl blob of every generated program at run time). *)
Theorem C16_remove_ws_tokens_partial : forall b, well_lexed b = true ->
  exists o ts, remove_ws b = Some o /\ tokenize o = Some ts /\ tokenize b = Some ts.
Proof. exact remove_ws_tokens. Qed.
Print Assumptions C16_remove_ws_tokens_partial.

Theorem C16_remove_ws_strings_intact : forall b, well_lexed b = true ->
  exists o ss, remove_ws b = Some o /\ strings_in o = Some ss /\ strings_in b = Some ss.
Proof.
  intros b H. destruct (remove_ws_ok b H) as (es & es' & Es & Est & Ho & Es' & _).
  exists (render es'), (strings_of es). unfold strings_in. rewrite Es, Es', (proj1 (strip_views _ _ _ Est)). auto.
Qed.
Print Assumptions C16_remove_ws_strings_intact.

(* the hint sequence and the element (character or string) each hint precedes are unchanged *)
Theorem C16_remove_ws_hints_intact : forall b, well_lexed b = true ->
  exists o hv, remove_ws b = Some o /\ hints_in o = Some hv /\ hints_in b = Some hv.
Proof.
  intros b H. destruct (remove_ws_ok b H) as (es & es' & Es & Est & Ho & Es' & _).
  exists (render es'), (hint_view es). unfold hints_in. rewrite Es, Es', (proj1 (proj2 (strip_views _ _ _ Est))). auto.
Qed.
Print Assumptions C16_remove_ws_hints_intact.

(* ... and for every blob of the lexicon, whatever its spacing (no side condition): the result is
   the rendering of an element list with the same string literals and the same hints *)
Theorem C16_remove_ws_strings_hints_any_spacing : forall b es o,
  scan b = Some es -> remove_ws b = Some o ->
  exists es', o = render es' /\ strings_of es' = strings_of es /\ hint_view es' = hint_view es.
Proof. exact remove_ws_views. Qed.
Print Assumptions C16_remove_ws_strings_hints_any_spacing.

(* the scanner used in all statements is sound and canonical: the elements render back to the
   blob and are in the normal form [canon]; conversely a canonical list is what its rendering scans
   to ([scan_iff] in Proofs/C16_RemoveWs.v) *)
Theorem C16_scan_sound : forall b es, scan b = Some es -> render es = b /\ canon es.
Proof. exact (fun b es => proj1 (scan_iff b es)). Qed.
Print Assumptions C16_scan_sound.

(* Names.  Full statement: after EVERY history of context creation / allocation / pointer-name
   reuse, in both modes, the names visible in any live context are pairwise distinct. *)
Definition C16_alloc_distinct_full : Prop :=
  forall minify kws ops outs fin,
  (minify = false -> Forall op_clean ops) ->
  run_root minify kws ops = Some (outs, fin) ->
  Forall (fun f => NoDup (fseen f)) fin.

(* Finding (known_findings.d/C16.txt, key minified-generic-instance-reuses-varptr-name): FALSE.
   varPtrName hands the pointer name cached by the first instantiation of a generic function to the
   second one without recording it in allVars (OReuse); under minification the next local of that
   instance gets the same letter.  Witness: g[int], g[string] with  x := n; use(&x); y := 3; use(&x). *)
Theorem C16_alloc_distinct_refuted : ~ C16_alloc_distinct_full.
Proof.
  intros H.
  assert (R : exists outs fin,
            run_root true reserved_keywords
              [OEnter [103]; OAlloc [120] false; OAlloc [120;36;50;52;112;116;114] false; OAlloc [121] false; OLeave;
               OEnter [103]; OAlloc [120] false; OReuse [98]; OAlloc [121] false] = Some (outs, fin) /\
            forallb (fun f => nodupb name_eqb (fseen f)) fin = false) by (vm_compute; eexists; eexists; split; reflexivity).
  destruct R as (outs & fin & R & Hd).
  specialize (H true _ _ _ _ (fun E => ltac:(discriminate E)) R).
  assert (Hb : forallb (fun f => nodupb name_eqb (fseen f)) fin = true).
  { apply forallb_forall. intros f Hf. rewrite Forall_forall in H. apply (nodupb_NoDup name_eqb name_eqb_true). apply H. exact Hf. }
  congruence.
Qed.
Print Assumptions C16_alloc_distinct_refuted.

(* The positive theorem, excluding exactly that class (no OReuse in the history; non-minified:
   base names must not end in $digits) *)
Theorem C16_alloc_distinct : forall minify kws ops outs fin,
  (minify = false -> Forall op_clean ops) -> Forall op_no_reuse ops ->
  run_root minify kws ops = Some (outs, fin) ->
  Forall (fun f => NoDup (fseen f)) fin.
Proof.
  intros minify kws ops outs fin Hc Hnr H. apply (run_wf _ _ _ _ _ (root_wf kws) Hc Hnr), wf_stack_frames in H.
  apply (Forall_impl _ (fun f Hf => proj2 Hf) H).
Qed.
Print Assumptions C16_alloc_distinct.

(* ... and the next name handed out is new in its context (and in every enclosing context when it
   is a package-level name; in fact also when it is not, the counts growing towards the innermost
   context: [alloc_step] in Proofs/C16_Alloc.v, so the premise [pkg = true] is not needed) *)
Theorem C16_alloc_fresh : forall minify kws ops outs c rest base pkg v st',
  (minify = false -> Forall op_clean ops) -> Forall op_no_reuse ops -> (minify = false -> cleanb base = true) ->
  run_root minify kws ops = Some (outs, c :: rest) ->
  alloc minify base pkg (c :: rest) = Some (v, st') ->
  ~ In v (fseen c) /\ (pkg = true -> Forall (fun f => ~ In v (fseen f)) rest).
Proof.
  intros minify kws ops outs c rest base pkg v st' Hc Hnr Hb Hrun Ha.
  assert (Hwf : wf_stack (c :: rest)) by (eapply run_wf; [apply root_wf | eassumption | eassumption | eassumption]).
  destruct (alloc_step _ _ _ _ _ _ _ Hwf Hb Ha) as [_ Hfr]. inversion Hfr; auto.
Qed.
Print Assumptions C16_alloc_fresh.

(* No allocation ever returns an ECMAScript reserved word.  [js_reserved] is written from the
   standard; [reserved_keywords] is regenerated from compiler.go: dropping a reserved word from
   the compiler's table makes the [vm_compute] below fail. *)
Lemma C16_table_has_no_dollar : forallb no_dollar reserved_keywords = true.
Proof. vm_compute. reflexivity. Qed.
Lemma C16_table_covers_js_reserved :
  forallb (fun k => existsb (name_eqb k) reserved_keywords) js_reserved = true.
Proof. vm_compute. reflexivity. Qed.

Theorem C16_alloc_not_reserved : forall minify ops outs fin,
  Forall (op_reuse_not_in reserved_keywords) ops ->     (* a re-used name is one returned earlier *)
  run_root minify reserved_keywords ops = Some (outs, fin) ->
  forall v, In (ON v) outs -> ~ In v js_reserved.
Proof. exact (fun minify ops outs fin => alloc_not_reserved reserved_keywords js_reserved minify ops outs fin
                C16_table_has_no_dollar C16_table_covers_js_reserved). Qed.
Print Assumptions C16_alloc_not_reserved.

(* Finding (known_findings.d/C16.txt, key plain-build-go-identifier-shadows-js-global): the full
   statement "no returned name is a JavaScript global that the emitted code reads" is FALSE without
   minification - a Go local called console is emitted as `var console`, println then calls
   console.log on it and the plain build throws, while the -m build (which renames it) runs. *)
Definition C16_alloc_avoids_js_globals_full : Prop :=
  forall minify ops outs fin, run_root minify reserved_keywords ops = Some (outs, fin) ->
  forall v, In (ON v) outs -> ~ In v js_globals_used.

Theorem C16_alloc_avoids_js_globals_refuted : ~ C16_alloc_avoids_js_globals_full.
Proof.
  intros H.
  assert (R : exists fin, run_root false reserved_keywords [OEnter [109;97;105;110]; OAlloc [99;111;110;115;111;108;101] false]
              = Some ([ON [109;97;105;110]; ON [99;111;110;115;111;108;101]], fin)) by (vm_compute; eexists; reflexivity).
  destruct R as [fin R]. apply (H false _ _ _ R [99;111;110;115;111;108;101]); vm_compute; tauto.
Qed.
Print Assumptions C16_alloc_avoids_js_globals_refuted.

(* the positive half, excluding exactly that input class: when no requested Go identifier is
   itself such a global, no returned name is (non-minified mode; a $n suffix never creates one) *)
Lemma C16_globals_have_no_dollar : forallb no_dollar js_globals_used = true.
Proof. vm_compute. reflexivity. Qed.

Theorem C16_alloc_avoids_js_globals_partial : forall kws ops outs fin,
  Forall (op_base_not_in js_globals_used) ops ->
  run_root false kws ops = Some (outs, fin) ->
  forall v, In (ON v) outs -> ~ In v js_globals_used.
Proof. exact (fun kws ops outs fin Hops => run_nonminify_form js_globals_used ops [root_frame kws] outs fin C16_globals_have_no_dollar Hops). Qed.
Print Assumptions C16_alloc_avoids_js_globals_partial.

(* tab tab x = a - -b; hint return slash-star c star-slash quote a bslash quote b quote ; newline *)
Definition C16_sample : list N :=
  [9;9;120;32;61;32;97;32;45;32;45;98;59;10; 8;0;2;1;8; 9;9;114;101;116;117;114;110;32;47;42;32;99;32;42;47;32;34;97;92;34;32;32;98;34;59;10].

Example C16_nonvacuous_ws :
  well_lexed C16_sample = true /\
  remove_ws C16_sample =
    Some [120;61;97;45;32;45;98;59; 8;0;2;1;8; 114;101;116;117;114;110;34;97;92;34;32;32;98;34;59] /\
  hints_in C16_sample = Some [([1;8], Some (SCh 114))].
Proof. vm_compute. repeat split; reflexivity. Qed.

(* the hypothesis of the token theorem is needed: a + +b becomes a++b *)
Example C16_hypothesis_needed : ~ C16_tokens_unconditional.
Proof.
  intros H. specialize (H [97;32;43;32;43;98;59] [97;43;43;98;59] eq_refl). vm_compute in H. discriminate.
Qed.

(* 140 variables in one minified function: past z (26) and past the keyword do (index 118); the
   histories with 800 variables (past zz = 702) are evaluated by the correspondence check *)
Example C16_nonvacuous_alloc :
  exists outs fin,
    run_root true reserved_keywords (OEnter [102] :: repeat (OAlloc [118] false) 140) = Some (outs, fin) /\
    nth 1 outs (OL []) = ON [97] /\ nth 27 outs (OL []) = ON [97;97] /\
    existsb (fun o => match o with ON v => name_eqb v [100;111] | _ => false end) outs = false /\
    existsb (fun o => match o with ON v => name_eqb v [100;112] | _ => false end) outs = true.
Proof. apply run_outs_witness. vm_compute. repeat split. Qed.

Example C16_nonvacuous_suffix :
  exists fin,
    run_root false reserved_keywords
      [OAlloc [110;101;119] false; OAlloc [120] true; OEnter [102]; OAlloc [120] false; OAlloc [120] true; OLeave; OAlloc [120] false]
    = Some ([ON [110;101;119;36;49]; ON [120]; ON [102]; ON [120;36;49]; ON [120;36;50]; OL [[120;36;49]]; ON [120;36;51]], fin).
Proof. vm_compute. eexists. reflexivity. Qed.
