(* C17 — Builds are reproducible.
   This file holds ONLY the property theorems (each closed by a lemma of Proofs/ or a few lines from one), their Print Assumptions
   and a non-vacuity example.
   Model: Model/C17_Order.v (every place where the compiler fixes an order by sorting or by ordered insertion,
   and Collector.Finish, which visits the keys of a Go map in sorted order).  Tie: harness/py/props/c17.py runs the real sort sites, the real
   typeparams.Collector and real builds.

   NOT A THEOREM: "out.js and out.js.map are a function of the set of inputs".  The translator is not modelled as a whole;
   that statement is decided on every run by hashing real builds (fresh processes x file orders x minify x warm session).
   What is proved is that each ordering decision the compiler makes is canonical. *)
From Coq Require Import List NArith Bool Arith Permutation Sorted.
From Verif Require Import Model.C17_Order Proofs.C17_Order Proofs.C17_Finish.
Import ListNotations.

(* sort sites keyed by a name (sort.Slice): canonical when the keys are pairwise distinct.
   Sources.Sort (file names, descending), SortedSourcesSlice (ImportPath), importDecls (Path()). *)
Theorem C17_sort_canonical_files : forall l l' : list keyed,
  Permutation l l' -> NoDup (map fst l) -> sort_files l = sort_files l'.
Proof. exact (isort_distinct_keys _ fst str_gtb_order). Qed.
Print Assumptions C17_sort_canonical_files.

Theorem C17_sort_canonical_sources : forall l l' : list keyed,
  Permutation l l' -> NoDup (map fst l) -> sort_sources l = sort_sources l'.
Proof. exact (isort_distinct_keys _ fst str_ltb_order). Qed.
Print Assumptions C17_sort_canonical_sources.

Theorem C17_sort_canonical_imports : forall l l' : list keyed,
  Permutation l l' -> NoDup (map fst l) -> sort_imports l = sort_imports l'.
Proof. exact (isort_distinct_keys _ fst str_ltb_order). Qed.
Print Assumptions C17_sort_canonical_imports.

(* sort.Strings sites (escaping-variable names in FuncLit and handleEscapingVars, localVars, dependency names,
   unresolved imports): canonical unconditionally — equal strings are indistinguishable, so duplicates do no harm. *)
Theorem C17_sort_canonical_strings : forall l l' : list str,
  Permutation l l' -> sort_strings l = sort_strings l'.
Proof. exact sort_strings_canonical. Qed.
Print Assumptions C17_sort_canonical_strings.

(* the results are sorted permutations (files: no later name is greater than an earlier one) *)
Theorem C17_sort_files_sorted : forall l,
  StronglySorted (fun a b => str_ltb (fst a) (fst b) = false) (sort_files l) /\ Permutation (sort_files l) l.
Proof. exact (fun l => conj (isort_sorted _ fst str_gtb_order l) (isort_perm (fun a b => str_ltb b a) fst l)). Qed.
Print Assumptions C17_sort_files_sorted.

Theorem C17_sort_sources_sorted : forall l,
  StronglySorted (fun a b => str_ltb (fst b) (fst a) = false) (sort_sources l) /\ Permutation (sort_sources l) l.
Proof. exact (fun l => conj (isort_sorted _ fst str_ltb_order l) (isort_perm str_ltb fst l)). Qed.
Print Assumptions C17_sort_sources_sorted.

(* the model is the insertion sort Go uses up to 12 elements; ANY algorithm returning a sorted permutation
   (pdqsort above 12) gives the same list when the keys are distinct *)
Theorem C17_sort_algorithm_irrelevant : forall l r : list keyed,
  Permutation r l -> StronglySorted (fun a b => str_ltb (fst b) (fst a) = false) r -> NoDup (map fst l) ->
  r = sort_sources l.
Proof. exact (sorted_perm_unique _ fst str_ltb_order). Qed.
Print Assumptions C17_sort_algorithm_irrelevant.

(* the corner of the keyed sort sites: the full statement WITHOUT the distinct-keys hypothesis is false *)
Definition C17_sort_canonical_without_distinct_keys : Prop :=
  forall l l' : list keyed, Permutation l l' -> sort_files l = sort_files l' /\ sort_sources l = sort_sources l'.
Theorem C17_sort_canonical_without_distinct_keys_refuted : ~ C17_sort_canonical_without_distinct_keys.
Proof.
  (* with a tie the result depends on the order in which the input was presented *)
  intro H. destruct (H [([97], 0); ([97], 1)]%N [([97], 1); ([97], 0)]%N (perm_swap _ _ _)) as [H1 _].
  vm_compute in H1. discriminate.
Qed.
Print Assumptions C17_sort_canonical_without_distinct_keys_refuted.

(* Sources.UnresolvedImports: independent of the order of the files, of the imports inside them and of the skip list *)
Theorem C17_unresolved_imports_order_independent : forall skip skip' files files',
  Permutation (concat files) (concat files') -> (forall x, In x skip <-> In x skip') ->
  unresolved_imports skip files = unresolved_imports skip' files'.
Proof. exact unresolved_imports_order_independent. Qed.
Print Assumptions C17_unresolved_imports_order_independent.

Theorem C17_unresolved_imports_file_order_independent : forall skip files files',
  Permutation files files' -> unresolved_imports skip files = unresolved_imports skip files'.
Proof. exact unresolved_imports_file_order_independent. Qed.
Print Assumptions C17_unresolved_imports_file_order_independent.

(* dce.Info.getDeps: independent of the order in which the Go map of dependencies is ranged over *)
Theorem C17_get_deps_iteration_order_independent : forall iter iter',
  Permutation iter iter' -> get_deps iter = get_deps iter'.
Proof. exact sort_strings_canonical. Qed.
Print Assumptions C17_get_deps_iteration_order_independent.

(* ordered sets (InstanceSet, TypeNames): iteration order = first-insertion order, a function of the traversal only *)
Theorem C17_ordered_set_add_idempotent : forall s x, oset_add (oset_add s x) x = oset_add s x.
Proof. intros s x. apply oset_add_present, (Base.Lists.In_oadd n_mem n_mem_In). auto. Qed.
Print Assumptions C17_ordered_set_add_idempotent.

Theorem C17_ordered_set_first_insertion_order : forall xs s, oset_add_all s xs = s ++ first_occ s xs.
Proof. exact oset_add_all_first_occ. Qed.
Print Assumptions C17_ordered_set_first_insertion_order.

Theorem C17_ordered_set_ids_stable : forall xs s y k,
  oset_id s y = Some k -> oset_id (oset_add_all s xs) y = Some k.
Proof. intros xs s y k H. rewrite oset_add_all_first_occ. apply (Base.Lists.index_of_app_l N.eqb), H. Qed.
Print Assumptions C17_ordered_set_ids_stable.

Theorem C17_ordered_set_ids_unique : forall s x y k, oset_id s x = Some k -> oset_id s y = Some k -> x = y.
Proof. exact (Base.Lists.index_of_inj N.eqb N.eqb_eq). Qed.
Print Assumptions C17_ordered_set_ids_unique.

(* Collector.Finish (collect.go, as repaired by ee2dd6c): every round of `for !allExhausted()` collects the keys of
   the map of per-package instance sets, sorts them by import path and calls propagate in that order — model
   finish_sorted.  The numbering of the instances is a function of the CONTENTS of that map: any two layouts (orders of
   the association list that stands for the Go map, i.e. any iteration order the runtime may pick) give the same ids,
   provided import paths identify packages.  The check compares the real Finish with finish_sorted exactly, on every
   generated program, and runs the real Finish repeatedly from identical seeds. *)
Theorem C17_finish_instance_ids_independent_of_map_order : forall rounds fuel path_of t m m' pkgs,
  (forall a b : N, path_of a = path_of b -> a = b) ->
  NoDup (pis_keys m) -> Permutation m m' ->
  observe pkgs (finish_sorted rounds fuel path_of t m) = observe pkgs (finish_sorted rounds fuel path_of t m').
Proof. exact finish_sorted_layout_independent. Qed.
Print Assumptions C17_finish_instance_ids_independent_of_map_order.

(* its core: the visiting order of a round is a function of the SET of keys *)
Theorem C17_sorted_round_order_canonical : forall path_of ks ks',
  Permutation ks ks' -> NoDup (map path_of ks) -> sort_keys path_of ks = sort_keys path_of ks'.
Proof. exact sort_keys_canonical. Qed.
Print Assumptions C17_sorted_round_order_canonical.

(* propagate itself: a fixed sequence of propagate calls gives the same ids for every layout of the map (the order of
   the calls is the only thing that matters, which is why Finish fixes it) *)
Theorem C17_fixed_schedule_layout_independent : forall sched fuel t m m' pkgs,
  NoDup (pis_keys m) -> Permutation m m' ->
  observe pkgs (run_schedule fuel t sched m) = observe pkgs (run_schedule fuel t sched m').
Proof.
  intros sched fuel t m m' pkgs ND P.
  apply observe_same_map, same_map_run_schedule, perm_same_map; assumption.
Qed.
Print Assumptions C17_fixed_schedule_layout_independent.

(* PARTIAL (hence the suffix): the property text is "same sources and options => byte-identical out.js and map".
   Proved: every ordering decision the compiler takes by sorting or by ordered insertion is a function of the SET of its
   inputs (files, import paths, names, dependencies, instances offered in a given traversal), and so is the
   Finish loop.  Missing, and not provable in this development: that these are ALL the places where order can enter the
   translator (go/types, the AST walks, the printer are not modelled) — that half is the hashing of real builds. *)
Theorem C17_reproducible_builds_partial :
  (forall l l' : list keyed, Permutation l l' -> NoDup (map fst l) ->
     sort_files l = sort_files l' /\ sort_sources l = sort_sources l' /\ sort_imports l = sort_imports l') /\
  (forall l l' : list str, Permutation l l' -> sort_strings l = sort_strings l' /\ get_deps l = get_deps l') /\
  (forall skip files files', Permutation files files' -> unresolved_imports skip files = unresolved_imports skip files') /\
  (forall xs s, oset_add_all s xs = s ++ first_occ s xs) /\
  (forall rounds fuel path_of t m m' pkgs,
     (forall a b : N, path_of a = path_of b -> a = b) -> NoDup (pis_keys m) -> Permutation m m' ->
     observe pkgs (finish_sorted rounds fuel path_of t m) = observe pkgs (finish_sorted rounds fuel path_of t m')).
Proof.
  split; [|split; [|split; [|split]]].
  - intros l l' P ND. split; [|split].
    + apply (isort_distinct_keys _ fst str_gtb_order); assumption.
    + apply (isort_distinct_keys _ fst str_ltb_order); assumption.
    + apply (isort_distinct_keys _ fst str_ltb_order); assumption.
  - intros l l' P. split; apply sort_strings_canonical; exact P.
  - apply unresolved_imports_file_order_independent.
  - apply oset_add_all_first_occ.
  - apply finish_sorted_layout_independent.
Qed.
Print Assumptions C17_reproducible_builds_partial.

(* Non-vacuity: distinct keys presented in two orders; the a/b/c program (two packages instantiating c.G inside generic code) numbered by Finish. *)
Example C17_nonvacuous :
  let l := [([98; 46; 103; 111], 0); ([97; 46; 103; 111], 1); ([99; 46; 103; 111], 2)]%N in
  let l' := [([99; 46; 103; 111], 2); ([98; 46; 103; 111], 0); ([97; 46; 103; 111], 1)]%N in
  Permutation l l' /\ NoDup (map fst l) /\
  sort_files l = [([99; 46; 103; 111], 2); ([98; 46; 103; 111], 0); ([97; 46; 103; 111], 1)]%N /\
  sort_files l' = sort_files l /\
  observe [2%N] (finish_sorted 5 10 (fun k => [k]) w_scan (seed w_seeds)) = [(2, [20; 21])]%N.
Proof.
  cbv zeta. split; [|split; [|split; [|split]]].
  - apply Permutation_sym. apply (Permutation_cons_app [_; _] []). apply Permutation_refl.
  - cbn. repeat constructor; cbn; intuition discriminate.
  - vm_compute. reflexivity.
  - vm_compute. reflexivity.
  - vm_compute. reflexivity.
Qed.
