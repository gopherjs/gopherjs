(* C18 — Source files are selected by the documented build constraints.
   This file holds ONLY the property theorems (each closed by a lemma of Proofs/ or a few lines from one),
   their Print Assumptions and two non-vacuity examples.
   Model: Model/C18_Build.v (build/context.go, compiler/incjs/file.go and the
   selection part of go/build) on files given by name and parsed header; on source
   TEXT Model/C18_NameSpec.v (the file-name rule as a suffix specification),
   Model/C18_Constraint.v (go/build/constraint and the header scan),
   Model/C18_Text.v (selection on text, applyPostloadTweaks); constants:
   Gen/C18_BuildEnv.v, Gen/C18_PostTweaks.v, REGENERATED from the sources on every
   run; lemmas: Proofs/C18_*.v.
   Tie: harness/py/props/c18.py runs the real NewBuildContext(...).Import and the
   model on the same generated package directories.

   Vocabulary:  [sat user std m t]  = the real environment (model of goCtx +
   applyPreloadTweaks + go/build matchTag, GOOS/GOARCH unset in the process
   environment, toolchain Go 1.m) satisfies tag t for a user (std = false) or
   standard-library (std = true) package;  [doc_tags user std t] = the tag is one
   of those the property text lists: js, ecmascript (wasm for std), gc, gopherjs,
   netgo, purego, math_big_pure_go, go1.1 .. go1.N, or a user tag.  N = doc_N is
   the release documented by compiler.Version "+go1.N.p" / README.md. *)
From Coq Require Import List String Ascii Arith.
From Verif Require Import Gen.C18_BuildEnv Model.C18_Build Proofs.C18_Build.
From Verif Require Import Gen.C18_PostTweaks Model.C18_NameSpec Model.C18_Constraint Model.C18_ConstraintNF Model.C18_Text.
From Verif Require Import Proofs.C18_P4_Name Proofs.C18_P4_Constraint Proofs.C18_P4_Header Proofs.C18_P4_Text.
Import ListNotations.
Local Open Scope string_scope.

(* Full statement of the environment clause.  It is REFUTED for one tag (see
   C18_env_is_documented_all_tags_refuted): go/build renames the constraint tag
   `boringcrypto` to goexperiment.boringcrypto before looking it up. *)
Definition C18_env_full_statement : Prop :=
  forall user std m t, doc_N <= m -> (sat user std m t = true <-> doc_tags user std t).

Theorem C18_env_is_documented_all_tags_refuted : ~ C18_env_full_statement.
Proof.
  intros H. specialize (H ["boringcrypto"] false doc_N "boringcrypto" (le_n _)).
  assert (doc_tags ["boringcrypto"] false "boringcrypto") as D.
  { unfold doc_tags. (* the last disjunct, a user tag *) do 8 right. left. reflexivity. }
  apply H in D. apply (boringcrypto_alias ["boringcrypto"] false doc_N (le_n _)) in D.
  destruct D as [D|D]; [discriminate | contradiction].
Qed.
Print Assumptions C18_env_is_documented_all_tags_refuted.

(* what happens instead for that tag *)
Theorem C18_boringcrypto_alias : forall user std m, doc_N <= m ->
  (sat user std m "boringcrypto" = true <-> In "goexperiment.boringcrypto" user).
Proof. exact boringcrypto_alias. Qed.
Print Assumptions C18_boringcrypto_alias.

(* For EVERY other tag, every set of user tags, user and std packages and every
   toolchain that can build the compiler: satisfied <-> documented.  Depends on
   the regenerated tables: dropping / adding a default tag, changing GOOS /
   GOARCH / compiler / CgoEnabled, or shifting the release-tag truncation away
   from [:GoVersion], or GoVersion away from the documented release, breaks it. *)
Theorem C18_env_is_documented : forall user std m t,
  doc_N <= m -> t <> "boringcrypto" ->
  (sat user std m t = true <-> doc_tags user std t).
Proof. exact env_is_documented. Qed.
Print Assumptions C18_env_is_documented.

(* go1.k is satisfied exactly for 1 <= k <= N (unless given as a user tag) *)
Theorem C18_release_tag_iff : forall user std m k,
  doc_N <= m -> ~ In (go_tag k) user ->
  (sat user std m (go_tag k) = true <-> 1 <= k <= doc_N).
Proof. intros user std m k Hm Hu. rewrite (release_tag_sat _ _ _ _ Hm). tauto. Qed.
Print Assumptions C18_release_tag_iff.

(* A file of a loaded directory is among GoFiles exactly when: it is a regular
   non-hidden non-test .go file, every OS/arch element of its name (go/build's
   file-name rule, name_tags) is a documented tag, its constraint (//go:build
   expression, else the detached // +build lines) holds under the documented
   valuation, it is not package documentation and does not import "C". *)
Theorem C18_selected_iff : forall user std m fs f,
  doc_N <= m ->
  NoDup (map f_name fs) -> In f fs ->
  ~ In "boringcrypto" (mentioned f) ->
  forall e0, go_ctx (default_cfg user m) = Some e0 ->
  loaded (import_with e0 std fs) ->
  (In (f_name f) (go_files (import_with e0 std fs)) <->
     f_isdir f = false /\ selectable_name (f_name f) /\
     Forall (doc_tags user std) (name_tags (f_name f)) /\
     constraint_holds (doc_tags user std) f /\
     f_pkg f <> PkgDoc /\ f_cgo f = false).
Proof. exact selected_iff. Qed.
Print Assumptions C18_selected_iff.

(* the file-name rule (name_tags = go/build goodOSArchFile): only elements that
   are KNOWN GOOS / GOARCH names of go/build's syslist constrain a file, so a
   name is never tied to ecmascript; names without "_" are unconstrained *)
Theorem C18_name_rule_known_only : forall name t,
  In t (name_tags name) -> In t (known_os ++ known_arch)%list.
Proof. exact name_tags_known. Qed.
Print Assumptions C18_name_rule_known_only.

Theorem C18_ecmascript_not_a_name_tag : forall name, ~ In "ecmascript" (name_tags name).
Proof. intros name H. apply name_tags_known in H. apply mem_In in H. vm_compute in H. discriminate. Qed.
Print Assumptions C18_ecmascript_not_a_name_tag.

Theorem C18_no_underscore_unconstrained : forall name,
  contains_char "_"%char (cut_dot name) = false -> name_tags name = [].
Proof. intros name H. unfold name_tags. rewrite (from_first_us_none _ H). reflexivity. Qed.
Print Assumptions C18_no_underscore_unconstrained.

Theorem C18_name_rule_examples :
  name_tags "x_js.go" = ["js"] /\ name_tags "x_wasm.go" = ["wasm"] /\ name_tags "x_linux.go" = ["linux"] /\
  name_tags "x_js_wasm.go" = ["wasm"; "js"] /\ name_tags "x_js_wasm_test.go" = ["wasm"; "js"] /\
  name_tags "x_ecmascript.go" = [] /\ name_tags "js_wasm.go" = ["wasm"] /\ name_tags "wasm.go" = [] /\
  name_tags "a.b_linux.go" = [].
Proof. vm_compute. repeat split. Qed.
Print Assumptions C18_name_rule_examples.

(* the decomposition into independent conditions, for ANY environment
   (also with GOOS/GOARCH overridden) *)
Theorem C18_file_taken_iff : forall e f,
  classify e f = CGo <->
  f_isdir f = false /\ selectable_name (f_name f) /\
  good_os_arch_file e (f_name f) = true /\ should_build e f = true /\
  f_pkg f <> PkgDoc /\ f_cgo f = false.
Proof. exact classify_go_iff. Qed.
Print Assumptions C18_file_taken_iff.

(* a user tag that no file of the directory mentions (in its constraint or in
   its name; `boringcrypto` counts as goexperiment.boringcrypto) changes nothing:
   same GoFiles, TestGoFiles, XTestGoFiles, IgnoredGoFiles, JSFiles, same errors *)
Theorem C18_user_tag_frame : forall user u m goos goarch path in_goroot fs,
  (forall f, In f fs -> ~ In u (map alias (mentioned f))) ->
  import_pkg {| c_env_goos := goos; c_env_goarch := goarch; c_user_tags := u :: user; c_toolchain := m |} path in_goroot fs =
  import_pkg {| c_env_goos := goos; c_env_goarch := goarch; c_user_tags := user; c_toolchain := m |} path in_goroot fs.
Proof. exact user_tag_frame. Qed.
Print Assumptions C18_user_tag_frame.

(* .inc.js: every non-hidden one of a loaded directory, nothing else, and the
   same set whatever the environment *)
Theorem C18_incjs_always : forall e0 std fs f,
  loaded (import_with e0 std fs) -> In f fs ->
  has_suffix ".inc.js" (f_name f) = true -> f_isdir f = false -> hidden (f_name f) = false ->
  In (f_name f) (js_files (import_with e0 std fs)).
Proof.
  intros e0 std fs f L If Hs Hd Hh. rewrite (import_with_js _ _ _ L).
  apply in_map. apply filter_In. split; [exact If|]. apply is_incjs_iff. tauto.
Qed.
Print Assumptions C18_incjs_always.

Theorem C18_incjs_only : forall e0 std fs n,
  In n (js_files (import_with e0 std fs)) ->
  exists f, In f fs /\ f_name f = n /\ has_suffix ".inc.js" n = true /\ f_isdir f = false /\ hidden n = false.
Proof.
  intros e0 std fs n H.
  assert (L : loaded (import_with e0 std fs)) by (destruct (import_with e0 std fs); try contradiction; exact I).
  rewrite (import_with_js _ _ _ L) in H. apply in_map_iff in H. destruct H as [f [E If]].
  apply filter_In in If. destruct If as [If Hj]. apply is_incjs_iff in Hj. subst n. exists f. tauto.
Qed.
Print Assumptions C18_incjs_only.

Theorem C18_incjs_env_independent : forall e0 e1 std std' fs,
  loaded (import_with e0 std fs) -> loaded (import_with e1 std' fs) ->
  js_files (import_with e0 std fs) = js_files (import_with e1 std' fs).
Proof. intros. rewrite !import_with_js by assumption. reflexivity. Qed.
Print Assumptions C18_incjs_env_independent.

(* cgo files are never used, whatever the process environment and the tags *)
Theorem C18_cgo_files_never_used : forall c e0 std fs f,
  go_ctx c = Some e0 -> NoDup (map f_name fs) -> In f fs -> f_cgo f = true ->
  ~ In (f_name f) (go_files (import_with e0 std fs)).
Proof. intros c e0 std fs f _. apply cgo_files_never_used. Qed.
Print Assumptions C18_cgo_files_never_used.

(* standard-library packages are matched as js/wasm; a package reached through
   a local import path is never treated as one *)
Theorem C18_std_selected_as_js_wasm : forall user m e, doc_N <= m ->
  file_env user true m = Some e -> e_goos e = "js" /\ e_goarch e = "wasm".
Proof.
  intros user m e Hm H. destruct gen_version_documented as [Hv _]. rewrite <- Hv in Hm.
  rewrite (file_env_some _ _ _ Hm) in H. injection H as <-. split; reflexivity.
Qed.
Print Assumptions C18_std_selected_as_js_wasm.

Theorem C18_std_selected_as_js_wasm_any_env : forall c e0,
  go_ctx c = Some e0 -> e_goos (preload e0 true) = "js" /\ e_goarch (preload e0 true) = "wasm".
Proof. intros c e0 _. apply std_selected_as_js_wasm_any_env. Qed.
Print Assumptions C18_std_selected_as_js_wasm_any_env.

(* legacy mode: GOOS / GOARCH set in the process environment are used for user packages *)
Theorem C18_user_env_follows_process_env : forall c e0,
  go_ctx c = Some e0 ->
  e_goos (preload e0 false) = (if c_env_goos c =? "" then "js" else c_env_goos c) /\
  e_goarch (preload e0 false) = (if c_env_goarch c =? "" then "ecmascript" else c_env_goarch c).
Proof.
  intros c e0 H. unfold go_ctx in H. destruct (if release_truncated then _ else _); [|discriminate].
  injection H as <-. cbn. unfold env_goos, env_goarch. rewrite gen_default_goos, gen_default_goarch. split; reflexivity.
Qed.
Print Assumptions C18_user_env_follows_process_env.

Theorem C18_local_import_is_never_std : forall p g, is_local_import p = true -> is_std p g = false.
Proof.
  intros p g H. unfold is_std, definitely_not_std. rewrite H, Bool.orb_true_r.
  (* no path of the table is a local one *)
  replace (mem p gopherjs_paths) with false; [reflexivity|].
  symmetry. apply mem_false. intros I. repeat (destruct I as [<-|I]; [discriminate H|]). exact I.
Qed.
Print Assumptions C18_local_import_is_never_std.

(* Non-vacuity: a user package built with --tags foo (toolchain bound 99 so that the
   example survives version bumps).
   The hypotheses of C18_selected_iff are satisfiable (context exists, directory
   loads) and selection is neither everything nor nothing. *)
Example C18_nonvacuous :
  let mk n gb cgo := {| f_name := n; f_isdir := false; f_gobuild := gb; f_plus := []; f_detached := true;
                        f_pkg := PkgSame; f_cgo := cgo |} in
  let fs := [ mk "a.go" None false;
              mk "b_js.go" (Some (And (Tag "go1.18") (Not (Tag "go1.99")))) false;
              mk "c_wasm.go" None false;
              mk "d.go" (Some (Or (Tag "foo") (Tag "linux"))) false;
              mk "e.go" (Some (Tag "bar")) false;
              mk "f.go" None true;
              mk "g_linux.inc.js" (Some (Tag "ignore")) false ] in
  doc_N <= 99 /\
  import_pkg (default_cfg ["foo"] 99) "." false fs =
    ROk ["a.go"; "b_js.go"; "d.go"] [] [] ["c_wasm.go"; "e.go"; "f.go"] ["g_linux.inc.js"] /\
  import_pkg (default_cfg ["foo"] 99) "c18std/x" true fs =
    ROk ["a.go"; "b_js.go"; "c_wasm.go"; "d.go"] [] [] ["e.go"; "f.go"] ["g_linux.inc.js"].
Proof. split; [unfold doc_N; apply Nat.leb_le; vm_compute; reflexivity | vm_compute; split; reflexivity]. Qed.

(* name_tags (mirror of go/build goodOSArchFile: split on "_", drop "test", look at the
   last two elements) = spec_name_tags (Model/C18_NameSpec.v: strip everything from the
   first ".", strip one trailing "_test", then search the known GOOS x GOARCH table for a
   suffix _GOOS_GOARCH, else the known table for a suffix _X), for EVERY file name.
   Depends on the regenerated tables: no known name contains "_" or is empty. *)
Theorem C18_name_rule_eq_spec : forall name : string, name_tags name = spec_name_tags name.
Proof. exact name_rule_eq_spec. Qed.
Print Assumptions C18_name_rule_eq_spec.

(* the same against the TEXT of the go/build documentation, as a relation on strings
   (name = stem[.ext], b = stem without one "_test", b = p_GOOS_GOARCH | p_X | neither;
   the "_" before the element is the pre-Go1.4 exception: linux.go is unconstrained) *)
Theorem C18_name_rule_iff_text_spec : forall name ts, name_requires name ts <-> name_tags name = ts.
Proof.
  intros name ts. split.
  - exact (name_requires_unique name _ _ (name_rule_sound_text_spec name)).
  - intros <-. apply name_rule_sound_text_spec.
Qed.
Print Assumptions C18_name_rule_iff_text_spec.

Theorem C18_good_name_eq_spec : forall e name, good_os_arch_file e name = spec_good_name e name.
Proof. intros e name. unfold good_os_arch_file, spec_good_name. rewrite name_rule_eq_spec. reflexivity. Qed.
Print Assumptions C18_good_name_eq_spec.

(* parse/print round trip: Expr.String then parseExpr gives back the same TREE for every
   expression in the parser's normal form (left-nested && and ||, no double negation)
   whose tags are proper tags.  For all such expressions, of any size. *)
Theorem C18_parse_print_roundtrip : forall e, nf e = true -> tags_valid e = true ->
  parse_expr (print e) = Some e.
Proof. intros e Hn Hv. unfold parse_expr. rewrite (lex_print e Hv). apply parse_toks_roundtrip. exact Hn. Qed.
Print Assumptions C18_parse_print_roundtrip.

(* The full retraction statement is REFUTED by the faithful model (and by the real
   go/build/constraint, replayed on every run): "!(!a)" parses, prints as "!!a", and
   that is rejected (double negation). *)
Definition C18_print_parse_retraction_full_statement : Prop :=
  forall s x, parse_expr s = Some x -> parse_expr (print x) = Some x.
Theorem C18_print_parse_retraction_refuted : ~ C18_print_parse_retraction_full_statement.
Proof.
  intros H. destruct print_parse_not_retraction as (s & x & H1 & H2).
  rewrite (H s x H1) in H2. discriminate.
Qed.
Print Assumptions C18_print_parse_retraction_refuted.

(* without parentheses the parser does produce normal forms only *)
Theorem C18_parse_nf_without_parens : forall ts e, np ts = true -> parse_toks ts = Some e -> nf e = true.
Proof. intros ts e Hnp H. apply parse_toks_gram in H. exact (proj1 (gram_np _ _ _ _ H Hnp)). Qed.
Print Assumptions C18_parse_nf_without_parens.

(* go/build reads a legacy line through constraint.Parse (parsePlusBuildExpr); that
   expression means exactly the documented reading: space = OR, comma = AND, ! = NOT,
   a malformed term = the tag `ignore`, an empty line = `ignore` — for EVERY text and
   EVERY tag assignment *)
Theorem C18_plusbuild_equiv_gobuild : forall sat text,
  eval sat (parse_plus_expr text) = pline_ok sat (plus_pline text).
Proof. exact parse_plus_expr_equiv. Qed.
Print Assumptions C18_plusbuild_equiv_gobuild.

(* the conversion the toolchain performs the other way (constraint.PlusBuildLines: push
   negations to the leaves, split into AND of ORs of ANDs of literals, merge when no OR
   is left): whenever it succeeds, the lines (several lines = AND) mean the expression *)
Theorem C18_gobuild_to_plusbuild_sound : forall x ls, plus_build_plines x = Some ls ->
  forall sat, forallb (pline_ok sat) ls = eval sat x.
Proof. exact plus_build_plines_sound. Qed.
Print Assumptions C18_gobuild_to_plusbuild_sound.

(* evaluation is monotone in the tags that occur positively and antitone in those that
   occur negatively — and NOT monotone in general *)
Theorem C18_eval_monotone_in_positive_tags : forall (s s' : string -> bool) e,
  (forall t, In t (pos_tags e) -> s t = true -> s' t = true) ->
  (forall t, In t (neg_tags e) -> s' t = true -> s t = true) ->
  eval s e = true -> eval s' e = true.
Proof. exact eval_monotone. Qed.
Print Assumptions C18_eval_monotone_in_positive_tags.

Theorem C18_eval_not_monotone_in_general : exists e s s',
  (forall t, s t = true -> s' t = true) /\ eval s e = true /\ eval s' e = false.
Proof.
  exists (Not (Tag "a")), (fun _ => false), (fun _ => true).
  split; [intros; reflexivity|]. split; reflexivity.
Qed.
Print Assumptions C18_eval_not_monotone_in_general.

(* placement rules, on TEXT: the header of a file rendered from (//go:build x, +build
   lines, detached?) is read back by go/build's header scanner + constraint parser as:
   the //go:build line wins; otherwise the +build lines count only when a blank line
   separates the comment block from the package clause; several lines = AND *)
Theorem C18_should_build_text_render : forall sat gb plus detached,
  header_valid gb plus ->
  should_build_text sat (render_header gb plus detached) =
  Some (match gb with
        | Some x => eval sat x
        | None => if detached then forallb (pline_ok sat) plus else true
        end).
Proof.
  intros sat gb plus detached [H1 H2].
  exact (should_build_text_render C18_parse_print_roundtrip parse_plus_expr_equiv sat gb plus detached H1 H2).
Qed.
Print Assumptions C18_should_build_text_render.

(* hence the text-level classification of a rendered file is the structured one
   (so C18_selected_iff / C18_user_tag_frame transfer to rendered text) *)
Theorem C18_classify_text_render : forall e f imps,
  header_valid (f_gobuild f) (f_plus f) ->
  classify_text e (render_file f imps) = classify e f.
Proof.
  intros e f imps H. rewrite classify_text_core, classify_core. unfold render_file, should_build.
  cbn [t_name t_isdir t_content t_pkg t_cgo].
  rewrite <- C18_good_name_eq_spec, (C18_should_build_text_render _ _ _ _ H). reflexivity.
Qed.
Print Assumptions C18_classify_text_render.

(* C18_selected_iff restated on source TEXT (any text, well-formed or not): a file is
   among GoFiles iff regular, selectable name, every tag of the SUFFIX SPECIFICATION of
   its name is satisfied, go/build's header scanner + parser accept the text and the
   constraint found holds, not documentation, no cgo — for every package that is not one
   of the four tweaked ones (or comes from a virtual context).  [sat user std m] is the
   environment characterised by C18_env_is_documented. *)
Theorem C18_selected_iff_text : forall user std m v path fs f e0,
  go_ctx (default_cfg user m) = Some e0 ->
  NoDup (map t_name fs) -> In f fs ->
  (v = true \/ ~ In path tweaked_paths) ->
  t_loaded (import_text_with e0 std v path fs) ->
  (In (t_name f) (t_go_files (import_text_with e0 std v path fs)) <->
     t_isdir f = false /\ selectable_name (t_name f) /\
     Forall (fun t => sat user std m t = true) (spec_name_tags (t_name f)) /\
     should_build_text (sat user std m) (t_content f) = Some true /\
     t_pkg f <> PkgDoc /\ t_cgo f = false).
Proof.
  intros user std m v path fs f e0 He0 ND I Hp L.
  rewrite (selected_iff_text e0 std v path fs f ND I Hp L).
  assert (E : sat user std m = match_tag (preload e0 std)).
  { unfold sat, file_env. rewrite He0. reflexivity. }
  rewrite E. tauto.
Qed.
Print Assumptions C18_selected_iff_text.

(* a malformed //go:build line (or two of them) makes the file invalid — unless the name
   already excludes it *)
Theorem C18_bad_header_is_reported : forall e f,
  t_isdir f = false -> hidden (t_name f) = false -> ext_of (t_name f) = ".go" ->
  spec_good_name e (t_name f) = true ->
  should_build_text (match_tag e) (t_content f) = None -> classify_text e f = CBad.
Proof. intros e f H1 H2 H3 H4 H5. unfold classify_text. rewrite H1, H2, H3, H4, H5. reflexivity. Qed.
Print Assumptions C18_bad_header_is_reported.

(* applyPostloadTweaks (table regenerated from its switch): exactly the four documented
   packages are touched, files are only ever removed, virtual contexts are never tweaked *)
Theorem C18_postload_documented : forall go test,
  postload false "runtime" go test = ([], test) /\
  postload false "runtime/pprof" go test = ([], test) /\
  postload false "sync" go test = (exclude go ["pool.go"], test) /\
  postload false "syscall/js" go test = ([], []).
Proof.
  intros go test. unfold postload. rewrite gen_post_tweaks. cbn [lookup_tweak String.eqb Ascii.eqb Bool.eqb].
  repeat split; unfold apply_tweak; cbn [fst snd]; rewrite ?exclude_nil; reflexivity.
Qed.
Print Assumptions C18_postload_documented.

Theorem C18_postload_other_paths_untouched : forall v p go test,
  ~ In p tweaked_paths -> postload v p go test = (go, test).
Proof. exact postload_other_paths. Qed.
Print Assumptions C18_postload_other_paths_untouched.

Theorem C18_postload_only_removes : forall v p go test f,
  (In f (fst (postload v p go test)) -> In f go) /\ (In f (snd (postload v p go test)) -> In f test).
Proof.
  intros v p go test f. unfold postload. destruct v; [cbn; tauto|].
  destruct (lookup_tweak p post_tweaks) as [[tg tw]|]; cbn [fst snd]; [|tauto].
  split; apply apply_tweak_subset.
Qed.
Print Assumptions C18_postload_only_removes.

Theorem C18_postload_sync_iff : forall go test f,
  In f (fst (postload false "sync" go test)) <-> In f go /\ f <> "pool.go".
Proof.
  intros go test f. destruct (C18_postload_documented go test) as (_ & _ & -> & _). cbn [fst].
  rewrite exclude_In. cbn [In]. split.
  - intros [H1 H2]. split; [exact H1|]. intros ->. apply H2. left. reflexivity.
  - intros [H1 H2]. split; [exact H1|]. intros [E|[]]. apply H2. symmetry. exact E.
Qed.
Print Assumptions C18_postload_sync_iff.

(* virtual: the natives overlay and the embedded gopherjs packages *)
Theorem C18_overlay_never_tweaked : forall p go test, postload true p go test = (go, test).
Proof. reflexivity. Qed.
Print Assumptions C18_overlay_never_tweaked.

(* updateImports: an import path is reported iff a REMAINING source file imports it *)
Theorem C18_update_imports_iff : forall srcs fs p,
  In p (update_imports srcs fs) <-> exists f, In f fs /\ In (t_name f) srcs /\ In p (t_imports f).
Proof.
  intros srcs fs p. unfold update_imports. rewrite nodup_In, in_flat_map. split.
  - intros [f [If Ip]]. exists f. destruct (mem (t_name f) srcs) eqn:E; [|contradiction].
    apply mem_In in E. tauto.
  - intros [f (If & Is & Ip)]. exists f. split; [exact If|]. apply mem_In in Is. rewrite Is. exact Ip.
Qed.
Print Assumptions C18_update_imports_iff.

(* Non-vacuity on texts: one of them malformed, a tweaked package *)
Example C18_p4_nonvacuous :
  let mk n c := {| t_name := n; t_isdir := false; t_content := c; t_pkg := PkgSame; t_cgo := false; t_imports := ["io"] |} in
  let nlc := String "010"%char "" in
  let fs := [ mk "a.go" ("//go:build js && !linux" ++ nlc ++ nlc ++ "package p" ++ nlc);
              mk "b_linux_amd64.go" ("package p" ++ nlc);
              mk "c.go" ("// +build linux" ++ nlc ++ "package p" ++ nlc);
              mk "d.go" ("// +build linux" ++ nlc ++ nlc ++ "package p" ++ nlc);
              mk "pool.go" ("package p" ++ nlc) ] in
  import_text (default_cfg [] 99) false "sync" true fs =
    TOk ["a.go"; "c.go"] [] [] ["b_linux_amd64.go"; "d.go"] [] ["io"] [] [] /\
  import_text (default_cfg [] 99) true "sync" true fs =
    TOk ["a.go"; "c.go"; "pool.go"] [] [] ["b_linux_amd64.go"; "d.go"] [] ["io"] [] [] /\
  import_text (default_cfg [] 99) false "." false (mk "e.go" ("//go:build (js" ++ nlc ++ "package p" ++ nlc) :: fs) = TBad /\
  parse_expr "a && (b || !c)" = Some (And (Tag "a") (Or (Tag "b") (Not (Tag "c")))) /\
  header_valid (Some (And (Tag "a") (Or (Tag "b") (Not (Tag "c"))))) [[[(false, "x"); (true, "y")]; [(false, "z")]]].
Proof. vm_compute. repeat split; reflexivity. Qed.
