(* C19 — Source maps are complete, in range and point at the right Go lines.
   This file holds ONLY the property theorems (each closed by a lemma of Proofs/ or a few lines from one)
   their Print Assumptions and non-vacuity examples.  Model: Model/C19_Filter.v (hint.go, filter.go) and, for the encoded map in the
   second half, Model/C19_Vlq.v; that removeWhitespace leaves the hints intact is C16_remove_ws_hints_intact
   (Props/C16.v).  Tie: harness/py/props/c19.py runs the real sourcemapx.Filter / Hint.Pack and the model on the
   same streams. *)
From Coq Require Import List NArith ZArith Arith Bool Sorted Lia.
From Verif Require Import Model.C19_Filter Proofs.C19_Filter Model.C19_Vlq Proofs.C19_Vlq.
Import ListNotations.

(* Full statement, byte-stream half: for EVERY stream of code pieces and hints and
   EVERY chunking of it into Write calls that does not split a hint, the filter
   writes exactly the code with the hints erased, and reports for each hint the
   (1-based line, 0-based column) at which the code following it starts in that
   output. *)
Theorem C19_filter_chunking_invariant : forall items iss,
  chunking_of items iss ->
  run_chunks (map render iss) =
  Some (erase items,
        map (fun m => (N.of_nat (m_line m), N.of_nat (m_col m), m_payload m)) (spec_mappings [] items)).
Proof.
  intros items iss [Hn Hok]. unfold run_chunks. rewrite (filter_run_render iss f_init Hok). cbn [observe].
  destruct (apply_items_spec (concat iss) f_init) as (_ & -> & ->); [split; reflexivity|].
  cbn [f_init f_out f_maps app].
  (* [erase] and [spec_mappings] see a piece list only up to [norm], where [concat iss] and [items] agree *)
  rewrite <- (erase_norm (concat iss)), <- (spec_mappings_norm (concat iss)), Hn.
  rewrite erase_norm, spec_mappings_norm. reflexivity.
Qed.
Print Assumptions C19_filter_chunking_invariant.

(* The emitted JavaScript never contains hint bytes. *)
Theorem C19_output_no_magic : forall items,
  forallb item_ok items = true -> code_ok (erase items) = true.
Proof. exact output_no_magic. Qed.
Print Assumptions C19_output_no_magic.

(* Every mapping refers to a position that exists in the generated file. *)
Theorem C19_mappings_in_range : forall items m,
  In m (spec_mappings [] items) ->
  (1 <= m_line m <= length (lines (erase items)))%nat /\
  (m_col m <= length (nth (m_line m - 1) (lines (erase items)) []))%nat.
Proof. exact mappings_in_range. Qed.
Print Assumptions C19_mappings_in_range.

Theorem C19_mappings_monotone : forall items pre,
  StronglySorted pos_le (spec_mappings pre items).
Proof. exact mappings_monotone. Qed.
Print Assumptions C19_mappings_monotone.

(* Hint codec: any payload of at most 0xFFFF bytes (it may itself contain 0x08)
   is found and read back exactly; longer payloads are rejected. *)
Theorem C19_hint_roundtrip : forall p rest e,
  encode_hint p = Some e ->
  find_hint (e ++ rest) = Some O /\ read_hint (e ++ rest) = Some (p, length e).
Proof. exact hint_roundtrip. Qed.
Print Assumptions C19_hint_roundtrip.

Theorem C19_hint_too_long_rejected : forall p,
  (65535 < N.of_nat (length p))%N -> encode_hint p = None.
Proof. exact hint_too_long_rejected. Qed.
Print Assumptions C19_hint_too_long_rejected.

(* A Write call that ends inside a hint is rejected (the implementation panics). *)
Theorem C19_split_hint_rejected : forall st pre p k,
  code_ok pre = true -> item_ok (Hint p) = true ->
  (0 < k < length p + 3)%nat ->
  filter_write st (pre ++ firstn k (render [Hint p])) = None.
Proof.
  intros st pre p k Hpre Hok Hk. apply (writes_cut_hint p k Hok Hk _ st pre Hpre). rewrite app_length. lia.
Qed.
Print Assumptions C19_split_hint_rejected.

(* Non-vacuity: a concrete stream with a payload containing 0x08, a newline
   between hints, cut into three Write calls in the middle of code. *)
Example C19_nonvacuous :
  let items := [Code [97;10;98]; Hint [1;8;2]; Code [99;100;10]; Hint []; Code [101]]%N in
  let iss := [[Code [97;10]]; [Code [98]; Hint [1;8;2]; Code [99]]; [Code [100;10]; Hint []; Code [101]]]%N in
  chunking_of items iss /\
  run_chunks (map render iss) = Some ([97;10;98;99;100;10;101], [(2,1,[1;8;2]); (3,0,[])])%N.
Proof. vm_compute. split; [split|]; reflexivity. Qed.

(* The encoded map ("mappings" string, Sources, Names): model of writeVLQ/readVLQ, Map.EncodeMappings
   (after its sort) and Map.decodeMappings of github.com/neelance/sourcemap, through which filter.go
   writes every mapping and reads esbuild's maps.  Tie: props/c19.py compares the model's encoding with
   the real string and the model's decoding with the real DecodedMappings on every map of the run. *)

(* one number: whatever was read before and whatever follows, readVLQ returns exactly the written value and
   stops right behind it (all of Z: negative differences, zero, arbitrarily many base-32 digits) *)
Theorem C19_vlq_roundtrip : forall v bef rest,
  read_vlq (bef, write_vlq v ++ rest) = (Some v, (rev (write_vlq v) ++ bef, rest)).
Proof. exact read_write_vlq. Qed.
Print Assumptions C19_vlq_roundtrip.

(* the round trip without [last_has_file]: false, see C19_codec_roundtrip_trailing_sourceless_refuted below *)
Definition C19_codec_roundtrip_full_statement : Prop := forall ms s srcs names,
  lines_sorted 1%Z ms = true ->
  encode_mappings ms = (s, srcs, names) ->
  decode_mappings srcs names s = Some (map canon ms).

(* the whole codec, for EVERY list of mappings whose generated lines start at >= 1 and never decrease
   (what the sort establishes) and which is empty or ends in a mapping with a file: decoding the written
   string with the written tables yields the list again - generated line and column, file, original line
   and column, name - where a mapping without a file keeps only its generated position ([canon]; that is
   how EncodeMappings writes it).  The proof follows the real reader, including the four-field segment at
   the very end of the string, after which the decoder's UnreadByte at EOF makes the loop go round once
   more over the last digit. *)
Theorem C19_mappings_codec_roundtrip : forall ms s srcs names,
  lines_sorted 1%Z ms = true -> last_has_file ms = true ->
  encode_mappings ms = (s, srcs, names) ->
  decode_mappings srcs names s = Some (map canon ms).
Proof. exact mappings_roundtrip. Qed.
Print Assumptions C19_mappings_codec_roundtrip.

(* Without [last_has_file] the statement is FALSE of the decoder as written: a final mapping without a file
   (a one-field segment at the end of the string, e.g. "AAqBkC,A") is lost - strings.Reader.UnreadByte after
   the ReadByte that failed at EOF steps back over the last digit, the digit is counted twice more and the
   segment ends with count = 3.  GopherJS applies this decoder only to esbuild's maps of the prelude (whose
   segments have four fields), never to the maps it writes, so no emitted map is affected: an observation
   about the dependency, replayed against the real decoder on every run, not a violation of C19. *)
Theorem C19_codec_roundtrip_trailing_sourceless_refuted :
  lines_sorted 1%Z trailing_witness = true /\
  trailing_result = Some (removelast (map canon trailing_witness)).
Proof. vm_compute. split; reflexivity. Qed.
Print Assumptions C19_codec_roundtrip_trailing_sourceless_refuted.

Theorem C19_mappings_codec_injective : forall ms1 ms2,
  lines_sorted 1%Z ms1 = true -> lines_sorted 1%Z ms2 = true ->
  last_has_file ms1 = true -> last_has_file ms2 = true ->
  encode_mappings ms1 = encode_mappings ms2 -> map canon ms1 = map canon ms2.
Proof.
  intros ms1 ms2 H1 H2 L1 L2 E.
  destruct (encode_mappings ms1) as [[s a] b] eqn:E1. symmetry in E.
  pose proof (mappings_roundtrip _ _ _ _ H1 L1 E1) as R1.
  pose proof (mappings_roundtrip _ _ _ _ H2 L2 E) as R2. congruence.
Qed.
Print Assumptions C19_mappings_codec_injective.

(* the "mappings" string consists of base64 digits, ',' and ';' only (so it never needs JSON escaping
   and never contains a hint byte) *)
Theorem C19_mappings_alphabet : forall ms s srcs names,
  encode_mappings ms = (s, srcs, names) -> forallb out_char s = true.
Proof. intros ms s srcs names. apply enc_from_chars. Qed.
Print Assumptions C19_mappings_alphabet.

(* Non-vacuity: a file-less mapping, a line jump, a repeated and a new file, a name, a big negative delta. *)
Example C19_codec_nonvacuous :
  let ms := [ {| m_gl := 1; m_gc := 0; m_file := [97%N]; m_ol := 3; m_oc := 1; m_name := [] |};
              {| m_gl := 1; m_gc := 40; m_file := []; m_ol := 0; m_oc := 0; m_name := [] |};
              {| m_gl := 4; m_gc := 1000; m_file := [98%N]; m_ol := 1000000; m_oc := 100; m_name := [120%N] |};
              {| m_gl := 4; m_gc := 1000; m_file := [97%N]; m_ol := 1; m_oc := 0; m_name := [120%N] |} ]%Z in
  lines_sorted 1%Z ms = true /\ last_has_file ms = true /\
  (let '(s, a, b) := encode_mappings ms in decode_mappings a b s) = Some ms.
Proof. vm_compute. repeat split; reflexivity. Qed.
