(* C20 — The build cache is transparent, never stale and tolerates damage.
   This file holds ONLY the property theorems (each closed by a lemma of Proofs/ or a few lines from one), their
   Print Assumptions and non-vacuity examples.
   Model: Model/C20_Cache.v (build/cache/cache.go after c802f28: Load decompresses the whole stream,
   which verifies the gzip CRC-32 and size, before it decodes anything).
   Tie: harness/py/props/c20.py runs the real BuildCache, serializer and compiler and the model on
   the same histories / keys / damaged files.

   Code outside the repository appears as universally quantified parameters with explicit
   hypotheses (never axioms):
     H         SHA-256 -> file name: fixed length, injective on the keys that occur
     enc / unzip, dec_time, dec_body   gzip(gob(..)) and its reader:
       round trip;  every proper prefix of a stored file fails to decode;
       crc32_detects_single_byte_damage: a file with one changed byte fails to decode or decodes to
       the unchanged entry (gzip header bits that carry no data) — the hypothesis about CRC-32.
   These are satisfied by the toy codec (C20_codec_hypotheses_satisfiable) and are validated on
   the real codec at every run of the check. *)
From Coq Require Import String Ascii.
From Coq Require Import List NArith ZArith Bool.
From Verif Require Import Model.C20_Cache Proofs.C20_Cache.
Import ListNotations.
Local Open Scope N_scope.

(* Transparency at the cache level: what a completed Store wrote is what Load returns,
   as long as the sources are not newer than the build time. *)
Theorem C20_load_after_store :
  forall (E : Type) (H : bytes -> bytes) (enc : Z -> E -> bytes) (unzip : bytes -> option bytes)
         (dec_time : bytes -> option Z) (dec_body : bytes -> option E),
    (forall t e, dec_full E unzip dec_time dec_body (enc t e) = Some (t, e)) ->
    forall f c ip t e rnd tsrc,
      is_test c ip = false -> (tsrc <= t)%Z ->
      snd (store E H enc f (Some c) ip t e rnd Done) = true /\
      load E H unzip dec_time dec_body (fst (store E H enc f (Some c) ip t e rnd Done)) (Some c) ip tsrc = Some (t, e).
Proof. exact load_after_store. Qed.
Print Assumptions C20_load_after_store.

(* Soundness over EVERY history of stores (completed, killed after any file-system step or
   byte, failed), truncations of any file to any length and deletions: a Load that returns an
   entry returns what the last published Store for the same key string stored, and that entry is
   not older than the sources; the package under test never gets an entry. *)
Theorem C20_load_sound :
  forall (E : Type) (H : bytes -> bytes) (enc : Z -> E -> bytes) (unzip : bytes -> option bytes)
         (dec_time : bytes -> option Z) (dec_body : bytes -> option E),
    (forall t e, dec_full E unzip dec_time dec_body (enc t e) = Some (t, e)) ->
    forall hlen : nat, (forall k, length (H k) = hlen) ->
    (forall t e k, (k < length (enc t e))%nat -> dec_full E unzip dec_time dec_body (firstn k (enc t e)) = None) ->
    forall (h : list (event E)) c ip tsrc t e,
      rnds_ok E h = true ->
      (forall k, In k (keys_of E h) -> H k = H (key c ip) -> k = key c ip) ->
      load E H unzip dec_time dec_body (run E H enc h) (Some c) ip tsrc = Some (t, e) ->
      last_done E H enc h (key c ip) = Some (t, e) /\ (tsrc <= t)%Z /\ is_test c ip = false.
Proof. exact load_sound. Qed.
Print Assumptions C20_load_sound.

(* ... hence never another configuration's or another package's entry: for Clean-stable
   strings the store that produced the entry had the same GOOS, GOARCH, GOROOT, GOPATH,
   BuildTags, Version and the same import path. *)
Theorem C20_load_sound_same_config :
  forall (E : Type) (H : bytes -> bytes) (enc : Z -> E -> bytes) (unzip : bytes -> option bytes)
         (dec_time : bytes -> option Z) (dec_body : bytes -> option E),
    (forall t e, dec_full E unzip dec_time dec_body (enc t e) = Some (t, e)) ->
    forall hlen : nat, (forall k, length (H k) = hlen) ->
    (forall t e k, (k < length (enc t e))%nat -> dec_full E unzip dec_time dec_body (firstn k (enc t e)) = None) ->
    forall (h : list (event E)) c ip tsrc t e,
      rnds_ok E h = true ->
      (forall k, In k (keys_of E h) -> H k = H (key c ip) -> k = key c ip) ->
      forallb wf_event h = true -> wfb c ip = true ->
      load E H unzip dec_time dec_body (run E H enc h) (Some c) ip tsrc = Some (t, e) ->
      (tsrc <= t)%Z /\ is_test c ip = false /\
      exists c' rnd o,
        In (EStore (Some c') ip t e rnd o) h /\ common c' = common c /\ is_test c' ip = false /\
        publishes E H enc c' ip t e rnd o = true /\
        last_done E H enc h (key c ip) = Some (t, e).
Proof. exact load_sound_same_config. Qed.
Print Assumptions C20_load_sound_same_config.

(* The key is injective in every build parameter and the import path, for strings that
   path.Clean leaves alone ([wfb] is decidable: key = package/commonKey[/importPath]). *)
Theorem C20_key_injective : forall c1 ip1 c2 ip2,
  wfb c1 ip1 = true -> wfb c2 ip2 = true ->
  key c1 ip1 = key c2 ip2 -> common c1 = common c2 /\ ip1 = ip2.
Proof. exact key_injective. Qed.
Print Assumptions C20_key_injective.

(* Why the hypothesis is needed: path.Join cleans the whole key, so GOROOT=/a//b, GOROOT=/a/b
   and GOROOT=/a/x/../b collide. *)
Example C20_key_collision_unclean_example :
  let mk r := {| goos := s2b "linux"; goarch := s2b "js"; goroot := s2b r; gopath := s2b "/go";
                 tags := None; version := s2b "1.20"; tested := [] |} in
  let ip := s2b "p" in
  key (mk "/a//b"%string) ip = key (mk "/a/b"%string) ip /\ key (mk "/a/x/../b"%string) ip = key (mk "/a/b"%string) ip /\
  wfb (mk "/a/b"%string) ip = true /\ wfb (mk "/a//b"%string) ip = false /\ wfb (mk "/a/x/../b"%string) ip = false /\
  common (mk "/a//b"%string) <> common (mk "/a/b"%string).
Proof. vm_compute. repeat split; try reflexivity. intro Hx; discriminate Hx. Qed.

(* A crash after ANY number of file-system steps of Store (temp file created, any number of
   bytes written, renamed) leaves every final file as it was, or is the completed Store:
   every later Load gives what it gave before or what it gives after the complete Store. *)
Theorem C20_crash_is_miss_or_complete :
  forall (E : Type) (H : bytes -> bytes) (enc : Z -> E -> bytes) (unzip : bytes -> option bytes)
         (dec_time : bytes -> option Z) (dec_body : bytes -> option E) (hlen : nat),
    (forall k, length (H k) = hlen) ->
    forall f c ip t e (rnd : list N) n oc' ip' tsrc,
      rnd <> [] ->
      let f' := fst (store E H enc f (Some c) ip t e rnd (CrashAfter n)) in
      load E H unzip dec_time dec_body f' oc' ip' tsrc = load E H unzip dec_time dec_body f oc' ip' tsrc \/
      load E H unzip dec_time dec_body f' oc' ip' tsrc =
        load E H unzip dec_time dec_body (fst (store E H enc f (Some c) ip t e rnd Done)) oc' ip' tsrc.
Proof. exact crash_is_miss_or_complete. Qed.
Print Assumptions C20_crash_is_miss_or_complete.

Theorem C20_crash_unchanged_or_complete :
  forall (E : Type) (H : bytes -> bytes) (enc : Z -> E -> bytes) (hlen : nat),
    (forall k, length (H k) = hlen) ->
    forall f c ip t e (rnd : list N) n,
      rnd <> [] ->
      let f' := fst (store E H enc f (Some c) ip t e rnd (CrashAfter n)) in
      (forall k, fs_get f' (H k) = fs_get f (H k)) \/
      f' = fst (store E H enc f (Some c) ip t e rnd Done).
Proof. exact crash_unchanged_or_complete. Qed.
Print Assumptions C20_crash_unchanged_or_complete.

(* A Store whose serialisation fails after any number of bytes reports failure and changes
   no Load result. *)
Theorem C20_failed_store_changes_nothing :
  forall (E : Type) (H : bytes -> bytes) (enc : Z -> E -> bytes) (unzip : bytes -> option bytes)
         (dec_time : bytes -> option Z) (dec_body : bytes -> option E) (hlen : nat),
    (forall k, length (H k) = hlen) ->
    forall f c ip t e (rnd : list N) n oc' ip' tsrc,
      rnd <> [] ->
      snd (store E H enc f (Some c) ip t e rnd (Fail n)) = false /\
      load E H unzip dec_time dec_body (fst (store E H enc f (Some c) ip t e rnd (Fail n))) oc' ip' tsrc =
        load E H unzip dec_time dec_body f oc' ip' tsrc.
Proof. exact failed_store_changes_nothing. Qed.
Print Assumptions C20_failed_store_changes_nothing.

(* Damage.  A missing file is a miss; EVERY truncated file (any proper prefix, the trailer
   included) is a miss; a file with one changed byte is a miss or the unchanged complete entry
   (the latter under the named hypothesis about CRC-32). *)
Theorem C20_missing_is_miss :
  forall (E : Type) (H : bytes -> bytes) (unzip : bytes -> option bytes) (dec_time : bytes -> option Z)
         (dec_body : bytes -> option E) f c ip tsrc,
    fs_get f (final_name H c ip) = None -> load E H unzip dec_time dec_body f (Some c) ip tsrc = None.
Proof. exact missing_is_miss. Qed.
Print Assumptions C20_missing_is_miss.

Theorem C20_corruption_is_miss :
  forall (E : Type) (H : bytes -> bytes) (enc : Z -> E -> bytes) (unzip : bytes -> option bytes)
         (dec_time : bytes -> option Z) (dec_body : bytes -> option E),
    (forall t e k, (k < length (enc t e))%nat -> dec_full E unzip dec_time dec_body (firstn k (enc t e)) = None) ->
    forall f c ip t e k tsrc,
      fs_get f (final_name H c ip) = Some (firstn k (enc t e)) ->
      (k < length (enc t e))%nat ->
      load E H unzip dec_time dec_body f (Some c) ip tsrc = None.
Proof. exact truncated_is_miss. Qed.
Print Assumptions C20_corruption_is_miss.

Theorem C20_flipped_is_miss_or_same :
  forall (E : Type) (H : bytes -> bytes) (enc : Z -> E -> bytes) (unzip : bytes -> option bytes)
         (dec_time : bytes -> option Z) (dec_body : bytes -> option E),
    crc32_detects_single_byte_damage E enc unzip dec_time dec_body ->
    forall f c ip t e pre x y post tsrc,
      enc t e = pre ++ x :: post -> x <> y ->
      fs_get f (final_name H c ip) = Some (pre ++ y :: post) ->
      load E H unzip dec_time dec_body f (Some c) ip tsrc = None \/
      load E H unzip dec_time dec_body f (Some c) ip tsrc = Some (t, e).
Proof. exact flipped_is_miss_or_same. Qed.
Print Assumptions C20_flipped_is_miss_or_same.

(* The package under test (and its _test variant) is never stored nor loaded; a nil cache
   stores and loads nothing. *)
Theorem C20_test_package_never_cached :
  forall (E : Type) (H : bytes -> bytes) (enc : Z -> E -> bytes) (unzip : bytes -> option bytes)
         (dec_time : bytes -> option Z) (dec_body : bytes -> option E) f c ip t e rnd o tsrc,
    is_test c ip = true ->
    store E H enc f (Some c) ip t e rnd o = (f, false) /\ load E H unzip dec_time dec_body f (Some c) ip tsrc = None.
Proof. exact test_package_never_cached. Qed.
Print Assumptions C20_test_package_never_cached.

Theorem C20_nil_cache_never_caches :
  forall (E : Type) (H : bytes -> bytes) (enc : Z -> E -> bytes) (unzip : bytes -> option bytes)
         (dec_time : bytes -> option Z) (dec_body : bytes -> option E) f ip t e rnd o tsrc,
    store E H enc f None ip t e rnd o = (f, false) /\ load E H unzip dec_time dec_body f None ip tsrc = None.
Proof. exact nil_cache_never_caches. Qed.
Print Assumptions C20_nil_cache_never_caches.

(* Non-vacuity 1: the codec hypotheses used above (round trip, every proper prefix fails,
   single-byte damage detected) are satisfiable — the toy codec (magic, length, data, checksum
   trailer, all verified before decoding) satisfies all three. *)
Theorem C20_codec_hypotheses_satisfiable : codec_ok toyE toy_enc toy_unzip toy_dec_time toy_dec_body.
Proof. exact toy_codec_ok. Qed.
Print Assumptions C20_codec_hypotheses_satisfiable.

(* Non-vacuity 2: a concrete history (newest first): store under c1; store under c2 (other
   GOARCH); a second store under c1 killed after 5 steps; the c1 file cut by k bytes.
   Uncut (k = 0): c1 gets its complete entry, not c2's; sources newer by 1ns: miss;
   cut by 1 byte (inside the trailer): miss; the tested package: miss. *)
Example C20_nonvacuous :
  let c1 := {| goos := s2b "linux"; goarch := s2b "js"; goroot := s2b "/usr/go"; gopath := s2b "/go";
               tags := Some [s2b "a"]; version := s2b "1.20"; tested := [] |} in
  let c2 := {| goos := s2b "linux"; goarch := s2b "wasm"; goroot := s2b "/usr/go"; gopath := s2b "/go";
               tags := Some [s2b "a"]; version := s2b "1.20"; tested := [] |} in
  let ct := {| goos := s2b "linux"; goarch := s2b "js"; goroot := s2b "/usr/go"; gopath := s2b "/go";
               tags := Some [s2b "a"]; version := s2b "1.20"; tested := s2b "p" |} in
  let ip := s2b "p" in
  let Ht := table_H [(key c1 ip, repeat 1 64); (key c2 ip, repeat 2 64)] in
  let h k := [ETrunc (Ht (key c1 ip)) (length (toy_enc 10 [[1; 2]; []]) - k);
              EStore (Some c1) ip 20%Z [[9]] [7] (CrashAfter 5);
              EStore (Some c2) ip 11%Z [[3]] [6] Done;
              EStore (Some c1) ip 10%Z [[1; 2]; []] [5] Done] in
  let ld k c tsrc := load toyE Ht toy_unzip toy_dec_time toy_dec_body (run toyE Ht toy_enc (h k)) (Some c) ip tsrc in
  wfb c1 ip = true /\ wfb c2 ip = true /\ key c1 ip <> key c2 ip /\
  ld 0%nat c1 10%Z = Some (10%Z, [[1; 2]; []]) /\ ld 0%nat c2 10%Z = Some (11%Z, [[3]]) /\
  ld 0%nat c1 11%Z = None /\ ld 1%nat c1 10%Z = None /\ ld 0%nat ct 10%Z = None.
Proof. vm_compute. repeat split; try reflexivity. intro Hx; discriminate Hx. Qed.
